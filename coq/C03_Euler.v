(* C03_Euler.v — whole-layout exactness of the unscented transform for layouts with linear rows,
   Euler-angle (circular) rows and an appended noise block, at the real matrix instance RF
   (C03_RFun.v), on top of C19's circle theory.
   Setting: input layout (lin, circ Euler angles, noise rows), output layout (olin, ocirc Euler
   angles); the propagated function is the one the correspondence harness runs, column by column
   x -> Am x + b in STORAGE coordinates, where
     - a linear output row does not read the circular input rows       (map_lin_structure)
     - a circular output row reads circular input rows with INTEGER coefficients (identity,
       permutation, differences of angles ...: a rotation / offset of the circle) (map_circ_structure)
   and reads linear and noise rows with arbitrary real coefficients.
   Smallness (small_spread), per component, in terms of the factor A = sq P the oracle returned:
     every sigma offset sqrt(c) A_jk on a circular input row and every propagated offset
     sqrt(c) (Am A)_ik on a circular output row is within a half turn (absolute value < PI), and
     the weighted resultant w0 + 2 wi sum_k cos(sqrt(c) (Am A)_ik) of each circular output row is
     positive (w0 < 0 for small alpha).  C03_Spread.v derives all three from bounds on the
     covariance alone.
   Result: mean = Am m + b (exactly on linear rows, arg(exp(j .)) of it on circular rows),
   covariance = Am P Am^T (+ N), cross-covariance = the non-noise rows of P Am^T, for every
   component of the mixture (euler_image); the five overloads follow by C03_Sigma.core_exact
   (Properties_C03_Real.v).
   The file starts with what holds for any pair of layouts (on top of C03_Sigma.v): what has to be shown
   of the block rows for the covariance to be J P J^T and the cross-covariance P J^T (SymComponent);
   C03_Quat.v stands on it as well.
   Axioms: the four standard axioms of Coq's Reals. *)
Require Import ZArith Reals Lra Lia List Bool Arith.
Require Import BFL.Ops BFL.ListFacts BFL.C03_Model BFL.C19_ROps BFL.C19_Model BFL.C19_Proofs BFL.C03_Real BFL.C03_RFun BFL.C03_Sigma.
Import ListNotations.
Local Open Scope R_scope.

Lemma rsum_cong2pi n f g : (forall k, (k < n)%nat -> cong2pi (g k) (f k)) -> cong2pi (rsum n g) (rsum n f).
Proof.
  induction n as [|n IH]; intros H; simpl; [apply cong2pi_refl|].
  apply cong2pi_plus; [apply IH; intros; apply H; lia | apply H; lia].
Qed.

Lemma cong2pi_int_mult (z : Z) x y : cong2pi x y -> cong2pi (IZR z * x) (IZR z * y).
Proof. intros [k ->]. exists (z * k)%Z. rewrite mult_IZR. lra. Qed.

Lemma Rabs_in_range x : Rabs x < PI -> in_range x /\ in_range (- x).
Proof. intros H. apply Rabs_def2 in H. unfold in_range. lra. Qed.

Lemma in_range_0 : in_range 0.
Proof. unfold in_range. pose proof PI_RGT_0. lra. Qed.

Lemma Forall2_map_seq {A B} (R : A -> B -> Prop) (f : nat -> A) (g : nat -> B) n :
  (forall k, (k < n)%nat -> R (f k) (g k)) -> Forall2 R (map f (seq 0 n)) (map g (seq 0 n)).
Proof.
  intros H. assert (G : forall a, (forall k, (a <= k < a + n)%nat -> R (f k) (g k)) ->
                              Forall2 R (map f (seq a n)) (map g (seq a n))).
  { clear H. induction n as [|n IH]; intros a H; simpl; constructor; [apply H; lia | apply IH; intros; apply H; lia]. }
  apply G. intros; apply H; lia.
Qed.

Lemma fold_right_lsumR {A} (f : A -> R) l : fold_right (fun p acc => f p + acc) 0 l = lsumR f l.
Proof. induction l; simpl; [reflexivity|]. now rewrite IHl. Qed.

(* the scalar circle helpers depend on the matrix instance only through its scalars *)
Section ScalarBridge.
Variables sq eg : nat -> fmx -> fmx.
Notation O := (RF sq eg).
Lemma wrapF x : C03_Model.wrap (O:=O) x = C19_Model.wrap ROps x.
Proof. exact (wrap_is_C19 x). Qed.
Lemma dir_addF a b : C03_Model.dir_add (O:=O) a b = C19_Model.wrap ROps (a + b).
Proof. exact (dir_add_is_wrap a b). Qed.
Lemma dir_subF a b : C03_Model.dir_sub (O:=O) a b = C19_Model.wrap ROps (a - b).
Proof. exact (dir_sub_is_wrap a b). Qed.
End ScalarBridge.

Definition factor_ok (sq : nat -> fmx -> fmx) (dc : nat) (P : fmx) : Prop :=
  forall a b, (a < dc)%nat -> (b < dc)%nat -> rsum dc (fun k => sq dc P a k * sq dc P b k) = P a b.

Definition circ_row (l c i : nat) : bool := (l <=? i)%nat && (i <? l + c)%nat.

Section Images.
Variables sq : nat -> fmx -> fmx.
Variables lin circ : nat.
Variables d dc : nat.
Notation cin := (circ_row lin circ).
Variables (c : R) (m P : fmx) (Am b : fmx).
Let s := sqrt c.
Let A := sq dc P.

(* (Am A)_ik *)
Definition AmA (i k : nat) : R := rsum d (fun j => Am i j * A j k).

(* sigma points: mean (+) tangent offset e *)
Definition is_sigma (e : nat -> R) (x : fmx) : Prop :=
  forall j, (j < d)%nat ->
    x j 0%nat = if cin j then C19_Model.wrap ROps (e j + m j 0%nat) else e j + m j 0%nat.

(* what the transformed components are compared with *)
Definition mu (i : nat) : R := rsum d (fun j => Am i j * m j 0%nat) + b i 0%nat.
Definition cov_image (i j : nat) : R := rsum d (fun a => rsum d (fun b' => Am i a * P a b' * Am j b')).
Definition cross_image (i j : nat) : R := rsum d (fun b' => P i b' * Am j b').

Variables (w0 w0c wi : R).
Lemma sigma_moment1 j : w0 * 0 + rsum dc (fun k => wi * (s * A j k)) + rsum dc (fun k => wi * - (s * A j k)) = 0.
Proof.
  rewrite (rsum_ext dc (fun k => wi * - (s * A j k)) (fun k => - (wi * (s * A j k)))) by (intros; lra).
  rewrite rsum_opp. lra.
Qed.

(* the tangent offsets of the 2 dc + 1 sigma points, in the order of the sigma-point matrix *)
Definition tangent_offsets : list (nat -> R) :=
  (fun _ => 0) :: (map (fun k j => s * A j k) (seq 0 dc) ++ map (fun k j => - (s * A j k)) (seq 0 dc)).
End Images.

(* Gram identities: (M A)(M A)^T = M P M^T and A (M A)^T = P M^T for a factor A A^T = P *)
Section Gram.
Variables (sq : nat -> fmx -> fmx) (n dc : nat) (P M : fmx).
Hypothesis n_le : (n <= dc)%nat.
Hypothesis factor : factor_ok sq dc P.

Lemma gram_cov i j : rsum dc (fun k => AmA sq n dc P M i k * AmA sq n dc P M j k) = cov_image n P M i j.
Proof.
  transitivity (rsum dc (fun k => rsum n (fun a => rsum n (fun b' => (M i a * sq dc P a k) * (M j b' * sq dc P b' k))))).
  { apply rsum_ext. intros k _. unfold AmA. rewrite <- rsum_scal_r. apply rsum_ext. intros a _.
    rewrite <- rsum_scal. reflexivity. }
  rewrite rsum_swap. apply rsum_ext. intros a Ha. rewrite rsum_swap. apply rsum_ext. intros b' Hb.
  rewrite <- (factor a b') by lia. rewrite <- rsum_scal, <- rsum_scal_r. apply rsum_ext. intros; lra.
Qed.

Lemma gram_cross i j : (i < dc)%nat -> rsum dc (fun k => sq dc P i k * AmA sq n dc P M j k) = cross_image n P M i j.
Proof.
  intros Hi.
  transitivity (rsum dc (fun k => rsum n (fun b' => sq dc P i k * (M j b' * sq dc P b' k)))).
  { apply rsum_ext. intros k _. unfold AmA. rewrite <- rsum_scal. reflexivity. }
  rewrite rsum_swap. apply rsum_ext. intros b' Hb.
  rewrite <- (factor i b') by lia. rewrite <- rsum_scal_r. apply rsum_ext. intros; lra.
Qed.
End Gram.

(* (M e)_i over the first n coordinates; AmA is the image of a column of the factor *)
Definition lin_img (n : nat) (M : fmx) (e : nat -> R) (i : nat) : R := rsum n (fun j => M i j * e j).

Lemma lin_img_zero n M i : lin_img n M (fun _ => 0) i = 0.
Proof. unfold lin_img. transitivity (rsum n (fun _ => 0)); [apply rsum_ext; intros; ring | apply rsum_0]. Qed.
Lemma lin_img_scal n M s e i : lin_img n M (fun j => s * e j) i = s * lin_img n M e i.
Proof. unfold lin_img. rewrite <- rsum_scal. apply rsum_ext. intros; lra. Qed.
Lemma lin_img_opp n M e i : lin_img n M (fun j => - e j) i = - lin_img n M e i.
Proof. unfold lin_img. rewrite <- rsum_opp. apply rsum_ext. intros; lra. Qed.

(* one transformed component, any pair of layouts.  The map is x -> Am x + b; J (pc x n, n <= dc) is its tangent map.  On the linear rows the
   layout-driven functions are plain sums and differences, so all that is asked of the layouts is how
   the block rows read the sigma set (in_block, out_block) and that a linear output row is affine in
   the tangent offset (lin_map); the covariance J P J^T and the cross-covariance P J^T follow. *)
Section SymComponent.
Variables sq eg : nat -> fmx -> fmx.
Notation O := (RF sq eg).
Variables (Lin Lout : layout) (d dc dx p pc n : nat) (c : R) (m P Am b J : fmx) (w0 w0c wi : R).
Hypothesis c_pos : 0 < c.
Hypothesis w_sum : w0 + 2 * INR dc * wi = 1.
Hypothesis w_i : 2 * wi * c = 1.
Hypothesis factor : factor_ok sq dc P.
Hypothesis n_le : (n <= dc)%nat.
Hypothesis rows_in : (l_lin Lin <= dx)%nat /\ (dx <= d)%nat /\ (dx <= dc)%nat.
Hypothesis rows_out : (l_lin Lout <= pc)%nat /\ (pc <= p)%nat.

Let wm := w0 :: repeat wi (2 * dc).
Let wc := w0c :: repeat wi (2 * dc).
Let Xs := sigma_comp (O:=O) Lin d dc c m P.
Let Ys := affine_cols (O:=O) (d:=d) (p:=p) Am b Xs.
Let ybar := out_mean (O:=O) Lout p wm Ys.
Notation Yf x := (@madd O p 1 (@mmul O p d 1 Am x) b).
Notation reads := (sym_reads sq eg Lin d dc c m P).

Hypothesis lin_map : forall i, (i < l_lin Lout)%nat ->
  reads (fun x => Yf x i 0%nat - mu d m Am b i) (AmA sq n dc P J i).
Hypothesis in_block : forall i, (l_lin Lin <= i < dx)%nat ->
  reads (fun x => offsets (O:=O) Lin (p:=d) dx x m i 0%nat) (sq dc P i).
Hypothesis out_block : forall i, (l_lin Lout <= i < pc)%nat ->
  reads (fun x => offsets (O:=O) Lout (p:=p) pc (Yf x) ybar i 0%nat) (AmA sq n dc P J i).

Lemma sym_mean_lin i : (i < l_lin Lout)%nat -> ybar i 0%nat = mu d m Am b i.
Proof.
  intros Hi. unfold ybar. rewrite out_mean_entry, (proj2 (Nat.ltb_lt _ _) Hi) by lia.
  rewrite wsum_get by lia. unfold Ys, affine_cols. rewrite combine_map_r, lsumR_map. cbn [fst snd].
  apply sym_first_moment with (F := fun x => Yf x i 0%nat) (u := AmA sq n dc P J i); [exact w_sum | exact (lin_map i Hi)].
Qed.

Lemma in_reads i : (i < dx)%nat -> reads (fun x => offsets (O:=O) Lin (p:=d) dx x m i 0%nat) (sq dc P i).
Proof.
  clear - rows_in in_block. intros Hi.
  destruct (Nat.lt_ge_cases i (l_lin Lin)) as [Hl|Hl]; [apply lin_reads; lia | apply in_block; lia].
Qed.

Lemma out_reads i : (i < pc)%nat ->
  reads (fun x => offsets (O:=O) Lout (p:=p) pc (Yf x) ybar i 0%nat) (AmA sq n dc P J i).
Proof.
  intros Hi. destruct (Nat.lt_ge_cases i (l_lin Lout)) as [Hl|Hl]; [|apply out_block; lia].
  destruct (lin_map i Hl) as [F0 Fk].
  split; [|intros k Hk; destruct (Fk k Hk) as [Fp Fn]; split]; rewrite offsets_lin, (sym_mean_lin i Hl) by lia; assumption.
Qed.

Let u := ut_component (O:=O) Lin Lout (d:=d) (p:=p) pc dx (mkUtw (O:=O) wm wc c) m Xs Ys.

Lemma sym_comp_cov i j : (i < pc)%nat -> (j < pc)%nat -> @mget O pc pc (uc_cov u) i j = cov_image n P J i j.
Proof.
  intros Hi Hj. unfold u, ut_component. cbn [uc_cov w_cov w_mean]. fold ybar.
  rewrite wouter_get by assumption.
  unfold Ys, affine_cols. rewrite map_map, combine_map2, combine_map_r, lsumR_map. cbn [fst snd].
  rewrite <- (gram_cov sq n dc P J n_le factor i j).
  apply sym_second_moment with (F := fun x => offsets (O:=O) Lout (p:=p) pc (Yf x) ybar i 0%nat)
                               (G := fun x => offsets (O:=O) Lout (p:=p) pc (Yf x) ybar j 0%nat);
    [exact c_pos | exact w_i | apply out_reads; exact Hi | apply out_reads; exact Hj].
Qed.

Lemma sym_comp_cross i j : (i < dx)%nat -> (j < pc)%nat -> @mget O dx pc (uc_cross u) i j = cross_image n P J i j.
Proof.
  intros Hi Hj. unfold u, ut_component. cbn [uc_cross w_cov w_mean]. fold ybar.
  rewrite wouter_get by assumption.
  unfold Ys, affine_cols. rewrite map_map, combine_map2, combine_map_r, lsumR_map. cbn [fst snd].
  rewrite <- (gram_cross sq n dc P J n_le factor i j) by lia.
  apply sym_second_moment with (F := fun x => offsets (O:=O) Lin (p:=d) dx x m i 0%nat)
                               (G := fun x => offsets (O:=O) Lout (p:=p) pc (Yf x) ybar j 0%nat);
    [exact c_pos | exact w_i | apply in_reads; exact Hi | apply out_reads; exact Hj].
Qed.
End SymComponent.

Lemma circ_row_true l c i : circ_row l c i = true <-> (l <= i < l + c)%nat.
Proof. unfold circ_row. rewrite andb_true_iff, Nat.leb_le, Nat.ltb_lt. reflexivity. Qed.

(* the circular rows of a layout of Euler angles: arg(exp(j .)) of the sum, of the difference, and the
   directional mean *)
Section CircRows.
Variables sq eg : nat -> fmx -> fmx.
Notation O := (RF sq eg).
Variable L : layout.
Hypothesis Lq : l_quat L = false.

Lemma add_mean_circ d dc central (m pt : fmx) i : (l_lin L <= i < l_lin L + l_circ L)%nat -> (i < d)%nat -> (i < dc)%nat ->
  add_mean (O:=O) L d dc central m pt i 0%nat = C19_Model.wrap ROps (pt i 0%nat + m i 0%nat).
Proof.
  intros Hi Hd Hdc. rewrite add_mean_entry by assumption. unfold add_mean_row, l_cw. rewrite Lq.
  rewrite (proj2 (Nat.ltb_ge i (l_lin L))), (proj2 (Nat.ltb_lt i (l_lin L + l_circ L * 1))) by lia.
  rewrite dir_addF, !colget_entry by assumption. reflexivity.
Qed.

Lemma offsets_circ rows pc (y ref : fmx) i : (l_lin L <= i < l_lin L + l_circ L)%nat -> (i < pc)%nat -> (i < rows)%nat ->
  offsets (O:=O) L (p:=rows) pc y ref i 0%nat = C19_Model.wrap ROps (y i 0%nat - ref i 0%nat).
Proof.
  intros Hi Hp Hr. rewrite offsets_entry by assumption. unfold offset_row, l_tw. rewrite Lq.
  rewrite (proj2 (Nat.ltb_ge i (l_lin L))), (proj2 (Nat.ltb_lt i (l_lin L + l_circ L * 1))) by lia.
  rewrite dir_subF, !colget_entry by assumption. reflexivity.
Qed.

Lemma out_mean_circ p wm (Ys : list fmx) i : (l_lin L <= i < l_lin L + l_circ L)%nat -> (i < p)%nat ->
  out_mean (O:=O) L p wm Ys i 0%nat = C03_Model.dir_mean (O:=O) wm (map (fun y => colget (O:=O) (r:=p) y i) Ys).
Proof.
  intros Hi Hp. rewrite out_mean_entry by assumption. unfold l_cw. rewrite Lq.
  rewrite (proj2 (Nat.ltb_ge i (l_lin L))), (proj2 (Nat.ltb_lt i (l_lin L + l_circ L * 1))) by lia. reflexivity.
Qed.
End CircRows.

Section EulerComponent.
Variables sq eg : nat -> fmx -> fmx.
Notation O := (RF sq eg).
Variables lin circ noise olin ocirc : nat.
Let Lin := mkLayout lin circ false noise.
Let Lout := mkLayout olin ocirc false 0.
(* storage / covariance / non-noise rows of the input, rows of the output *)
Variables d dc dx p pc : nat.
Hypothesis Hd : d = (lin + circ + noise)%nat.
Hypothesis Hdc : dc = d.
Hypothesis Hdx : dx = (lin + circ)%nat.
Hypothesis Hp : p = (olin + ocirc)%nat.
Hypothesis Hpc : pc = p.
Notation cin := (circ_row lin circ).
Notation cout := (circ_row olin ocirc).

Variables (c : R) (m P : fmx) (Am b : fmx).
Let s := sqrt c.
Let A := sq dc P.
Hypothesis c_pos : 0 < c.
(* the oracle's factor: A A^T = P on the dc x dc block *)
Hypothesis factor : factor_ok sq dc P.
(* structure of the map *)
Hypothesis map_lin_structure : forall i j, (i < olin)%nat -> cin j = true -> Am i j = 0.
Hypothesis map_circ_structure : forall i j, cout i = true -> cin j = true -> exists z : Z, Am i j = IZR z.
Notation AmA := (AmA sq d dc P Am).
Notation is_sigma := (is_sigma lin circ d m).
Notation mu := (mu d m Am b).
Notation q := (lin_img d Am).
(* smallness *)
Hypothesis small_in : forall j k, cin j = true -> (k < dc)%nat -> Rabs (s * A j k) < PI.
Hypothesis small_out : forall i k, cout i = true -> (k < dc)%nat -> Rabs (s * AmA i k) < PI.

Notation X0 := (sig0 sq eg Lin d dc m).
Notation Xp := (sig_plus sq eg Lin d dc c m P).
Notation Xn := (sig_minus sq eg Lin d dc c m P).

Lemma add_mean_sigma central (pt : fmx) :
  is_sigma (fun j => pt j 0%nat) (add_mean (O:=O) Lin d dc central m pt).
Proof.
  intros j Hj. destruct (cin j) eqn:Hc.
  - apply circ_row_true in Hc. apply (add_mean_circ sq eg Lin eq_refl); simpl; lia.
  - assert (Hn : ~ (lin <= j < lin + circ)%nat) by (intros H; apply circ_row_true in H; congruence).
    destruct (Nat.lt_ge_cases j lin) as [H1|H1]; [apply add_mean_lin; simpl; lia|].
    rewrite add_mean_noise by (unfold Lin, l_cw; simpl; lia). replace (j - (d - dc))%nat with j by lia. reflexivity.
Qed.

Lemma X0_sigma : is_sigma (fun _ => 0) X0.
Proof. exact (add_mean_sigma true (@mzero O dc 1)). Qed.

Lemma Xp_sigma k : (k < dc)%nat -> is_sigma (fun j => s * A j k) (Xp k).
Proof. intros Hk j Hj. unfold sig_plus. rewrite (add_mean_sigma false _ j Hj), pert_plus_get by lia. reflexivity. Qed.

Lemma Xn_sigma k : (k < dc)%nat -> is_sigma (fun j => - (s * A j k)) (Xn k).
Proof. intros Hk j Hj. unfold sig_minus. rewrite (add_mean_sigma false _ j Hj), pert_minus_get by lia. reflexivity. Qed.

(* on a circular row the code's own difference operator recovers an offset within a half turn *)
Lemma input_offset e x i : is_sigma e x -> in_range (e i) -> (lin <= i < dx)%nat ->
  offsets (O:=O) Lin (p:=d) dx x m i 0%nat = e i.
Proof.
  intros Hx He Hi. rewrite (offsets_circ sq eg Lin eq_refl) by (simpl; lia).
  rewrite (Hx i), (proj2 (circ_row_true lin circ i)) by lia.
  apply (dir_sub_recover (m i 0%nat)); [apply wrap_congruent | apply cong2pi_refl | exact He].
Qed.

Lemma in_block i : (lin <= i < dx)%nat ->
  sym_reads sq eg Lin d dc c m P (fun x => offsets (O:=O) Lin (p:=d) dx x m i 0%nat) (A i).
Proof.
  intros Hi. assert (Hc : cin i = true) by (apply circ_row_true; lia).
  split; [exact (input_offset _ _ i X0_sigma in_range_0 Hi)|]. intros k Hk.
  destruct (Rabs_in_range _ (small_in i k Hc Hk)) as [R1 R2].
  split; [exact (input_offset _ _ i (Xp_sigma k Hk) R1 Hi) | exact (input_offset _ _ i (Xn_sigma k Hk) R2 Hi)].
Qed.

Notation Yf x := (@madd O p 1 (@mmul O p d 1 Am x) b).

Lemma mu_plus_q e i : mu i + q e i = rsum d (fun j => Am i j * (e j + m j 0%nat)) + b i 0%nat.
Proof.
  unfold C03_Euler.mu, lin_img.
  rewrite (rsum_ext d (fun j => Am i j * (e j + m j 0%nat)) (fun j => Am i j * m j 0%nat + Am i j * e j)) by (intros; lra).
  rewrite rsum_plus. lra.
Qed.

Lemma Y_lin e x i : is_sigma e x -> (i < olin)%nat -> Yf x i 0%nat = mu i + q e i.
Proof.
  intros Hx Hi. rewrite affine_get, mu_plus_q by lia. f_equal. apply rsum_ext. intros j Hj. rewrite (Hx j Hj).
  destruct (cin j) eqn:Hc; [rewrite (map_lin_structure i j Hi Hc); lra | reflexivity].
Qed.

Lemma Y_circ e x i a : is_sigma e x -> cout i = true -> q e i = a -> cong2pi (a + mu i) (Yf x i 0%nat).
Proof.
  intros Hx Hi <-. apply circ_row_true in Hi as Hip. rewrite affine_get, (Rplus_comm (q e i)), mu_plus_q by lia.
  apply cong2pi_plus; [|apply cong2pi_refl].
  apply rsum_cong2pi. intros j Hj. rewrite (Hx j Hj).
  destruct (cin j) eqn:Hc; [|apply cong2pi_refl].
  destruct (map_circ_structure i j Hi Hc) as [z ->].
  apply cong2pi_int_mult, wrap_congruent.
Qed.

(* what the three kinds of sigma points contribute to output row i *)
Lemma q_plus k i : q (fun j => s * A j k) i = s * AmA i k.
Proof. apply lin_img_scal. Qed.
Lemma q_minus k i : q (fun j => - (s * A j k)) i = - (s * AmA i k).
Proof. rewrite lin_img_opp. f_equal. apply lin_img_scal. Qed.

Lemma lin_map i : (i < olin)%nat ->
  sym_reads sq eg Lin d dc c m P (fun x => Yf x i 0%nat - mu i) (AmA i).
Proof.
  intros Hi. split; [rewrite (Y_lin _ _ i X0_sigma Hi), lin_img_zero; lra|]. intros k Hk. split.
  - rewrite (Y_lin _ _ i (Xp_sigma k Hk) Hi), q_plus. unfold s. lra.
  - rewrite (Y_lin _ _ i (Xn_sigma k Hk) Hi), q_minus. unfold s. lra.
Qed.

Variables (w0 w0c wi : R).
Let wm := w0 :: repeat wi (2 * dc).
Let wc := w0c :: repeat wi (2 * dc).
Hypothesis w_sum : w0 + 2 * INR dc * wi = 1.
Hypothesis w_i : 2 * wi * c = 1.
Hypothesis dc_pos : (0 < dc)%nat.
(* positive weighted resultant of every circular output row *)
Hypothesis resultant_pos : forall i, cout i = true ->
  0 < w0 + 2 * wi * rsum dc (fun k => cos (s * AmA i k)).

Let Xs := sigma_comp (O:=O) Lin d dc c m P.
Let Ys := affine_cols (O:=O) (d:=d) (p:=p) Am b Xs.
Let ybar := out_mean (O:=O) Lout p wm Ys.

(* the mean of a circular output row: the samples are mu i + the propagated offsets up to full turns *)
Lemma ybar_circ i : cout i = true -> ybar i 0%nat = C19_Model.wrap ROps (mu i).
Proof.
  intros Hi. apply circ_row_true in Hi as Hip.
  unfold ybar. rewrite (out_mean_circ sq eg Lout eq_refl) by (simpl; lia).
  unfold Ys, affine_cols, Xs. rewrite map_map, sigma_comp_eq. cbn [map]. rewrite map_app, !map_map.
  set (ps := map (fun k => s * AmA i k) (seq 0 dc)).
  assert (Lps : length ps = dc) by (unfold ps; now rewrite map_length, seq_length).
  unfold wm. replace (2 * dc)%nat with (length ps + length ps)%nat by lia.
  change (C03_Model.dir_mean (O:=O)) with (C03_Model.dir_mean (O:=RM)).
  apply (circular_row_mean_gen (mu i) w0 wi ps).
  - intros E. rewrite E in Lps. simpl in Lps. lia.
  - rewrite fold_right_lsumR. unfold ps. rewrite lsumR_seq. apply (resultant_pos i Hi).
  - cbn [map]. constructor.
    + rewrite colget_entry by lia.
      exact (Y_circ _ _ i _ X0_sigma Hi (lin_img_zero d Am i)).
    + rewrite map_app. apply Forall2_app.
      * unfold ps. rewrite map_map. apply Forall2_map_seq. intros k Hk. rewrite colget_entry by lia.
        exact (Y_circ _ _ i _ (Xp_sigma k Hk) Hi (q_plus k i)).
      * unfold ps. rewrite !map_map. apply Forall2_map_seq. intros k Hk. rewrite colget_entry by lia.
        exact (Y_circ _ _ i _ (Xn_sigma k Hk) Hi (q_minus k i)).
Qed.

(* the output offsets on a circular row are the propagated tangent offsets *)
Lemma output_offset e x i : is_sigma e x -> in_range (q e i) -> cout i = true ->
  offsets (O:=O) Lout (p:=p) pc (Yf x) ybar i 0%nat = q e i.
Proof.
  intros Hx Hq Hc. apply circ_row_true in Hc as Hi. rewrite (offsets_circ sq eg Lout eq_refl) by (simpl; lia).
  rewrite (ybar_circ i Hc).
  apply (dir_sub_recover (mu i)); [exact (Y_circ e x i _ Hx Hc eq_refl) | apply wrap_congruent | exact Hq].
Qed.

Lemma out_block i : (olin <= i < pc)%nat ->
  sym_reads sq eg Lin d dc c m P (fun x => offsets (O:=O) Lout (p:=p) pc (Yf x) ybar i 0%nat) (AmA i).
Proof.
  intros Hi. assert (Hc : cout i = true) by (apply circ_row_true; lia).
  split.
  - rewrite (output_offset _ _ i X0_sigma); rewrite ?lin_img_zero; [reflexivity | apply in_range_0 | exact Hc].
  - intros k Hk. destruct (Rabs_in_range _ (small_out i k Hc Hk)) as [R1 R2]. split.
    + rewrite (output_offset _ _ i (Xp_sigma k Hk)); rewrite ?q_plus; [reflexivity | exact R1 | exact Hc].
    + rewrite (output_offset _ _ i (Xn_sigma k Hk)); rewrite ?q_minus; [reflexivity | exact R2 | exact Hc].
Qed.

Let u := ut_component (O:=O) Lin Lout (d:=d) (p:=p) pc dx (mkUtw (O:=O) wm wc c) m Xs Ys.

Lemma comp_mean i : (i < p)%nat ->
  colget (O:=O) (uc_mean u) i = if cout i then C19_Model.wrap ROps (mu i) else mu i.
Proof.
  intros Hi. rewrite colget_entry by exact Hi. change (uc_mean u) with ybar.
  destruct (cout i) eqn:Hc; [apply ybar_circ; exact Hc|].
  assert (Hl : (i < olin)%nat).
  { destruct (Nat.lt_ge_cases i olin) as [|Hge]; [assumption|].
    rewrite (proj2 (circ_row_true olin ocirc i)) in Hc by lia. discriminate. }
  apply sym_mean_lin with (dx := dx) (pc := pc) (n := d) (J := Am);
    [exact w_sum | lia | simpl; lia | simpl; lia | exact lin_map | exact Hl].
Qed.

Lemma comp_cov i j : (i < pc)%nat -> (j < pc)%nat -> @mget O pc pc (uc_cov u) i j = cov_image d P Am i j.
Proof.
  apply (sym_comp_cov sq eg Lin Lout d dc dx p pc d c m P Am b Am w0 w0c wi c_pos w_sum w_i factor);
    [lia | simpl; lia | simpl; lia | exact lin_map | exact out_block].
Qed.

Lemma comp_cross i j : (i < dx)%nat -> (j < pc)%nat -> @mget O dx pc (uc_cross u) i j = cross_image d P Am i j.
Proof.
  apply (sym_comp_cross sq eg Lin Lout d dc dx p pc d c m P Am b Am w0 w0c wi c_pos w_sum w_i factor);
    [lia | simpl; lia | simpl; lia | exact lin_map | exact in_block | exact out_block].
Qed.

(* the sigma points reproduce the moments they were drawn from (tangent space) *)
Lemma sigma_moments_euler :
  length Xs = (2 * dc + 1)%nat /\
  (* every sigma point is the mean (+) its tangent offset (plain sum on linear and noise rows,
     arg(exp(j .)) of the sum on circular rows), and the code's difference operator reads the offset back *)
  Forall2 (fun e x => is_sigma e x /\ forall i, (i < dx)%nat -> offsets (O:=O) Lin (p:=d) dx x m i 0%nat = e i)
          (tangent_offsets sq dc c P) Xs /\
  (* the first sigma point is the mean *)
  (forall x0 j, (j < d)%nat ->
     nth 0 Xs x0 j 0%nat = if cin j then C19_Model.wrap ROps (m j 0%nat) else m j 0%nat) /\
  (* weighted mean and covariance in the tangent chart at the mean *)
  (forall j, lsumR (fun p => fst p * (m j 0%nat + snd p j)) (combine wm (tangent_offsets sq dc c P)) = m j 0%nat) /\
  (forall i j, (i < dc)%nat -> (j < dc)%nat ->
     lsumR (fun p => fst p * (snd p i * snd p j)) (combine wc (tangent_offsets sq dc c P)) = P i j).
Proof.
  assert (Hin : forall i, (i < dx)%nat ->
            sym_reads sq eg Lin d dc c m P (fun x => offsets (O:=O) Lin (p:=d) dx x m i 0%nat) (A i)).
  { apply (in_reads sq eg Lin d dc dx c m P); [simpl; lia | exact in_block]. }
  split; [apply sigma_comp_len|]. split; [|split; [|split]].
  - unfold Xs. rewrite sigma_comp_eq. unfold tangent_offsets. cbv zeta. constructor.
    + split; [apply X0_sigma|]. intros i Hi. exact (proj1 (Hin i Hi)).
    + apply Forall2_app.
      * apply Forall2_map_seq. intros k Hk. split; [apply Xp_sigma; exact Hk|].
        intros i Hi. exact (proj1 (proj2 (Hin i Hi) k Hk)).
      * apply Forall2_map_seq. intros k Hk. split; [apply Xn_sigma; exact Hk|].
        intros i Hi. exact (proj2 (proj2 (Hin i Hi) k Hk)).
  - intros x0 j Hj. unfold Xs. rewrite sigma_comp_eq. cbn [nth]. rewrite (X0_sigma j Hj).
    rewrite Rplus_0_l. reflexivity.
  - intros j. unfold wm, tangent_offsets. rewrite sym_sum. cbn [fst snd].
    apply (sym_moment1 dc c w0 wi w_sum (m j 0%nat) _ _ _ (sq dc P j)); [|intros k _; split]; lra.
  - intros i j Hi Hj. unfold wc, tangent_offsets. rewrite sym_sum. cbn [fst snd].
    rewrite <- (factor i j Hi Hj).
    apply (sym_moment2 dc c wi c_pos w_i w0c _ _ _ _ _ _ (A i) (A j)); try reflexivity; intros k _; split; reflexivity.
Qed.
End EulerComponent.

(* spreads small enough: every sigma offset on a circular input row and every propagated offset on a
   circular output row within a half turn, positive weighted resultant on every circular output row *)
Definition small_spread (sq : nat -> fmx -> fmx) (lin circ olin ocirc d dc : nat) (c w0 wi : R) (Am P : fmx) : Prop :=
  (forall j k, circ_row lin circ j = true -> (k < dc)%nat -> Rabs (sqrt c * sq dc P j k) < PI) /\
  (forall i k, circ_row olin ocirc i = true -> (k < dc)%nat -> Rabs (sqrt c * AmA sq d dc P Am i k) < PI) /\
  (forall i, circ_row olin ocirc i = true ->
     0 < w0 + 2 * wi * rsum dc (fun k => cos (sqrt c * AmA sq d dc P Am i k))).

Section EulerMixture.
Variables sq eg : nat -> fmx -> fmx.
Notation O := (RF sq eg).
Variables lin circ noise olin ocirc : nat.
Let Lin := mkLayout lin circ false noise.
Let Lout := mkLayout olin ocirc false 0.
Let d := l_dim Lin.
Let dc := l_dcov Lin.
Let dx := l_dx Lin.
Let p := l_dim Lout.
Let pc := l_dcov Lout.
Variables alpha beta kappa : R.
Let w := ut_weights (O:=O) dc alpha beta kappa.
Let c := w_c w.
Let w0 := nth 0 (w_mean w) 0.
Let wi := nth 1 (w_mean w) 0.
Variables Am b : fmx.
Variable comps : list (fmx * fmx).
Let k := length comps.

Hypothesis dc_pos : (0 < dc)%nat.
Hypothesis c_pos : 0 < c.
Hypothesis map_lin_structure : forall i j, (i < olin)%nat -> circ_row lin circ j = true -> Am i j = 0.
Hypothesis map_circ_structure : forall i j, circ_row olin ocirc i = true -> circ_row lin circ j = true ->
  exists z : Z, Am i j = IZR z.
Hypothesis factors : forall mc, In mc comps -> factor_ok sq dc (snd mc).
Hypothesis spreads : forall mc, In mc comps -> small_spread sq lin circ olin ocirc d dc c w0 wi Am (snd mc).

(* what the property states about one transformed component: mean Am m + b (modulo 2 pi on circular
   rows: the value arg(exp(j .)) the code returns), covariance Am P Am^T + N, cross-covariance =
   the non-noise rows of P Am^T *)
Definition euler_image (N : fmx) (mc : fmx * fmx) (u : ut_comp O p pc dx) : Prop :=
  (forall i, (i < p)%nat ->
     colget (O:=O) (uc_mean u) i =
     if circ_row olin ocirc i then C19_Model.wrap ROps (mu d (fst mc) Am b i) else mu d (fst mc) Am b i) /\
  (forall i j, (i < pc)%nat -> (j < pc)%nat -> @mget O pc pc (uc_cov u) i j = cov_image d (snd mc) Am i j + N i j) /\
  (forall i j, (i < dx)%nat -> (j < pc)%nat -> @mget O dx pc (uc_cross u) i j = cross_image d (snd mc) Am i j).

Let X := sigma_points (O:=O) Lin d dc c comps.
Let r := ut_core (O:=O) Lin Lout (d:=d) (dc:=dc) (p:=p) pc dx w comps X (affine_cols (O:=O) (d:=d) (p:=p) Am b X).

Lemma dims_eq : d = (lin + circ + noise)%nat /\ dc = d /\ dx = (lin + circ)%nat /\ p = (olin + ocirc)%nat /\ pc = p.
Proof. (* [clear]: the equations depend on the layouts alone, so users need not supply the mixture hypotheses *)
  clear. unfold d, dc, dx, p, pc, l_dim, l_dcov, l_dx, l_cw, l_tw, Lin, Lout. simpl. lia. Qed.

Lemma r_image i u0 mc0 : (i < k)%nat -> euler_image (fun _ _ => 0) (nth i comps mc0) (nth i (ur_comps r) u0).
Proof.
  intros Hi. destruct dims_eq as (E1 & E2 & E3 & E4 & E5). destruct (ut_weights_R_sums sq eg dc alpha beta kappa dc_pos (Rgt_not_eq _ _ c_pos)) as [W1 W2].
  assert (Hin : In (nth i comps mc0) comps) by (apply nth_In; exact Hi).
  pose proof (factors _ Hin) as HF. destruct (spreads _ Hin) as (S1 & S2 & S3).
  unfold r, X, c. rewrite (core_comp sq eg Lin Lout d dc dx p pc w Am b comps i u0 mc0 Hi). fold c.
  rewrite (ut_weights_R_form sq eg dc alpha beta kappa dc_pos : w = _).
  split; [|split].
  - intros i' Hi'. eapply comp_mean; eassumption.
  - intros i' j' Hi' Hj'. rewrite Rplus_0_r. eapply comp_cov; eassumption.
  - intros i' j' Hi' Hj'. eapply comp_cross; eassumption.
Qed.

Lemma noise_image N i u0 mc0 : (i < k)%nat ->
  euler_image N (nth i comps mc0) (nth i (ur_comps (add_noise_cov (O:=O) N r)) u0).
Proof.
  intros Hi. destruct (r_image i u0 mc0 Hi) as (M1 & M2 & M3).
  destruct (core_noise sq eg Lin Lout d dc dx p pc w Am b comps N i u0 Hi) as (N1 & N3 & N2).
  fold c X r in N1, N2, N3.
  split; [|split]; [rewrite N1; exact M1 | | rewrite N3; exact M3].
  intros i' j' Hi' Hj'. rewrite (N2 i' j' Hi' Hj'), (M2 i' j' Hi' Hj'), Rplus_0_r. reflexivity.
Qed.

End EulerMixture.
