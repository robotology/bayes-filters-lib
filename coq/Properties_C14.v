(* Properties_C14.v — property C14: no operation reads or writes outside its
   matrices or mixes incompatible sizes.

   Each theorem assembles the lemmas of C14_Proofs about the sub-programs
   ([Forall item_ok (p_...)]) into the call sequence of one case.  They are about
   the shape programs of C14_Model.v (the very definitions that are extracted
   and run against the library).  Every positive theorem has the form
   [run (case_...) = Safe]: for EVERY configuration satisfying the stated
   validity premise — unbounded dimensions, component counts, particle counts,
   call counts, operation sequences — no Eigen precondition of the entry points
   fails AND the library's own validation does not reject the configuration
   ([Safe] excludes both [Fails] and [Threw]; the weaker [check_shapes = None]
   follows by [check_none_of_safe]).  Where the statement is false of the
   faithful shape program the theorem is [..._refuted : run ... = Fails e s]
   with a concrete configuration. *)
Require Import Arith List Bool String Lia.
Require Import BFL.C14_Model BFL.C14_Proofs.
Import ListNotations.
Open Scope nat_scope.

(* ---- WhiteNoiseAcceleration: constructor, getNoiseSample, propagate, motion,
        getTransitionProbability; D = 1, 2, 3 are Dim::OneD/TwoD/ThreeD (the
        statement holds for every D), any number of samples / states *)
Theorem C14_WhiteNoiseAcceleration_safe D num sc pc :
  run (case_wna D num (wna_d D) sc (wna_d D) sc (wna_d D) pc (wna_d D) pc) = Safe.
Proof. apply run_safe_iff. unfold case_wna. shape; auto with shape. Qed.

(* ---- SimulatedStateModel: constructor and ANY sequence of bufferData / setProperty("reset") calls *)
Theorem C14_SimulatedStateModel_safe D T ops : 0 < T ->
  run (case_simstate D T (wna_d D) ops) = Safe.
Proof. intro HT. apply run_safe_iff. unfold case_simstate. shape; auto with shape. Qed.

(* exhaustion is reported through the return value: without a reset, call number k (from 0) returns
   true iff k < T *)
Theorem C14_bufferData_exhaustion_reported T calls k : k < calls ->
  nth k (sim_returns T calls) false = (k <? T).
Proof. intro Hk. unfold sim_returns. rewrite sim_rets_from by exact Hk. reflexivity. Qed.

(* ---- LinearModel / SimulatedLinearSensor: any measured-component list (any
        subset, any order, repetitions, more measurements than states), any
        number of freeze calls *)
Theorem C14_SimulatedLinearSensor_safe D T ms calls num sc :
  0 < T -> ms <> [] -> Forall (fun c => c < wna_d D) ms -> 0 < D ->
  run (case_linsensor D T (wna_d D) (wna_d D) ms (List.length ms) (List.length ms) calls num (wna_d D) sc) = Safe.
Proof.
  intros HT Hne Hms _. apply run_safe_iff. unfold case_linsensor, p_lmm_pred. cbv zeta.
  shape; auto with shape.
Qed.

(* ---- HistoryBuffer: EVERY sequence of addElement / setHistorySize /
        decrease / increase / clear / getHistoryBuffer; in particular pop_back
        is never applied to an empty deque *)
Theorem C14_HistoryBuffer_safe ssz ops : adds_sized ssz ops ->
  run (case_history ssz ops) = Safe.
Proof. intro H. apply run_safe_iff. unfold case_history. apply h_run_ok; [exact H | constructor]. Qed.

(* ---- InitSurveillanceAreaGrid: any grid, any particle count, states of ANY size (it returns false unless
        the count is nx * ny and the states have the 4 rows x, vx, y, vy; the old program that wrote into 2- and
        6-row states, with its witnesses, is in C14_Regress.v) *)
Theorem C14_InitSurveillanceAreaGrid_safe nx ny n l : run (case_grid nx ny n l) = Safe.
Proof. apply run_safe_iff, grid_ok. Qed.
Theorem C14_InitSurveillanceAreaGrid_state_2d_safe nx ny n : run (case_grid nx ny n (Lay 2 0 false 0)) = Safe.
Proof. apply C14_InitSurveillanceAreaGrid_safe. Qed.
Theorem C14_InitSurveillanceAreaGrid_state_6d_safe nx ny n : run (case_grid nx ny n (Lay 6 0 false 0)) = Safe.
Proof. apply C14_InitSurveillanceAreaGrid_safe. Qed.

(* ---- sigma_point(): every layout (linear, circular, quaternion or not, noise), any component count *)
Theorem C14_sigma_point_safe l comps : run (case_sigma l comps) = Safe.
Proof. apply run_safe_iff, sigma_ok. Qed.

(* ---- augmentWithNoise on a particle set (once and twice, square or rejected non-square noise
        covariance), then the sigma points of the augmented set *)
Theorem C14_augmentWithNoise_safe l comps qr qc qr2 qc2 :
  run (case_psaug l comps qr qc qr2 qc2) = Safe.
Proof. apply run_safe_iff. unfold case_psaug. cbv zeta. shape; auto with shape. Qed.

(* ---- UTWeight + unscented_transform: the five overloads, every input and output layout *)
Theorem C14_unscented_transform_safe variant li comps w valid pr pc lo qr qc :
  ut_valid variant li comps w valid pr pc lo qr qc ->
  run (case_ut variant li comps w valid pr pc lo qr qc) = Safe.
Proof.
  intros (_ & -> & Hv). apply run_safe_iff. unfold case_ut, ut_prop_shape.
  (* the additive overloads (2, 4) add a square noise covariance of the output's size *)
  assert (Hq : variant = 2 \/ variant = 4 -> qr = lcov lo /\ qc = lcov lo) by (intros [-> | ->]; apply Hv).
  destruct variant as [|[|[|[|v]]]]; cbv beta iota zeta;
    (apply Forall_app; split; [apply utweight_ok | apply ut_ok; [|exact Hq]]).
  (* per overload: the propagated matrix has the size of the output when the evaluation succeeded *)
  - exact Hv.                                        (* function: ut_valid says so *)
  - split; reflexivity.                              (* StateModel: the lambda sizes its own buffer *)
  - destruct Hv as (-> & _). split; reflexivity.     (* AdditiveStateModel: state.rows(), in = out *)
  - exact Hv.                                        (* MeasurementModel *)
  - exact (proj1 Hv).                                (* AdditiveMeasurementModel *)
Qed.

(* in particular the additive measurement overload after a FAILED evaluation, any component count and
   measurement size (repaired by 49d7ed0; the old transcription and its witness are in C14_Regress.v) *)
Theorem C14_unscented_transform_additive_measurement_failed_safe li comps pr pc lo :
  noise lo = 0 ->
  run (case_ut 4 li comps (lcov li) false pr pc lo (lcov lo) (lcov lo)) = Safe.
Proof.
  intro H. apply C14_unscented_transform_safe. repeat split; try assumption; discriminate.
Qed.

(* ---- Kalman steps (beliefs without quaternions; output object of the input's shape) *)
Theorem C14_KFPrediction_safe l comps : quat l = false ->
  run (case_kfp (ldim l) l comps l comps) = Safe.
Proof. intro Hq. apply run_safe_iff, kf_predict_ok; auto using lcov_euler. Qed.

Theorem C14_KFCorrection_safe m l comps yc again : quat l = false -> 0 < yc ->
  run (case_kfc m (ldim l) l comps l comps m yc again) = Safe.
Proof.
  intros Hq Hy. apply run_safe_iff. unfold case_kfc. shape; auto using kf_correct_ok, lcov_euler with shape.
Qed.

(* ---- UKF prediction: constructor (weights), additive and generic (noise-augmented) step, every layout
        including quaternions *)
Theorem C14_UKFPrediction_additive_safe l comps : noise l = 0 ->
  run (case_ukfp true l comps (lcov l) l) = Safe.
Proof.
  intros _. apply run_safe_iff. unfold case_ukfp, p_ukf_predict. cbv beta iota zeta.
  shape; auto using ut_ok with shape.
Qed.

Theorem C14_UKFPrediction_generic_safe l comps q : noise l = 0 ->
  run (case_ukfp false l comps q l) = Safe.
Proof.
  intros _. apply run_safe_iff. unfold case_ukfp, p_ukf_predict. cbv beta iota zeta.
  rewrite <- lcov_augment. shape; auto with shape. apply ut_ok; auto. intros [|]; discriminate.
Qed.

(* ---- UKF correction (generic — with the augmentation by the measurement noise and optionally weights
        recomputed online — and additive): linear / Euler states, EVERY measurement layout (quaternion
        measurements included since e82207d), the evaluation succeeding or failing, followed by
        getLikelihood(); [again]: then a second correction whose evaluation fails and getLikelihood() *)
Theorem C14_UKFCorrection_safe additive lp comps r valid lm again online :
  ukfc_valid additive lp r valid lm ->
  run (case_ukfc additive lp comps r valid lm (lcov lm) lp comps again online) = Safe.
Proof.
  intro Hv. apply run_safe_iff. unfold case_ukfc. cbv zeta.
  shape; auto using ukf_correct_ok with shape.
Qed.

Theorem C14_UKFCorrection_quaternion_measurement_safe additive lp comps r valid mL mC again online :
  quat lp = false -> noise lp = 0 -> (additive = true -> r = lcov (Lay mL mC true 0)) ->
  run (case_ukfc additive lp comps r valid (Lay mL mC true 0) (lcov (Lay mL mC true 0)) lp comps again online) = Safe.
Proof.
  intros H H0 H1. apply C14_UKFCorrection_safe. repeat split; try assumption; reflexivity.
Qed.

Theorem C14_UKFCorrection_quaternion_state_refuted :
  run (case_ukfc true (Lay 2 1 true 0) 1 2 true (Lay 2 0 false 0) 2 (Lay 2 1 true 0) 1 false false)
  = Fails e_ukfc "pred.mean(i)+K*innovation".
Proof. vm_compute. reflexivity. Qed.

(* ---- serial UKF correction on linear / Euler states: constructor, any POSITIVE sub-measurement size,
        full or reduced noise covariance, and its likelihood *)
Theorem C14_SUKFCorrection_safe reduced lp comps msz sub again :
  quat lp = false -> noise lp = 0 -> 0 < sub ->
  run (case_sukf reduced lp comps msz sub (sukf_r reduced msz sub) msz lp comps again) = Safe.
Proof.
  intros Hq _ Hsub. apply run_safe_iff. unfold case_sukf.
  shape; auto using sukf_ok, sukf_lik_ok with shape.
Qed.

Theorem C14_SUKFCorrection_quaternion_state_refuted :
  run (case_sukf false (Lay 2 1 true 0) 1 2 1 2 2 (Lay 2 1 true 0) 1 false)
  = Fails e_sukf "propagated.middleCols(size_sigmas*i,size_sigmas)".
Proof. vm_compute. reflexivity. Qed.

(* the noexcept constructor accepts a sub-measurement size of 0; the step then computes meas_size % 0 *)
Theorem C14_SUKFCorrection_zero_sub_size_refuted :
  run (case_sukf false (Lay 3 0 false 0) 1 2 0 2 2 (Lay 3 0 false 0) 1 false)
  = Fails e_sukf "meas_size % measurement_sub_size_".
Proof. vm_compute. reflexivity. Qed.

(* ---- Resampling (with neff) and ResamplingWithPrior (prior share < 1; including the weight copy,
        log_sum_exp, the parent mapping and the concatenation): every layout, quaternion sets included *)
Theorem C14_Resampling_safe l n : 0 < n -> run (case_resample l n l n n) = Safe.
Proof. intro. apply run_safe_iff. unfold case_resample. shape. apply resample_ok; assumption. Qed.

Theorem C14_ResamplingWithPrior_safe l n k : noise l = 0 -> k < n ->
  run (case_resprior l n k n) = Safe.
Proof. intros. apply run_safe_iff, resample_prior_ok; assumption. Qed.

Theorem C14_ResamplingWithPrior_quaternion_safe L C n k : k < n ->
  run (case_resprior (Lay L C true 0) n k n) = Safe.
Proof. exact (C14_ResamplingWithPrior_safe (Lay L C true 0) n k eq_refl). Qed.

(* ---- density utilities *)
Theorem C14_gaussian_density_safe r c : run (case_density r c r r r) = Safe.
Proof. apply run_safe_iff, density_ok. Qed.

Theorem C14_gaussian_density_UVR_safe r c s bs rc : 0 < bs -> (rc = bs \/ rc = r) ->
  run (case_uvr r c r r s s r bs rc) = Safe.
Proof. intros. apply run_safe_iff, uvr_ok; assumption. Qed.

(* an empty noise covariance gives block_size = 0 in the UVR density: input_size / 0 *)
Theorem C14_gaussian_density_UVR_zero_block_size_refuted :
  run (case_uvr 2 1 2 2 3 3 2 0 0) = Fails e_uvr "input_size / block_size".
Proof. vm_compute. reflexivity. Qed.

(* ---- estimate extraction: every method, any window, any number of calls *)
Theorem C14_EstimatesExtraction_safe w calls stat avg el ec pr n wn pw ln tr tc :
  ext_valid stat el ec pr n wn pw ln tr tc ->
  run (case_extract w calls stat avg el ec pr n wn pw ln tr tc) = Safe.
Proof.
  intro Hv. apply run_safe_iff. unfold case_extract.
  destruct (pos w); [|apply ext_calls_ok; exact Hv].
  pose proof (h_set_ok e_ext_win h_init w) as H0. unfold e_ext_win in H0.
  destruct (h_set _ h_init w). apply Forall_app; split; [exact H0 | apply ext_calls_ok; exact Hv].
Qed.

(* ---- estimate extraction as ONE object driven through ANY sequence of setMethod (all twelve methods) /
        setMobileAverageWindowSize (grow, shrink, clamped, refused) / clear / extract (both overloads, any particle
        count per call) operations.  The model carries the window, the stored estimates with their sizes and the
        lengths of the three cached weight vectors (sm_weights_, wm_weights_, em_weights_); nothing is assumed about
        the caches at any point of the sequence *)
Theorem C14_EstimatesExtraction_sequences_safe el ec ops :
  Forall (xop_valid el ec) ops -> run (case_extseq el ec ops) = Safe.
Proof. intro H. apply run_safe_iff. unfold case_extseq. apply x_run_ok; [exact H | apply x_init_inv]. Qed.

(* the weight vector a windowed call multiplies with has, after the call's own rebuild test, exactly one entry per
   stored estimate — whatever length [c] the cache had from earlier calls with other windows / methods *)
Theorem C14_EstimatesExtraction_weights_match_history avg el ec k c :
  snd (x_avg_tail avg el ec k c c) = k.
Proof. exact (x_avg_tail_len avg el ec k c). Qed.

(* ---- non-vacuity: the premises hold on concrete non-trivial configurations, the programs are
        not empty, [Safe] is not implied by "nothing fails" ([Threw] is a different verdict), and the
        calculus does reject inputs outside the declared shapes *)
Example C14_nonvacuous_programs :
  List.length (case_wna 3 5 6 4 6 4 6 4 6 4) = 35 /\
  List.length (case_ut 3 (Lay 2 1 true 2) 2 7 true 5 30 (Lay 1 1 true 0) 0 0) = 124 /\
  ut_valid 3 (Lay 2 1 true 2) 2 7 true 5 30 (Lay 1 1 true 0) 0 0 /\
  ukfc_valid true (Lay 2 2 false 0) 2 false (Lay 1 1 false 0) /\
  ext_valid 2 2 1 3 4 4 4 4 4 4 /\
  adds_sized 2 [HAdd 2; HAdd 2; HAdd 2; HSet 2; HGet; HDec; HGet].
Proof.
  split; [reflexivity|]. split; [vm_compute; reflexivity|].
  split; [repeat split|]. split; [repeat split|]. split; [repeat split; lia|].
  intros e H. simpl in H. intuition congruence.
Qed.

Example C14_calculus_rejects_mismatched_inputs :
  (* 4-row states into the 1-D motion model *)
  run (case_wna 1 2 4 2 4 2 2 2 2 2) = Fails e_wna_prop "F*cur_states" /\
  (* an element of another size stored in a 3-dimensional history *)
  run (case_history 3 [HAdd 3; HAdd 2; HGet]) = Fails e_h_get "col(i)=element" /\
  (* an empty simulated trajectory is rejected by the constructor: an exception, neither Safe nor a failure *)
  run (case_simstate 1 0 2 [SBuf]) = Threw e_sim_ctor "simulation_time >= 1" /\
  check_shapes (case_simstate 1 0 2 [SBuf]) = None /\
  (* after a reset the trajectory is served again *)
  sim_rets 2 0 [SBuf; SBuf; SBuf; SReset; SBuf] = [true; true; false; true] /\
  (* the library's own validation is a reported exception *)
  run (case_linsensor 2 2 4 4 [0; 4] 2 2 1 1 4 1) = Threw e_sls_ctor "component index < state size".
Proof. repeat split; vm_compute; reflexivity. Qed.

(* the operation sequence of the seeded change C14-r5 (emean x5, window 2, one wmean, emean again; 2 linear + 1 circular
   numbers, particle counts changing between calls, the five-argument overload with the map family in between): the
   premise holds, the program is not empty, the predicted return values / windows are the ones listed *)
Definition c14_ops_example : list xop :=
  [XMethod 0 3; XExtract false 3 2 2 0 0 0 0; XExtract false 3 2 2 0 0 0 0; XExtract false 3 5 5 0 0 0 0; XExtract false 3 2 2 0 0 0 0;
   XExtract false 3 2 2 0 0 0 0; XWindow 2; XMethod 0 2; XExtract false 3 4 4 0 0 0 0; XMethod 0 3; XExtract false 3 1 1 0 0 0 0;
   XMethod 2 1; XExtract false 3 2 2 0 0 0 0; XExtract true 3 2 2 5 2 2 5; XWindow 0; XClear; XMethod 1 3; XExtract true 3 6 6 4 6 6 4].
Example C14_extseq_nonvacuous :
  Forall (xop_valid 2 1) c14_ops_example /\
  List.length (case_extseq 2 1 c14_ops_example) = 198 /\
  obs_extseq 2 1 c14_ops_example = [1; 1;3; 1;3; 1;3; 1;3; 1;3; 1; 1; 1;3; 1; 1;3; 1; 0;3; 1;3; 0; 1; 1; 1;3] /\
  win_extseq 2 1 c14_ops_example = [5; 5;5;5;5;5; 2; 2; 2; 2; 2; 2; 2; 2; 2; 2; 2; 2].
Proof.
  split; [|split; [|split]]; try (vm_compute; reflexivity).
  unfold c14_ops_example. repeat constructor; discriminate.
Qed.

Print Assumptions C14_WhiteNoiseAcceleration_safe.
Print Assumptions C14_SimulatedStateModel_safe.
Print Assumptions C14_bufferData_exhaustion_reported.
Print Assumptions C14_SimulatedLinearSensor_safe.
Print Assumptions C14_HistoryBuffer_safe.
Print Assumptions C14_InitSurveillanceAreaGrid_safe.
Print Assumptions C14_InitSurveillanceAreaGrid_state_2d_safe.
Print Assumptions C14_InitSurveillanceAreaGrid_state_6d_safe.
Print Assumptions C14_sigma_point_safe.
Print Assumptions C14_augmentWithNoise_safe.
Print Assumptions C14_unscented_transform_safe.
Print Assumptions C14_unscented_transform_additive_measurement_failed_safe.
Print Assumptions C14_KFPrediction_safe.
Print Assumptions C14_KFCorrection_safe.
Print Assumptions C14_UKFPrediction_additive_safe.
Print Assumptions C14_UKFPrediction_generic_safe.
Print Assumptions C14_UKFCorrection_safe.
Print Assumptions C14_UKFCorrection_quaternion_measurement_safe.
Print Assumptions C14_UKFCorrection_quaternion_state_refuted.
Print Assumptions C14_SUKFCorrection_safe.
Print Assumptions C14_SUKFCorrection_quaternion_state_refuted.
Print Assumptions C14_SUKFCorrection_zero_sub_size_refuted.
Print Assumptions C14_Resampling_safe.
Print Assumptions C14_ResamplingWithPrior_safe.
Print Assumptions C14_ResamplingWithPrior_quaternion_safe.
Print Assumptions C14_gaussian_density_safe.
Print Assumptions C14_gaussian_density_UVR_safe.
Print Assumptions C14_gaussian_density_UVR_zero_block_size_refuted.
Print Assumptions C14_EstimatesExtraction_safe.
Print Assumptions C14_EstimatesExtraction_sequences_safe.
Print Assumptions C14_EstimatesExtraction_weights_match_history.
