(* C09_Progress.v — progress: a pending reset / reboot is honoured by a NEW epoch (not by
   terminating, not by stalling).  The definitions that the statement of
   Properties_C09.C09_reset_reaches_new_epoch needs: from every program point of the loop, with
   reset_ up and teardown_ down, the thread left alone with run_condition() = true enters
   initialization_step() again (run_ up) or blocks waiting for run (run_ down, i.e. after a
   reboot) within 17 own moves, starting at most one further filtering step on the way. *)
Require Import BFL.C09_Model.

Fixpoint run_until_init (fuel : nat) (c : config) (k : nat) : config * nat :=
  match fuel with
  | 0 => (c, k)
  | S f =>
      match c_pc c with
      | PSleep => (c, k)
      | PInit => match step c (MThread true) with Some c' => (c', S k) | None => (c, k) end
      | _ => match step c (MThread true) with
             | Some c' => run_until_init f c' (S k)
             | None => (c, k)
             end
      end
  end.

(* every program point from which the thread is still going round the loop: everything except
   blocked in the wait (it needs a notify first) and the exit path *)
Definition in_loop (p : pc) : bool :=
  match p with
  | PSleep | PFinal | PDone | PExited => false
  | _ => true
  end.

Definition honour_bound : nat := 17.
