(* C06_CmdProofs.v — every history of RAW skip commands, steps and resets (C06_Cmd.v), over the
   reals: the SIS invariant along the history, that no resampling is pending between two steps of
   a pass, and the flags a step runs under.  These are computed by the dispatch of C13_Model from
   the commands; the rule "status of the last command touching the flag" (C13_Proofs.final_by_rule)
   turns premises on flags into premises on the command history. *)
Require Import Reals ZArith List Bool.
Require Import BFL.Ops BFL.C07_Model BFL.C07_ROps BFL.C07_Proofs BFL.C06_Model BFL.C06_Proofs.
Require Import BFL.C13_Model BFL.C13_Proofs BFL.C06_Cmd.
Import ListNotations.
Local Open Scope R_scope.

Section CMD.
Variables St Aux : Type.
Variables (N dl dc : nat).
Hypothesis Npos : (0 < N)%nat.

Notation sset := (@sset ROps St Aux).
Notation event := (@event ROps St).
Notation sis_state := (@sis_state ROps St Aux).
Notation cevent := (@cevent ROps St).
Notation item := (@item ROps St Aux).
Notation cstate := (@cstate ROps St Aux).
Notation PreInv := (PreInv St Aux N dl dc).
Notation Inv := (Inv St Aux N dl dc).
Notation good := (good St Aux N dl dc).
Notation wf_set := (wf_set St Aux N dl dc).

(* the only premise on a step: a valid likelihood vector has one non-negative entry per particle;
   on a reset: the initialisation delivers N particles with normalised log-weights *)
Definition wf_cev (ce : cevent) : Prop :=
  match ce_lik ce with Some l => length l = N /\ Forall (fun x => 0 <= x) l | None => True end.
Definition wf_item (it : item) : Prop :=
  match it with
  | IStep ce => wf_cev ce
  | IReset p w => length p = N /\ length w = N /\ lse ROps w = 0
  end.
Definition is_step (it : item) : bool := match it with IStep _ => true | IReset _ _ => false end.

Lemma wf_event_of f ce : wf_cev ce -> wf_ev St N (event_of f ce).
Proof. intro H. exact H. Qed.

Lemma cmd_step_sis (cs : cstate) (ce : cevent) : c_sis (cmd_step N cs ce) = sis_step N (c_sis cs) (event_of (cmd_flags cs ce) ce).
Proof. reflexivity. Qed.

Lemma cmd_step_flags (cs : cstate) (ce : cevent) : c_flags (cmd_step N cs ce) = final (ce_cmds ce) (c_flags cs).
Proof. reflexivity. Qed.

Lemma reinit_preinv (st : sis_state) p w :
  PreInv st -> length p = N -> length w = N -> lse ROps w = 0 -> PreInv (reinit st p w).
Proof.
  intros [[[_ [_ [L1 L2]]] _] _] Hp Hw Hn. split.
  - split; [repeat split; assumption | exact Hn].
  - intro H. exfalso. apply H. reflexivity.
Qed.

Lemma item_inv (cs : cstate) (it : item) :
  PreInv (c_sis cs) -> wf_item it ->
  PreInv (c_sis (item_step N cs it)) /\ (is_step it = true -> Inv (c_sis (item_step N cs it))).
Proof.
  intros HP Hw. destruct it as [ce | p w]; simpl in *.
  - pose proof (step_inv St Aux N dl dc Npos (c_sis cs) (event_of (cmd_flags cs ce) ce) HP (wf_event_of _ ce Hw)) as HI.
    split; [apply Inv_PreInv; exact HI | intros _; exact HI].
  - destruct Hw as [Hp [Hl Hn]]. split; [apply reinit_preinv; assumption | discriminate].
Qed.

Lemma cmd_trace_inv (its : list item) : forall cs : cstate,
  PreInv (c_sis cs) -> Forall wf_item its ->
  Forall2 (fun it cs' => PreInv (c_sis cs') /\ (is_step it = true -> Inv (c_sis cs'))) its (cmd_trace N cs its).
Proof.
  intros cs HP Hw. revert cs HP.
  induction Hw as [|it its H1 _ IH]; intros cs HP; simpl; constructor.
  - exact (item_inv cs it HP H1).
  - apply IH, (item_inv cs it HP H1).
Qed.

Lemma cmd_run_preinv (its : list item) : forall cs : cstate,
  PreInv (c_sis cs) -> Forall wf_item its -> PreInv (c_sis (cmd_run N cs its)).
Proof.
  intros cs HP Hw. revert cs HP.
  induction Hw as [|it its H1 _ IH]; intros cs HP; [exact HP|].
  apply (IH (item_step N cs it)), (item_inv cs it HP H1).
Qed.

(* after every step of a pass no resampling is pending; a reset returns to step 0 *)
Definition settled_if_started (st : sis_state) : Prop := step st <> 0%nat -> settled St Aux N (cor st).

Lemma item_settled (cs : cstate) (it : item) :
  PreInv (c_sis cs) -> wf_item it -> settled_if_started (c_sis (item_step N cs it)).
Proof.
  intros HP Hw. destruct it as [ce | p w]; simpl in *.
  - intros _. apply (settled_after_step St Aux N dl dc Npos).
    apply (good_mid St Aux N dl dc Npos (c_sis cs) (event_of (cmd_flags cs ce) ce) HP (wf_event_of _ ce Hw)).
  - intro H. exfalso. apply H. reflexivity.
Qed.

Lemma cmd_run_flags (its : list item) : forall cs : cstate,
  c_flags (cmd_run N cs its) = final (cmds_of its) (c_flags cs).
Proof.
  induction its as [|it its IH]; intros cs; [reflexivity|].
  unfold cmd_run. simpl fold_left. fold (cmd_run N (item_step N cs it) its). rewrite IH.
  destruct it as [ce | p w]; simpl; [|reflexivity]. rewrite final_app. reflexivity.
Qed.

Section Hist.
Variable have : bool.
Variable st0 : sis_state.
Hypothesis Hstep0 : step st0 = 0%nat.
Hypothesis Hgood0 : good (pred st0).

Notation hstate := (hist_state N have st0).
Notation hflags := (hist_flags N have st0).
Notation hmid := (hist_mid N have st0).

Lemma hist_preinv its : Forall wf_item its -> PreInv (c_sis (hstate its)).
Proof. intro H. apply cmd_run_preinv; auto. apply init_preinv; auto. Qed.

(* whether a resampling is pending is decided by the last item alone *)
Lemma hist_settled its : Forall wf_item its -> settled_if_started (c_sis (hstate its)).
Proof.
  destruct its as [|it its _] using rev_ind; intro Hw.
  - intro H. exfalso. apply H. exact Hstep0.
  - apply Forall_app in Hw as [Hw Hit]. unfold hist_state, cmd_run. rewrite fold_left_app.
    apply item_settled; [exact (hist_preinv its Hw) | exact (Forall_inv Hit)].
Qed.

Lemma hist_flags_final its ce : hflags its ce = final (hist_cmds its ce) (init have).
Proof.
  unfold hist_flags, cmd_flags, hist_state, hist_cmds. rewrite cmd_run_flags, final_app. reflexivity.
Qed.

Lemma hist_flags_rule its ce :
  f_pred (hflags its ce) = rule_pred_skipped have (hist_cmds its ce) /\
  f_corr (hflags its ce) = rule_corr_skipped (hist_cmds its ce).
Proof.
  rewrite hist_flags_final, final_by_rule. split; reflexivity.
Qed.

Lemma hist_mode_rule its ce :
  rule_pred_skipped have (hist_cmds its ce) = false ->
  prop_mode_of (hflags its ce) = rule_mode have (hist_cmds its ce).
Proof.
  rewrite hist_flags_final. intro H.
  destruct (flags_match_commands have (hist_cmds its ce)) as (Hs & He & _ & Hp & _).
  rewrite (prop_mode_unskipped _ Hp) by (rewrite pred_reported; exact H).
  unfold rule_mode, exo_or_true. rewrite Hs, He. destruct have; [reflexivity|].
  (* without exogenous model "not skipped" says that the state flag is off *)
  unfold rule_pred_skipped in H. rewrite andb_true_r in H. rewrite H. reflexivity.
Qed.

Lemma hist_good_mid its ce : Forall wf_item its -> wf_cev ce -> good (pred (hmid its ce)) /\ good (cor (hmid its ce)).
Proof.
  intros Hw Hc. unfold hist_mid. apply good_mid; [exact Npos | apply hist_preinv; exact Hw | exact Hc].
Qed.

(* the rule never selects one of the two branches of propagate that run no part *)
Lemma rule_mode_cases (cs : list cmd) :
  rule_mode have cs = MFull \/ rule_mode have cs = MStateOnly \/ rule_mode have cs = MExoOnly.
Proof.
  unfold rule_mode. destruct have; [|auto].
  destruct (last_status state_names false cs); [auto|]. destruct (last_status exo_names false cs); auto.
Qed.

End Hist.

Lemma cmd_trace_last (its : list item) : forall cs d : cstate, its <> [] -> last (cmd_trace N cs its) d = cmd_run N cs its.
Proof.
  induction its as [|it its IH]; intros cs d H; [congruence|].
  destruct its as [|it' its']; [reflexivity|].
  change (cmd_trace N cs (it :: it' :: its')) with (item_step N cs it :: cmd_trace N (item_step N cs it) (it' :: its')).
  change (cmd_run N cs (it :: it' :: its')) with (cmd_run N (item_step N cs it) (it' :: its')).
  rewrite <- (IH (item_step N cs it) d) by congruence. reflexivity.
Qed.

End CMD.
