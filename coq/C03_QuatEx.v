(* C03_QuatEx.v — non-vacuity of the premises of C03_quat_affine_exact (Properties_C03_Real.v): a concrete instance.
   Layout: 1 linear row, 1 quaternion, no noise (d = 5, dc = 4); output: 1 linear row, 1 quaternion.
   alpha = 1, kappa = 0 (c = 4, sqrt c = 2, w0 = 0, wi = 1/8); P = I / 4 with its diagonal factor (every
   non-zero rotation-vector block of a sigma offset is a unit axis vector: norm 1, outside the cut-off
   zone, within a half turn); mean quaternion (1, 0, 0, 0); the map y_lin = 2 x_lin + 1/2, y_quat = x_quat
   (rl = rr = 1), J = diag(2, 1, 1, 1); the eigenvector oracle returns (1, 0, 0, 0), which is shown to meet
   the eigen-solver contract (it is the strictly dominant direction).
   Axioms: the four standard axioms of Coq's Reals. *)
Require Import ZArith Reals Lra Lia List Bool Arith.
Require Import BFL.Ops BFL.C03_Model BFL.C19_ROps BFL.C18_Model BFL.C18_Proofs BFL.C03_Real.
Require Import BFL.C03_RFun BFL.C03_Sigma BFL.C03_Euler BFL.C03_QuatAlg BFL.C03_Quat.
Import ListNotations.
Local Open Scope R_scope.

Definition exq_sq (n : nat) (P : fmx) : fmx := fun i j => if Nat.eqb i j then sqrt (P i i) else 0.
Definition exq_eg (n : nat) (M : fmx) : fmx := fun i _ => match i with 0%nat => 1 | _ => 0 end.
Definition exq_P : fmx := fun i j => if Nat.eqb i j then 1 / 4 else 0.
Definition exq_m : fmx := fun i _ => match i with 0%nat => 3 | 1%nat => 1 | _ => 0 end.
Definition exq_Am : fmx := fun i j => if Nat.eqb i j then (if Nat.eqb i 0 then 2 else 1) else 0.
Definition exq_b : fmx := fun i _ => match i with 0%nat => 1 / 2 | _ => 0 end.
Definition exq_J : fmx := fun i j => if Nat.eqb i j then (if Nat.eqb i 0 then 2 else 1) else 0.
Definition exq_r (t : nat) : Q := Q1.

Lemma sqrt_quarter : sqrt (1 / 4) = 1 / 2.
Proof. apply sqrt_lem_1; lra. Qed.
Lemma sqrt_four : sqrt 4 = 2.
Proof. apply sqrt_lem_1; lra. Qed.

Lemma rotv_Q1 v : rotv Q1 v = v.
Proof. unfold rotv. rewrite qmul_1_l. destruct v as [x y z]. unfold pureq, Q1, qvec, qmul, qconj, sub, add, mul. cbn. f_equal; lra. Qed.

Lemma ok_axis (v : V) : ss v = 1 -> ok_rv v.
Proof.
  intros H. right. assert (E : n3 v = 1) by (unfold n3; rewrite H; apply sqrt_1). rewrite E.
  destruct example_log_exp_premises as [H1 _]. cbv zeta in H1. rewrite n3_axis in H1 by lra. split; [exact H1|]. pose proof PI2_1. unfold PI2 in *. lra.
Qed.

Section Instance.
Notation sq := exq_sq.
Notation eg := exq_eg.
Let Lin := mkLayout 1 1 true 0.
Let Lout := mkLayout 1 1 true 0.
Let d := l_dim Lin.
Let dc := l_dcov Lin.
Let p := l_dim Lout.
Let w := ut_weights (O:=RF sq eg) dc 1 2 0.
Let c := w_c w.
Let w0 := nth 0 (w_mean w) 0.
Let wi := nth 1 (w_mean w) 0.

Lemma exq_dims : d = 5%nat /\ dc = 4%nat /\ p = 5%nat.
Proof. repeat split. Qed.

Lemma exq_c : c = 4.
Proof. unfold c, w. rewrite ut_weights_R_c. simpl. lra. Qed.

Lemma exq_w : w0 = 0 /\ wi = 1 / 8.
Proof.
  unfold w0, wi, w. rewrite ut_weights_R. cbn [w_mean nth]. change dc with 4%nat. simpl. split; lra.
Qed.

Lemma exq_Yf (x : fmx) i : (1 <= i)%nat -> (i < 5)%nat -> Yfq sq eg d p exq_Am exq_b x i 0%nat = x i 0%nat.
Proof.
  intros H1 H2. unfold Yfq. change d with 5%nat. change p with 5%nat. rewrite affine_get by exact H2.
  destruct i as [|[|[|[|[|i]]]]]; try lia; unfold exq_Am, exq_b; simpl; lra.
Qed.

Lemma exq_map_ok : quat_map_ok sq eg 1 1 1 d dc p exq_Am exq_b exq_J exq_r exq_r.
Proof.
  assert (HQ : qnorm2 Q1 = 1) by (unfold qnorm2, Q1; simpl; lra).
  split; [intros; exact HQ|]. split; [intros; exact HQ|]. split; [|split; [|split]].
  - intros i j Hi H1 H2. assert (i = 0%nat) by lia. subst i. unfold exq_Am.
    destruct j as [|j]; [lia | reflexivity].
  - intros x t Ht. assert (t = 0%nat) by lia. subst t. unfold exq_r. rewrite qmul_1_l, qmul_Q1_r.
    unfold qraw. simpl. rewrite !exq_Yf by lia. reflexivity.
  - intros e i Hi. assert (i = 0%nat) by lia. subst i. change d with 5%nat. change dc with 4%nat.
    unfold qJ, es, exq_Am, exq_J. simpl. lra.
  - intros e t k Ht Hk. assert (t = 0%nat) by lia. subst t. unfold exq_r. rewrite rotv_Q1.
    change dc with 4%nat. unfold qJ, exq_J. destruct k as [|[|[|k]]]; try lia; simpl; lra.
Qed.

Lemma exq_factor : factor_ok sq dc exq_P.
Proof.
  pose proof sqrt_quarter as Hs.
  intros a b' Ha Hb. change dc with 4%nat in *. unfold exq_sq, exq_P.
  destruct a as [|[|[|[|a]]]]; try lia; destruct b' as [|[|[|[|b']]]]; try lia; simpl; rewrite ?Hs; lra.
Qed.

Lemma exq_blocks k : (k < 4)%nat ->
  blk 1 (fun j => sqrt c * sq dc exq_P j k) 0 = V0 \/ ss (blk 1 (fun j => sqrt c * sq dc exq_P j k) 0) = 1.
Proof.
  intros Hk. rewrite exq_c, sqrt_four. change dc with 4%nat. unfold blk, exq_sq, exq_P, ss.
  destruct k as [|[|[|[|k]]]]; try lia; simpl; rewrite ?sqrt_quarter.
  - left. unfold V0. f_equal; lra.
  - right. lra.
  - right. lra.
  - right. lra.
Qed.

Lemma exq_comp_ok : quat_comp_ok sq eg 1 1 0 1 d dc p c w0 wi exq_Am exq_b (exq_m, exq_P).
Proof.
  pose proof exq_map_ok as (M1 & M2 & M3 & M4 & M5 & M6).
  assert (Hunit : forall t, (t < 1)%nat -> qnorm2 (qraw exq_m (1 + t * 4)) = 1).
  { intros t Ht. assert (t = 0%nat) by lia. subst t. unfold qnorm2, qraw, exq_m. simpl. lra. }
  assert (Hok : forall t k, (t < 1)%nat -> (k < dc)%nat -> ok_rv (blk 1 (fun j => sqrt c * sq dc exq_P j k) t)).
  { intros t k Ht Hk. assert (t = 0%nat) by lia. subst t.
    destruct (exq_blocks k Hk) as [E|E]; [left; exact E | apply ok_axis; exact E]. }
  assert (Hres : forall t, (t < 1)%nat ->
            0 < w0 + 2 * wi * rsum dc (fun k => cos (n3 (blk 1 (fun j => sqrt c * sq dc exq_P j k) t)))).
  { intros t Ht. assert (t = 0%nat) by lia. subst t. destruct exq_w as [-> ->].
    assert (Hcos : forall k, (k < 4)%nat -> 0 < cos (n3 (blk 1 (fun j => sqrt c * sq dc exq_P j k) 0))).
    { intros k Hk. destruct (exq_blocks k Hk) as [E|E].
      - rewrite E, n3_V0, cos_0. lra.
      - unfold n3. rewrite E, sqrt_1. apply cos_gt_0; pose proof PI2_1; unfold PI2 in *; lra. }
    pose proof (Hcos 0%nat ltac:(lia)) as C0. pose proof (Hcos 1%nat ltac:(lia)) as C1.
    pose proof (Hcos 2%nat ltac:(lia)) as C2. pose proof (Hcos 3%nat ltac:(lia)) as C3.
    change dc with 4%nat in C0, C1, C2, C3 |- *. simpl rsum. lra. }
  split; [exact exq_factor|]. split; [exact Hunit|]. split; [exact Hok|]. split; [exact Hres|].
  intros t Ht. cbn [fst snd].
  assert (Hc : 0 < c) by (rewrite exq_c; lra).
  destruct (ut_weights_R_sums sq eg dc 1 2 0 ltac:(change dc with 4%nat; lia) (Rgt_not_eq _ _ Hc)) as [W1 W2]. fold w0 wi c in W1, W2.
  apply (oracle_centre_ok sq eg 1 1 0 1 d dc 4 p 4 eq_refl eq_refl eq_refl eq_refl eq_refl c exq_m exq_P exq_Am exq_b
           exq_r exq_r Hc Hunit M1 M2 M4 w0 wi W1 W2 ltac:(change dc with 4%nat; lia) Hres t Ht).
  assert (t = 0%nat) by lia. subst t.
  unfold mquat, qc, exq_r. rewrite qmul_1_l, qmul_Q1_r. unfold qraw, exq_m. simpl. reflexivity.
Qed.

Lemma quat_premises_example :
  (0 < dc)%nat /\ 0 < c /\
  quat_map_ok sq eg 1 1 1 d dc p exq_Am exq_b exq_J exq_r exq_r /\
  (forall mc, In mc [(exq_m, exq_P)] -> quat_comp_ok sq eg 1 1 0 1 d dc p c w0 wi exq_Am exq_b mc).
Proof.
  split; [change dc with 4%nat; lia|]. split; [rewrite exq_c; lra|]. split; [exact exq_map_ok|].
  intros mc [<-|[]]. exact exq_comp_ok.
Qed.
End Instance.
