(* Properties_Transport.v — "executed model = theorem model" for the unscented steps.
   Every model is ONE Gallina term polymorphic in the arithmetic record MatOps (Ops.v).  The
   correspondence check extracts and runs it at the list instance
       OL = ListMat (FOps tr) sqL egL        (ListOps.v; sqL / egL: ANY list-level oracles),
   the theorems of Properties_C03 / C04 / C05 are about it at the MathComp instance
       OM = MxMat tr sq eg                   (MxOps.v).
   The theorems below say that the results at OL REPRESENT the results at OM
       repr m n l A  :=  l has m rows of n entries  /\  its entries are those of A
   over the scalars of an arbitrary realFieldType (only rounding separates the executed model
   from the theorem model), for
       C03: unscented weights, sigma points, ut_generic / ut_state / ut_additive_state /
            ut_meas / ut_additive_meas  — all layouts (linear, circular, quaternion, noise rows);
       C04: ukf_predict_additive / ukf_predict_generic / ukf_correct_additive /
            ukf_correct_generic / ukf_likelihood;
       C05: the weights, sukf_correct / sukf_likelihood (UVR density) and the spec side ukf_correct /
            ukf_likelihood_comp.
   Premises, all per call (never a contract no function satisfies):
     * the two square-root oracles correspond ON THE COVARIANCES ACTUALLY FACTORED
       (sq_corr_comps / sq_corr5: repr (sqL n lP) (sq P); C03: the premise is written out); eg_corr: the eigenvector oracles correspond,
       required only when the output layout has quaternions;
     * the transformed functions map corresponding columns to corresponding columns, with
       agreeing validity flags (f_corr, fopt_corr, inn_corr, h_corr; the harness' affine and
       quadratic model functions do: Transport_model_functions_correspond);
     * every matrix inverted by Gauss-Jordan is invertible AT THE MATHCOMP INSTANCE:
       Pyy_invertible (the predicted measurement covariances; derived for linear models with SPD
       noise: Transport_C04_Pyy_invertible_linear), noise_units / Cinv_unit (derived for SPD
       noise blocks: Transport_C05_sukf_step_spd), log_arg != 0 (the argument of std::log in the
       UVR density; it implies the invertibility of everything that density inverts).
   Transport_oracle_counterpart_exists: every well-formedness-preserving list-level oracle has a
   matrix-level counterpart it corresponds to on all inputs.
   The relations (repr_utres, repr_mix, repr_corr, repr_mix5, repr_members, ...) are the
   field-wise liftings of repr, defined in C03_/C04_/C05_Transport.v.
   Examples: all premises hold together on concrete instances over rat (identity functions as both square-root oracles on an
   identity covariance), and the theorems apply to them. *)
Require Import ZArith List Bool.
Require Import BFL.Ops BFL.ListOps BFL.Density BFL.C01_Model BFL.C03_Model BFL.C04_Model.
Require BFL.C05_Model.
From mathcomp Require Import ssreflect ssrfun ssrbool eqtype ssrnat seq choice fintype bigop order ssralg ssrnum zmodp matrix mxalgebra rat.
Require Import BFL.MxOps BFL.LinAlg BFL.ListOpsCorrect BFL.C02_Transport BFL.UT_Transport.
Require Import BFL.C03_Transport BFL.C04_Transport BFL.C05_Transport.
Require BFL.C03_Proofs BFL.C05_Proofs.
Import GRing.Theory Num.Theory.
Local Open Scope ring_scope.

Section Transport.
Variable F : realFieldType.
Variable tr : Transc F.
Variable sq : forall n, 'M[F]_n -> 'M[F]_n.
Variable eg : forall n, 'M[F]_n -> 'M[F]_(n,1).
Variables sqL egL : nat -> lmxF F -> lmxF F.
Let S := FOps tr.
Let OL := ListMat S sqL egL.
Let OM := MxMat tr sq eg.
Notation repr m n l A := (@C02_Transport.repr F m n l A) (only parsing).
Notation rcols r := (@repr_list F r 1) (only parsing).
Notation lcomp := (lmxF F * lmxF F)%type (only parsing).

(* no list-level oracle is excluded by a correspondence premise *)
Theorem Transport_oracle_counterpart_exists (fL : nat -> lmxF F -> lmxF F) (c : nat -> nat) :
  (forall n l, wf n n l -> wf n (c n) (fL n l)) ->
  exists fM : forall n, 'M[F]_n -> 'M[F]_(n, c n),
    forall n l (A : 'M[F]_n), repr n n l A -> repr n (c n) (fL n l) (fM n A).
Proof. exact: (oracle_counterpart_exists tr sq eg sqL egL). Qed.

(* ================================ C03 ================================ *)
Theorem Transport_C03_weights (L : layout) (a b k : F) :
  [/\ w_mean (@ut_weights_of OL L a b k) = w_mean (@ut_weights_of OM L a b k),
      w_cov (@ut_weights_of OL L a b k) = w_cov (@ut_weights_of OM L a b k) &
      w_c (@ut_weights_of OL L a b k) = w_c (@ut_weights_of OM L a b k)].
Proof. by []. Qed.

Theorem Transport_C03_sigma_points (L : layout) d dc (c : F)
        (csl : list lcomp) (csm : list ('cV[F]_d * 'M[F]_dc)) :
  List.Forall2 (fun (cl : lcomp) (cm : 'cV[F]_d * 'M[F]_dc) =>
                  (repr d 1 cl.1 cm.1 /\ repr dc dc cl.2 cm.2) /\ repr dc dc (sqL dc cl.2) (sq dc cm.2)) csl csm ->
  rcols d (@sigma_points OL L d dc c csl) (@sigma_points OM L d dc c csm).
Proof. exact: (sigma_points_repr eg). Qed.

Section C03.
Variables (Lin Lout : layout) (d dc p pc dx : nat).
Variables (wl : utw OL) (wm : utw OM).
Variables (csl : list lcomp) (csm : list ('cV[F]_d * 'M[F]_dc)).
Hypothesis Heg : eg_corr eg egL Lout.
Hypothesis rw : [/\ w_mean wl = w_mean wm, w_cov wl = w_cov wm & w_c wl = w_c wm].
Hypothesis rc : List.Forall2 (fun (cl : lcomp) (cm : 'cV[F]_d * 'M[F]_dc) =>
                  (repr d 1 cl.1 cm.1 /\ repr dc dc cl.2 cm.2) /\ repr dc dc (sqL dc cl.2) (sq dc cm.2)) csl csm.

Theorem Transport_C03_ut_generic fL fM : @fopt_corr F d p fL fM ->
  repr_opt (@repr_utres F tr sq eg sqL egL p pc dx)
           (@ut_generic OL Lin Lout d dc p pc dx wl csl fL) (@ut_generic OM Lin Lout d dc p pc dx wm csm fM).
Proof. exact: ut_generic_transport. Qed.

Theorem Transport_C03_ut_state fL fM : @f_corr F d p fL fM ->
  @repr_utres F tr sq eg sqL egL p pc dx
    (@ut_state OL Lin Lout d dc p pc dx wl csl fL) (@ut_state OM Lin Lout d dc p pc dx wm csm fM).
Proof. exact: ut_state_transport. Qed.

Theorem Transport_C03_ut_additive_state fL fM lQ (Q : 'M[F]_pc) : @f_corr F d p fL fM -> repr pc pc lQ Q ->
  @repr_utres F tr sq eg sqL egL p pc dx
    (@ut_additive_state OL Lin Lout d dc p pc dx wl csl fL lQ)
    (@ut_additive_state OM Lin Lout d dc p pc dx wm csm fM Q).
Proof. exact: ut_additive_state_transport. Qed.

Theorem Transport_C03_ut_meas fL fM : @fopt_corr F d p fL fM ->
  repr_opt (@repr_utres F tr sq eg sqL egL p pc dx)
           (@ut_meas OL Lin Lout d dc p pc dx wl csl fL) (@ut_meas OM Lin Lout d dc p pc dx wm csm fM).
Proof. exact: ut_meas_transport. Qed.

Theorem Transport_C03_ut_additive_meas fL fM lR (R : 'M[F]_pc) : @fopt_corr F d p fL fM -> repr pc pc lR R ->
  repr_opt (@repr_utres F tr sq eg sqL egL p pc dx)
           (@ut_additive_meas OL Lin Lout d dc p pc dx wl csl fL lR)
           (@ut_additive_meas OM Lin Lout d dc p pc dx wm csm fM R).
Proof. exact: ut_additive_meas_transport. Qed.
End C03.

(* the harness' model functions satisfy the function premises *)
Theorem Transport_model_functions_correspond d p lA (A : 'M[F]_(p,d)) lG (G : 'M[F]_(p,d))
        lb (b : 'cV[F]_p) lg (g : 'cV[F]_p) :
  repr p d lA A -> repr p d lG G -> repr p 1 lb b -> repr p 1 lg g ->
  [/\ @f_corr F d p (@affine_cols OL d p lA lb) (@affine_cols OM d p A b),
      @f_corr F d p (@quadratic_cols OL d p lA lG lb lg) (@quadratic_cols OM d p A G b g),
      @f_corr F d p (@linear_cols OL d p lA) (@linear_cols OM d p A) &
      @inn_corr F p (@lin_innovation_cols OL p) (@lin_innovation_cols OM p)].
Proof.
move=> rA rG rb rg; split; [exact: affine_cols_corr | exact: quadratic_cols_corr | exact: linear_cols_corr |].
exact: lin_innovation_cols_corr.
Qed.

(* ================================ C04 ================================ *)
Theorem Transport_C04_ukf_predict_additive n (Lstate : layout) (a b k : F) (sp ss : bool) fL fM lQ (Q : 'M[F]_n) q
        (prevl : mixture OL n n) (prevm : mixture OM n n) :
  eg_corr eg egL (l_noiseless Lstate) -> @f_corr F n n fL fM -> repr n n lQ Q ->
  @repr_mix F tr sq eg sqL egL n n prevl prevm ->
  (sp || ss = false -> sq_corr_comps sq sqL (mx_comps prevl) (mx_comps prevm)) ->
  @repr_mix F tr sq eg sqL egL n n
    (@ukf_predict_additive OL n Lstate a b k sp ss fL lQ q prevl)
    (@ukf_predict_additive OM n Lstate a b k sp ss fM Q q prevm).
Proof.
move=> Heg Hf rQ rp Hsq; rewrite /ukf_predict_additive; case E: (sp || ss) => //.
have [El rc Ew] := rp; rewrite El.
apply: mix_of_result_repr; apply: ut_additive_state_transport => //.
by apply: comps_sq => //; exact: Hsq.
Qed.

Theorem Transport_C04_ukf_predict_generic n q (Ldesc Lstate : layout) (a b k : F) (sp ss : bool) fL fM
        lQ (Q : 'M[F]_q) (prevl : mixture OL n n) (prevm : mixture OM n n) :
  eg_corr eg egL (l_noiseless Lstate) -> @f_corr F (n + q) n fL fM -> repr q q lQ Q ->
  @repr_mix F tr sq eg sqL egL n n prevl prevm ->
  (sp || ss = false ->
   sq_corr_comps sq sqL (List.map (@augment_comp OL n n q lQ) (mx_comps prevl))
                        (List.map (@augment_comp OM n n q Q) (mx_comps prevm))) ->
  @repr_mix F tr sq eg sqL egL n n
    (@ukf_predict_generic OL n q Ldesc Lstate a b k sp ss fL lQ prevl)
    (@ukf_predict_generic OM n q Ldesc Lstate a b k sp ss fM Q prevm).
Proof.
move=> Heg Hf rQ rp Hsq; rewrite /ukf_predict_generic; case E: (sp || ss) => //.
have [El rc Ew] := rp; rewrite El.
apply: mix_of_result_repr; apply: ut_state_transport => //.
apply: comps_sq; last exact: Hsq.
by apply: F2_map; apply: F2_impl rc => cl cm rcc; exact: augment_comp_repr.
Qed.

Section C04Correct.
Variables (n m : nat) (Ldesc Lmeas : layout) (a b k : F) (skip : bool).
Variables (measl : option (lmxF F)) (measm : option 'cV[F]_m).
Variables (gL : list (lmxF F) -> lmxF F -> option (list (lmxF F)))
          (gM : list 'cV[F]_m -> 'cV[F]_m -> option (list 'cV[F]_m)).
Variables (predl corrl : mixture OL n n) (predm corrm : mixture OM n n).
Variables (stl : ukf_state OL m) (stm : ukf_state OM m).
Hypothesis Heg : eg_corr eg egL (l_noiseless Lmeas).
Hypothesis rmeas : repr_opt (fun l (y : 'cV[F]_m) => repr m 1 l y) measl measm.
Hypothesis Hg : @inn_corr F m gL gM.
Hypothesis rp : @repr_mix F tr sq eg sqL egL n n predl predm.
Hypothesis rco : @repr_mix F tr sq eg sqL egL n n corrl corrm.
Hypothesis rst : @repr_ukfst F tr sq eg sqL egL m stl stm.

(* result: (corrected mixture, kept state, per-component Kalman-style records) *)
Theorem Transport_C04_ukf_correct_additive fL fM lR (R : 'M[F]_m) :
  @fopt_corr F n m fL fM -> repr m m lR R ->
  (skip = false -> measm <> None -> sq_corr_comps sq sqL (mx_comps predl) (mx_comps predm)) ->
  (skip = false -> forall y, measm = Some y ->
     Pyy_invertible (@ut_additive_meas OM (mx_layout predm) (l_noiseless Lmeas) n n m m n
                       (@ut_weights_of OM (l_noiseless Ldesc) a b k) (mx_comps predm) fM R)) ->
  @repr_corr F tr sq eg sqL egL n m
    (@ukf_correct_additive OL n m Ldesc Lmeas a b k skip measl fL gL lR predl corrl stl)
    (@ukf_correct_additive OM n m Ldesc Lmeas a b k skip measm fM gM R predm corrm stm).
Proof. exact: ukf_correct_additive_transport. Qed.

Theorem Transport_C04_ukf_correct_generic q fL fM lRv (Rv : 'M[F]_q) :
  @fopt_corr F (n + q) m fL fM -> repr q q lRv Rv ->
  (skip = false -> measm <> None ->
   sq_corr_comps sq sqL (List.map (@augment_comp OL n n q lRv) (mx_comps predl))
                        (List.map (@augment_comp OM n n q Rv) (mx_comps predm))) ->
  (skip = false -> forall y, measm = Some y ->
     Pyy_invertible (@ut_meas OM (l_add_noise (mx_layout predm) q) (l_noiseless Lmeas) (n + q) (n + q) m m n
                       (@ut_weights_of OM Ldesc a b k) (List.map (@augment_comp OM n n q Rv) (mx_comps predm)) fM)) ->
  @repr_corr F tr sq eg sqL egL n m
    (@ukf_correct_generic OL n q m Ldesc Lmeas a b k skip measl fL gL lRv predl corrl stl)
    (@ukf_correct_generic OM n q m Ldesc Lmeas a b k skip measm fM gM Rv predm corrm stm).
Proof.
move=> Hf rR Hsq Hu; apply: ukf_correct_shell_repr => // E Hy.
have [-> rc _] := rp; apply: ut_meas_transport => //.
apply: comps_sq; last exact: Hsq.
by apply: F2_map; apply: F2_impl rc => cl cm rcc; exact: augment_comp_repr.
Qed.
End C04Correct.

Theorem Transport_C04_ukf_likelihood m (stl : ukf_state OL m) (stm : ukf_state OM m) :
  @repr_ukfst F tr sq eg sqL egL m stl stm ->
  List.Forall (fun P : 'M[F]_m => P \in unitmx) (List.firstn (length (us_innov stm)) (us_Pyy stm)) ->
  @ukf_likelihood OL m stl = @ukf_likelihood OM m stm.
Proof.
move=> [rnu rP] Hu; rewrite /ukf_likelihood (density_cols_transport tr sq eg sqL egL rnu rP Hu).
by case: rnu.
Qed.

(* linear measurement model, SPD noise: the invertibility premise of the additive correction holds *)
Theorem Transport_C04_Pyy_invertible_linear n m (Ldesc Lmeas : layout) (a b k : F)
        (H : 'M[F]_(m,n)) (R : 'M[F]_m) (predm : mixture OM n n) :
  C04_Proofs.plain_layout (mx_layout predm) n ->
  l_lin Lmeas = m -> l_circ Lmeas = 0%N -> l_lin Ldesc = n -> l_circ Ldesc = 0%N ->
  w_c (@ut_weights OM n a b k) != 0 ->
  t_sqrt tr (w_c (@ut_weights OM n a b k)) * t_sqrt tr (w_c (@ut_weights OM n a b k)) = w_c (@ut_weights OM n a b k) ->
  (forall mc : 'cV[F]_n * 'M[F]_n, List.In mc (mx_comps predm) -> sq n mc.2 *m (sq n mc.2)^T = mc.2) ->
  (forall mc : 'cV[F]_n * 'M[F]_n, List.In mc (mx_comps predm) -> psd mc.2) -> spd R ->
  Pyy_invertible (@ut_additive_meas OM (mx_layout predm) (l_noiseless Lmeas) n n m m n
                    (@ut_weights_of OM (l_noiseless Ldesc) a b k) (mx_comps predm)
                    (fun X => Some (@linear_cols OM n m H X)) R).
Proof. by move=> pp Ll _; exact: (Pyy_invertible_additive_linear H pp Ll). Qed.

(* ================================ C05 ================================ *)
Section C05.
Variables (n m s nl ml : nat).
Variables (wl : C05_Model.utw OL) (wm : C05_Model.utw OM).
Variables (hL : lmxF F -> lmxF F) (hM : 'cV[F]_n -> 'cV[F]_m).
Variables (ly : lmxF F) (y : 'cV[F]_m).
Variables (predl corrl : C05_Model.mixture OL n) (predm corrm : C05_Model.mixture OM n).
Hypothesis rw : @repr_utw5 F tr sq eg sqL egL wl wm.
Hypothesis Hh : @h_corr F n m hL hM.
Hypothesis ry : repr m 1 ly y.
Hypothesis rp : @repr_mix5 F tr sq eg sqL egL n predl predm.
Hypothesis rco : @repr_mix5 F tr sq eg sqL egL n corrl corrm.

Theorem Transport_C05_weights (a b k : F) :
  @repr_utw5 F tr sq eg sqL egL (@C05_Model.ut_weights OL n a b k) (@C05_Model.ut_weights OM n a b k).
Proof. exact: ut_weights5_transport. Qed.

Theorem Transport_C05_sukf_correct (nzl : C05_Model.noise OL s m) (nzm : C05_Model.noise OM s m) :
  @repr_noise F tr sq eg sqL egL s m nzl nzm ->
  (Nat.modulo m s = 0%N ->
   [/\ List.Forall2 (fun (cl : lcomp) (cm : 'cV[F]_n * 'M[F]_n) => sq_corr5 sq sqL cl.2 cm.2)
                    (C05_Model.mix_comps predl) (C05_Model.mix_comps predm),
       noise_units nzm &
       List.Forall (fun c : 'cV[F]_n * 'M[F]_n => Cinv_unit nl ml wm hM y nzm c.1 c.2) (C05_Model.mix_comps predm)]) ->
  @repr_mix5 F tr sq eg sqL egL n
    (@C05_Model.sukf_correct OL n m s nl ml wl hL ly nzl predl corrl).1
    (@C05_Model.sukf_correct OM n m s nl ml wm hM y nzm predm corrm).1 /\
  @repr_members F tr sq eg sqL egL n m
    (@C05_Model.sukf_correct OL n m s nl ml wl hL ly nzl predl corrl).2
    (@C05_Model.sukf_correct OM n m s nl ml wm hM y nzm predm corrm).2.
Proof. by move=> rnz; exact: sukf_correct_transport. Qed.

Theorem Transport_C05_sukf_likelihood (nzl : C05_Model.noise OL s m) (nzm : C05_Model.noise OM s m)
        (bl : C05_Model.members OL n m) (bm : C05_Model.members OM n m) :
  @repr_noise F tr sq eg sqL egL s m nzl nzm -> @repr_members F tr sq eg sqL egL n m bl bm ->
  (forall outs, bm = Some outs -> List.Forall (fun o => log_arg nzm o != 0) outs) ->
  @C05_Model.sukf_likelihood OL n m s nzl bl = @C05_Model.sukf_likelihood OM n m s nzm bm.
Proof. exact: sukf_likelihood_transport. Qed.

(* the spec side: the standard additive unscented correction of C05_Model *)
Theorem Transport_C05_ukf_correct lR (R : 'M[F]_m) :
  repr m m lR R ->
  List.Forall2 (fun (cl : lcomp) (cm : 'cV[F]_n * 'M[F]_n) => sq_corr5 sq sqL cl.2 cm.2)
               (C05_Model.mix_comps predl) (C05_Model.mix_comps predm) ->
  List.Forall (fun c : 'cV[F]_n * 'M[F]_n =>
                 (C05_Model.uo_Pyy (@C05_Model.ukf_correct_comp_lay OM n m nl ml wm hM y R c.1 c.2) : 'M[F]_m) \in unitmx)
              (C05_Model.mix_comps predm) ->
  @repr_mix5 F tr sq eg sqL egL n
    (@C05_Model.ukf_correct OL n m nl ml wl hL ly lR predl corrl).1
    (@C05_Model.ukf_correct OM n m nl ml wm hM y R predm corrm).1 /\
  List.Forall2 (@repr_uo F tr sq eg sqL egL n m)
    (@C05_Model.ukf_correct OL n m nl ml wl hL ly lR predl corrl).2
    (@C05_Model.ukf_correct OM n m nl ml wm hM y R predm corrm).2.
Proof. by move=> rR; exact: ukf_correct_transport. Qed.

Theorem Transport_C05_ukf_likelihood (ol : C05_Model.ukf_out OL n m) (om : C05_Model.ukf_out OM n m) :
  @repr_uo F tr sq eg sqL egL n m ol om -> (C05_Model.uo_Pyy om : 'M[F]_m) \in unitmx ->
  @C05_Model.ukf_likelihood_comp OL n m ol = @C05_Model.ukf_likelihood_comp OM n m om.
Proof. exact: ukf_likelihood_comp_transport. Qed.
End C05.

(* k blocks of size s > 0 with SPD noise blocks (the premises of Properties_C05): no
   invertibility premise is left; step and likelihood *)
Theorem Transport_C05_sukf_step_spd n nl ml k s
        (nzl : C05_Model.noise OL s (k * s)) (nzm : C05_Model.noise OM s (k * s)) (Rb : nat -> 'M[F]_s)
        (wl : C05_Model.utw OL) (wm : C05_Model.utw OM) hL (hM : 'cV[F]_n -> 'cV[F]_(k * s))
        ly (y : 'cV[F]_(k * s)) (predl corrl : C05_Model.mixture OL n) (predm corrm : C05_Model.mixture OM n) :
  (0 < s)%N -> @repr_noise F tr sq eg sqL egL s (k * s) nzl nzm ->
  C05_Proofs.noise_blocks nzm Rb -> (forall j, (j < k)%N -> spd (Rb j)) ->
  @repr_utw5 F tr sq eg sqL egL wl wm -> @h_corr F n (k * s) hL hM -> repr (k * s) 1 ly y ->
  @repr_mix5 F tr sq eg sqL egL n predl predm -> @repr_mix5 F tr sq eg sqL egL n corrl corrm ->
  List.Forall2 (fun (cl : lcomp) (cm : 'cV[F]_n * 'M[F]_n) => sq_corr5 sq sqL cl.2 cm.2)
               (C05_Model.mix_comps predl) (C05_Model.mix_comps predm) ->
  [/\ @repr_mix5 F tr sq eg sqL egL n
        (@C05_Model.sukf_correct OL n (k * s) s nl ml wl hL ly nzl predl corrl).1
        (@C05_Model.sukf_correct OM n (k * s) s nl ml wm hM y nzm predm corrm).1,
      @repr_members F tr sq eg sqL egL n (k * s)
        (@C05_Model.sukf_correct OL n (k * s) s nl ml wl hL ly nzl predl corrl).2
        (@C05_Model.sukf_correct OM n (k * s) s nl ml wm hM y nzm predm corrm).2 &
      @C05_Model.sukf_likelihood OL n (k * s) s nzl (@C05_Model.sukf_correct OL n (k * s) s nl ml wl hL ly nzl predl corrl).2 =
      @C05_Model.sukf_likelihood OM n (k * s) s nzm (@C05_Model.sukf_correct OM n (k * s) s nl ml wm hM y nzm predm corrm).2].
Proof. by move=> s0 rnz Hnz Hspd; exact: (sukf_step_transport_spd nl ml s0 rnz Hnz Hspd). Qed.

End Transport.

(* ---- non-vacuity, concretely: rationals, identity functions as both square-root oracles, an
   identity covariance ---- *)
Definition trQ : Transc [realFieldType of rat] :=
  @mkTransc [realFieldType of rat] id id id id id id (fun y _ => y) 3%:R 0.

(* all premises of Transport_C04_ukf_correct_additive hold together (n = m = 2, H = R = P = I,
   alpha = 1, beta = 0, kappa = 1 - n: c = 1) *)
Example Transport_C04_premises_satisfiable_rat :
  let OL := ListMat (FOps trQ) (@id_sqL _) (@zero_egL _ trQ) in
  let OM := MxMat trQ (@id_sq _) (@zero_eg _) in
  [/\ eg_corr (@zero_eg _) (@zero_egL _ trQ) (l_noiseless (plainL 2)),
      @inn_corr _ 2 (@lin_innovation_cols OL 2) (@lin_innovation_cols OM 2),
      repr_mix (unit_mixL trQ 2) (unit_mixM trQ 2) /\
      sq_corr_comps (@id_sq _) (@id_sqL _) (mx_comps (unit_mixL trQ 2)) (mx_comps (unit_mixM trQ 2)),
      @fopt_corr _ 2 2 (fun X => Some (@linear_cols OL 2 2 (@mid OL 2) X))
                       (fun X => Some (@linear_cols OM 2 2 (1%:M : 'M[rat]_2) X)) &
      Pyy_invertible (@ut_additive_meas OM (mx_layout (unit_mixM trQ 2)) (l_noiseless (plainL 2)) 2 2 2 2 2
                        (@ut_weights_of OM (l_noiseless (plainL 2)) 1 0 (unit_kappa trQ 2)) (mx_comps (unit_mixM trQ 2))
                        (fun X => Some (@linear_cols OM 2 2 (1%:M : 'M[rat]_2) X)) (1%:M : 'M[rat]_2))].
Proof. exact: (ukf_correct_premises_satisfiable (tr:=trQ) 2 erefl). Qed.

(* ... and the executed correction of that instance represents the MathComp one *)
Example Transport_C04_instance_rat :
  let OL := ListMat (FOps trQ) (@id_sqL _) (@zero_egL _ trQ) in
  let OM := MxMat trQ (@id_sq _) (@zero_eg _) in
  repr_corr (@ukf_correct_additive OL 2 2 (plainL 2) (plainL 2) 1 0 (unit_kappa trQ 2) false (Some (@mzero OL 2 1))
               (fun X => Some (@linear_cols OL 2 2 (@mid OL 2) X)) (@lin_innovation_cols OL 2) (@mid OL 2)
               (unit_mixL trQ 2) (unit_mixL trQ 2) (@mkUkfState OL 2 nil nil))
            (@ukf_correct_additive OM 2 2 (plainL 2) (plainL 2) 1 0 (unit_kappa trQ 2) false (Some (0 : 'cV[rat]_2))
               (fun X => Some (@linear_cols OM 2 2 (1%:M : 'M[rat]_2) X)) (@lin_innovation_cols OM 2) (1%:M : 'M[rat]_2)
               (unit_mixM trQ 2) (unit_mixM trQ 2) (@mkUkfState OM 2 nil nil)).
Proof. exact: (ukf_correct_unit_instance (tr:=trQ) 2 erefl). Qed.

(* all premises of Transport_C05_sukf_step_spd hold together (n = 2, k = 2 blocks of size 1) *)
Example Transport_C05_premises_satisfiable_rat :
  let OL := ListMat (FOps trQ) (@id_sqL _) (@zero_egL _ trQ) in
  let OM := MxMat trQ (@id_sq _) (@zero_eg _) in
  [/\ @h_corr _ 2 (2 * 1) (zero_hL trQ 2 2 0) (@zero_hM _ trQ 2 2 0),
      @repr_noise _ trQ (@id_sq _) (@zero_eg _) (@id_sqL _) (@zero_egL _ trQ) 1 (2 * 1)
                  (@C05_Model.NoiseReduced OL 1 (2 * 1) (@mid OL 1))
                  (@C05_Model.NoiseReduced OM 1 (2 * 1) (1%:M : 'M[rat]_1)),
      C05_Proofs.noise_blocks (@C05_Model.NoiseReduced OM 1 (2 * 1) (1%:M : 'M[rat]_1)) (fun _ => 1%:M : 'M[rat]_1) /\
      (forall j, (j < 2)%N -> spd (1%:M : 'M[rat]_1)),
      repr_mix5 (unit_mix5L trQ 2) (unit_mix5M trQ 2) &
      List.Forall2 (fun (cl : lmxF _ * lmxF _) (cm : 'cV[rat]_2 * 'M[rat]_2) =>
                      sq_corr5 (@id_sq _) (@id_sqL _) cl.2 cm.2)
                   (C05_Model.mix_comps (unit_mix5L trQ 2)) (C05_Model.mix_comps (unit_mix5M trQ 2))].
Proof. exact: (sukf_premises_satisfiable trQ 2 2 0). Qed.

(* ... and the executed serial correction of that instance and its likelihood represent / equal
   the MathComp ones (measurement y = 0, any layout split nl / ml, any alpha, beta, kappa) *)
Example Transport_C05_instance_rat nl ml (a b kp : rat) :
  let OL := ListMat (FOps trQ) (@id_sqL _) (@zero_egL _ trQ) in
  let OM := MxMat trQ (@id_sq _) (@zero_eg _) in
  let nzl := @C05_Model.NoiseReduced OL 1 (2 * 1) (@mid OL 1) in
  let nzm := @C05_Model.NoiseReduced OM 1 (2 * 1) (1%:M : 'M[rat]_1) in
  let rl := @C05_Model.sukf_correct OL 2 (2 * 1) 1 nl ml (@C05_Model.ut_weights OL 2 a b kp) (zero_hL trQ 2 2 0)
              (@mzero OL (2 * 1) 1) nzl (unit_mix5L trQ 2) (unit_mix5L trQ 2) in
  let rm := @C05_Model.sukf_correct OM 2 (2 * 1) 1 nl ml (@C05_Model.ut_weights OM 2 a b kp) (@zero_hM _ trQ 2 2 0)
              (0 : 'cV[rat]_(2 * 1)) nzm (unit_mix5M trQ 2) (unit_mix5M trQ 2) in
  [/\ @repr_mix5 _ trQ (@id_sq _) (@zero_eg _) (@id_sqL _) (@zero_egL _ trQ) 2 rl.1 rm.1,
      @repr_members _ trQ (@id_sq _) (@zero_eg _) (@id_sqL _) (@zero_egL _ trQ) 2 (2 * 1) rl.2 rm.2 &
      @C05_Model.sukf_likelihood OL 2 (2 * 1) 1 nzl rl.2 = @C05_Model.sukf_likelihood OM 2 (2 * 1) 1 nzm rm.2].
Proof. exact: (sukf_step_unit_instance trQ 2 2 0 nl ml a b kp). Qed.

Print Assumptions Transport_oracle_counterpart_exists.
Print Assumptions Transport_C03_weights.
Print Assumptions Transport_C03_sigma_points.
Print Assumptions Transport_C03_ut_generic.
Print Assumptions Transport_C03_ut_state.
Print Assumptions Transport_C03_ut_additive_state.
Print Assumptions Transport_C03_ut_meas.
Print Assumptions Transport_C03_ut_additive_meas.
Print Assumptions Transport_model_functions_correspond.
Print Assumptions Transport_C04_ukf_predict_additive.
Print Assumptions Transport_C04_ukf_predict_generic.
Print Assumptions Transport_C04_ukf_correct_additive.
Print Assumptions Transport_C04_ukf_correct_generic.
Print Assumptions Transport_C04_ukf_likelihood.
Print Assumptions Transport_C04_Pyy_invertible_linear.
Print Assumptions Transport_C05_weights.
Print Assumptions Transport_C05_sukf_correct.
Print Assumptions Transport_C05_sukf_likelihood.
Print Assumptions Transport_C05_ukf_correct.
Print Assumptions Transport_C05_ukf_likelihood.
Print Assumptions Transport_C05_sukf_step_spd.
