(* C05_Transport.v — the serial unscented correction model (C05_Model.v: sukf_correct, its
   likelihood sukf_likelihood through the UVR density, and the spec side ukf_correct /
   ukf_likelihood_comp) executed at the LIST instance  ListMat (FOps tr) sqL egL  (arbitrary
   list-level oracles; the instance that is extracted and run) represents what the same Gallina
   terms compute at the MathComp instance  MxMat tr sq eg  (the instance the C05 theorems are
   about), on well-formed inputs, under
     - the correspondence of the square-root oracles on the covariances actually factored,
     - the correspondence of the measurement functions (corresponding columns to
       corresponding columns),
     - the invertibility, on the MathComp side, of every matrix the step inverts: the noise
       blocks, I + sum_j Y_j^T R_j^-1 Y_j (exactly the matrix of Properties_C05.C05_Cinv_invertible),
       Pyy for the spec side (C05_Pyy_invertible); for the likelihood: the argument of std::log
       is non-zero (C05_sukf_log_argument_positive), which implies the invertibility of
       everything the UVR density inverts.
   Section SPD derives all invertibility premises for a measurement of k blocks of size s > 0
   with SPD noise blocks (lemmas of C05_Proofs.v).  Axiom-free. *)
Require Import ZArith List Bool Arith.
Require Import BFL.Ops BFL.ListOps BFL.Density BFL.C05_Model.
From mathcomp Require Import ssreflect ssrfun ssrbool eqtype ssrnat seq choice fintype bigop order ssralg ssrnum zmodp matrix mxalgebra.
Require Import BFL.MxOps BFL.LinAlg BFL.ListOpsCorrect BFL.C02_Transport BFL.C01_Transport BFL.UT_Transport.
Require Import BFL.C05_Proofs.
Set Implicit Arguments.
Unset Strict Implicit.
Unset Printing Implicit Defensive.
Import GRing.Theory Num.Theory.
Local Open Scope ring_scope.

Section T.
Variable F : realFieldType.
Variable tr : Transc F.
Variable sq : forall n, 'M[F]_n -> 'M[F]_n.
Variable eg : forall n, 'M[F]_n -> 'M[F]_(n,1).
Variables sqL egL : nat -> lmxF F -> lmxF F.
Let S := FOps tr.
Let OL := ListMat S sqL egL.
Let OM := MxMat tr sq eg.
Notation repr m n l A := (@C02_Transport.repr F m n l A) (only parsing).
Local Notation Rget := (@rget F tr sq eg sqL egL).
Local Notation Rbuild := (@rbuild F tr sq eg sqL egL).
Local Notation Radd := (@repr_add F tr sqL egL).
Local Notation Rsub := (@repr_msub F tr sqL egL).
Local Notation Rscale := (@repr_mscale F tr sqL egL).
Local Notation Rmul := (@repr_mul F tr sqL egL).
Local Notation Rtr := (@repr_tr F tr sqL egL).
Local Notation Rzero := (@repr_mzero F tr sqL egL).
Local Notation Rid := (@repr_mid F tr sqL egL).
Local Notation Rhcat := (@repr_mhcat F tr sqL egL).
Local Notation Rinv := (@r_inv F tr sq eg sqL egL).
Local Notation Rdet := (@r_det F tr sq eg sqL egL).
Local Notation Rslice := (@r_slice F tr sq eg sqL egL).
Local Notation Rcol := (@r_col F tr sq eg sqL egL).

Definition repr_utw5 (wl : utw OL) (wm : utw OM) : Prop :=
  [/\ wm0 wl = wm0 wm, wmi wl = wmi wm, wc0 wl = wc0 wm, wci wl = wci wm & utc wl = utc wm].

Lemma ut_weights5_transport n a b k : repr_utw5 (@ut_weights OL n a b k) (@ut_weights OM n a b k).
Proof. by []. Qed.

Lemma wm_atE wl wm j : repr_utw5 wl wm -> @wm_at OL wl j = @wm_at OM wm j.
Proof. by move=> [E0 Ei _ _ _]; rewrite /wm_at E0 Ei. Qed.
Lemma wc_atE wl wm j : repr_utw5 wl wm -> @wc_at OL wl j = @wc_at OM wm j.
Proof. by move=> [_ _ E0 Ei _]; rewrite /wc_at E0 Ei. Qed.

Lemma wmean_col_repr L wl wm : repr_utw5 wl wm -> repr L 1 (@wmean_col OL L wl) (@wmean_col OM L wm).
Proof. by move=> rw; apply: Rbuild => i j _ _; exact: wm_atE. Qed.
Lemma wcov_diag_repr L wl wm : repr_utw5 wl wm -> repr L L (@wcov_diag OL L wl) (@wcov_diag OM L wm).
Proof. by move=> rw; apply: Rbuild => i j _ _; rewrite (wc_atE _ rw). Qed.
Lemma sqrt_wcov_diag_repr L wl wm : repr_utw5 wl wm ->
  repr L L (@sqrt_wcov_diag OL L wl) (@sqrt_wcov_diag OM L wm).
Proof. by move=> rw; apply: Rbuild => i j _ _; rewrite (wc_atE _ rw). Qed.

(* the layout-aware column operations are mbuild over mget *)
Lemma lay_add_repr r c nl lX (X : 'M[F]_(r,c)) lv (v : 'cV[F]_r) : repr r c lX X -> repr r 1 lv v ->
  repr r c (@lay_add OL r c nl lX lv) (@lay_add OM r c nl X v).
Proof. by move=> rX rv; apply: Rbuild => i j _ _; rewrite !(Rget rX) !(Rget rv). Qed.
Lemma lay_sub_repr r c nl lX (X : 'M[F]_(r,c)) lv (v : 'cV[F]_r) : repr r c lX X -> repr r 1 lv v ->
  repr r c (@lay_sub OL r c nl lX lv) (@lay_sub OM r c nl X v).
Proof. by move=> rX rv; apply: Rbuild => i j _ _; rewrite !(Rget rX) !(Rget rv). Qed.
Lemma mcolwise_add_repr r c lX (X : 'M[F]_(r,c)) lv (v : 'cV[F]_r) : repr r c lX X -> repr r 1 lv v ->
  repr r c (@mcolwise_add OL r c lX lv) (@mcolwise_add OM r c X v).
Proof. by move=> rX rv; apply: Rbuild => i j _ _; rewrite !(Rget rX) !(Rget rv). Qed.
Lemma mcolwise_sub_repr r c lX (X : 'M[F]_(r,c)) lv (v : 'cV[F]_r) : repr r c lX X -> repr r 1 lv v ->
  repr r c (@mcolwise_sub OL r c lX lv) (@mcolwise_sub OM r c X v).
Proof. by move=> rX rv; apply: Rbuild => i j _ _; rewrite !(Rget rX) !(Rget rv). Qed.

Lemma mmap_repr (f : F -> F) r c lY (Y : 'M[F]_(r,c)) : repr r c lY Y ->
  repr r c (@mbuild OL r c (fun i j => f (@mget OL r c lY i j))) (@mbuild OM r c (fun i j => f (@mget OM r c Y i j))).
Proof. by move=> rY; apply: Rbuild => i j _ _; rewrite (Rget rY). Qed.

Lemma lay_mean_repr r c ml lY (Y : 'M[F]_(r,c)) lw (w : 'cV[F]_c) : repr r c lY Y -> repr c 1 lw w ->
  repr r 1 (@lay_mean OL r c ml lY lw) (@lay_mean OM r c ml Y w).
Proof.
move=> rY rw; apply: Rbuild => i j _ _.
by rewrite (Rget (Rmul rY rw)) !(Rget (Rmul (mmap_repr _ rY) rw)).
Qed.

Definition sq_corr5 n (lP : lmxF F) (P : 'M[F]_n) : Prop := repr n n (sqL n lP) (sq P).

Lemma perturbations5_repr n c lP (P : 'M[F]_n) : sq_corr5 lP P ->
  repr n (nsig n) (@perturbations OL n c lP) (@perturbations OM n c P).
Proof.
move=> rsq; rewrite /perturbations /nsig.
by apply: Rhcat; [exact: Rzero | apply: Rhcat; exact: Rscale].
Qed.

Lemma sigma_points5_repr n nl wl wm lx (x : 'cV[F]_n) lP (P : 'M[F]_n) :
  repr_utw5 wl wm -> repr n 1 lx x -> sq_corr5 lP P ->
  repr n (nsig n) (@sigma_points OL n nl (utc wl) lx lP) (@sigma_points OM n nl (utc wm) x P).
Proof. by case=> _ _ _ _ -> rx rsq; apply: lay_add_repr => //; exact: perturbations5_repr. Qed.

(* the measurement function: corresponding columns to corresponding columns *)
Definition h_corr n m (hL : lmxF F -> lmxF F) (hM : 'cV[F]_n -> 'cV[F]_m) : Prop :=
  forall l x, repr n 1 l x -> repr m 1 (hL l) (hM x).

Lemma propagate_repr n m L hL hM lSP (SP : 'M[F]_(n,L)) : @h_corr n m hL hM -> repr n L lSP SP ->
  repr m L (@propagate OL n m L hL lSP) (@propagate OM n m L hM SP).
Proof. by move=> Hh rSP; apply: Rbuild => i j _ _; apply: Rget; apply: Hh; exact: Rcol. Qed.

Lemma h_family_corr n m kind lH (H : 'M[F]_(m,n)) lG (G : 'M[F]_(m,n)) lG2 (G2 : 'M[F]_(m,n))
      lb (b : 'cV[F]_m) lg (g : 'cV[F]_m) :
  repr m n lH H -> repr m n lG G -> repr m n lG2 G2 -> repr m 1 lb b -> repr m 1 lg g ->
  @h_corr n m (@h_family OL n m kind lH lG lG2 lb lg) (@h_family OM n m kind H G G2 b g).
Proof.
move=> rH rG rG2 rb rg l x rx; rewrite /h_family.
have rlin := Radd (Rmul rH rx) rb.
case: kind => [|[|kind]] //.
- by apply: Rbuild => i j _ _; rewrite (Rget rlin) (Rget rg) (Rget (Rmul rG rx)).
- by apply: Rbuild => i j _ _; rewrite (Rget rlin) (Rget rg) (Rget (Rmul rG rx)) (Rget (Rmul rG2 rx)).
Qed.

Definition repr_noise s m (nzl : noise OL s m) (nzm : noise OM s m) : Prop :=
  match nzl, nzm with
  | NoiseReduced lR, NoiseReduced R => repr s s lR R
  | NoiseFull lR, NoiseFull R => repr m m lR R
  | _, _ => False
  end.

Lemma noise_block_repr s m nzl nzm j : @repr_noise s m nzl nzm ->
  repr s s (@noise_block OL s m nzl j) (@noise_block OM s m nzm j).
Proof. by case: nzl nzm => [lR|lR] [R|R] //= rR; exact: Rslice. Qed.

(* every noise block the serial accumulation inverts is invertible (MathComp side) *)
Definition noise_units s m (nzm : noise OM s m) : Prop :=
  forall j, (j < Nat.div m s)%N -> (@noise_block OM s m nzm j : 'M[F]_s) \in unitmx.

Definition repr_acc L (al : lmxF F * lmxF F) (am : 'M[F]_L * 'cV[F]_L) : Prop :=
  repr L L al.1 am.1 /\ repr L 1 al.2 am.2.

Lemma sukf_accum_step_repr s m L lY (Y : 'M[F]_(m,L)) lnu (nu : 'cV[F]_m) nzl nzm al am j :
  repr m L lY Y -> repr m 1 lnu nu -> @repr_noise s m nzl nzm ->
  (@noise_block OM s m nzm j : 'M[F]_s) \in unitmx -> @repr_acc L al am ->
  repr_acc (@sukf_accum_step OL s m L lY lnu nzl al j) (@sukf_accum_step OM s m L Y nu nzm am j).
Proof.
move=> rY rnu rnz uj [r1 r2].
have rYj := Rslice (s * j) 0 s L rY.
have rtmp := Rmul (Rtr rYj) (Rinv (noise_block_repr j rnz) uj).
by split; [exact: Radd r1 (Rmul rtmp rYj) | exact: Radd r2 (Rmul rtmp (Rslice (s * j) 0 s 1 rnu))].
Qed.

Lemma sukf_accum_repr s m L lY (Y : 'M[F]_(m,L)) lnu (nu : 'cV[F]_m) nzl nzm :
  repr m L lY Y -> repr m 1 lnu nu -> @repr_noise s m nzl nzm -> noise_units nzm ->
  repr_acc (@sukf_accum OL s m L lY lnu nzl) (@sukf_accum OM s m L Y nu nzm).
Proof.
move=> rY rnu rnz Hu; apply: fold_left_rel => [al am j /in_seq0 jq ra|].
- by apply: sukf_accum_step_repr => //; exact: Hu.
- by split; [exact: Rid | exact: Rzero].
Qed.

(* one component: the serial correction and the spec side (the standard additive correction) *)
Definition repr_so n m (ol : sukf_out OL n m) (om : sukf_out OM n m) : Prop :=
  [/\ repr n 1 (so_mean ol) (so_mean om : 'cV[F]_n),
      repr n n (so_cov ol) (so_cov om : 'M[F]_n),
      repr m 1 (so_innov ol) (so_innov om : 'cV[F]_m) &
      repr m (nsig n) (so_Y ol) (so_Y om : 'M[F]_(m, nsig n))].

Definition repr_uo n m (ol : ukf_out OL n m) (om : ukf_out OM n m) : Prop :=
  [/\ repr n 1 (uo_mean ol) (uo_mean om : 'cV[F]_n),
      repr n n (uo_cov ol) (uo_cov om : 'M[F]_n),
      repr m 1 (uo_innov ol) (uo_innov om : 'cV[F]_m) &
      repr m m (uo_Pyy ol) (uo_Pyy om : 'M[F]_m)].

(* the matrix  I + sum_j Y_j^T R_j^-1 Y_j  the component inverts (C05_Cinv_invertible) *)
Definition Cinv_unit n m s nl ml (w : utw OM) (h : 'cV[F]_n -> 'cV[F]_m) (y : 'cV[F]_m)
           (nz : noise OM s m) (x : 'cV[F]_n) (P : 'M[F]_n) : Prop :=
  ((@sukf_accum OM s m (nsig n) (so_Y (@sukf_correct_comp_lay OM n m s nl ml w h y nz x P))
                (so_innov (@sukf_correct_comp_lay OM n m s nl ml w h y nz x P)) nz).1 : 'M[F]_(nsig n))
  \in unitmx.

Lemma sukf_update_repr n m s nzl nzm lx (x : 'cV[F]_n) lX (X : 'M[F]_(n, nsig n))
      lY (Y : 'M[F]_(m, nsig n)) lnu (nu : 'cV[F]_m) :
  @repr_noise s m nzl nzm -> repr n 1 lx x -> repr n (nsig n) lX X -> repr m (nsig n) lY Y -> repr m 1 lnu nu ->
  noise_units nzm -> ((@sukf_accum OM s m (nsig n) Y nu nzm).1 : 'M[F]_(nsig n)) \in unitmx ->
  repr_so (@sukf_update OL n m s nzl lx lX lY lnu) (@sukf_update OM n m s nzm x X Y nu).
Proof.
move=> rnz rx rX rY rnu Hu HC.
have [ra1 ra2] := sukf_accum_repr rY rnu rnz Hu.
have rXC := Rmul rX (Rinv ra1 HC).
by split=> //; [exact: (Radd rx (Rmul rXC ra2)) | exact: (Rmul rXC (Rtr rX))].
Qed.

Lemma ukf_update_repr n m lW (W : 'M[F]_(nsig n)) lR (R : 'M[F]_m) lx (x : 'cV[F]_n) lP (P : 'M[F]_n)
      lX (Xc : 'M[F]_(n, nsig n)) lY (Yc : 'M[F]_(m, nsig n)) lnu (nu : 'cV[F]_m) :
  repr (nsig n) (nsig n) lW W -> repr m m lR R -> repr n 1 lx x -> repr n n lP P ->
  repr n (nsig n) lX Xc -> repr m (nsig n) lY Yc -> repr m 1 lnu nu ->
  (uo_Pyy (@ukf_update OM n m W R x P Xc Yc nu) : 'M[F]_m) \in unitmx ->
  repr_uo (@ukf_update OL n m lW lR lx lP lX lY lnu) (@ukf_update OM n m W R x P Xc Yc nu).
Proof.
move=> rW rR rx rP rX rY rnu uPyy.
have rPyy := Radd (Rmul (Rmul rY rW) (Rtr rY)) rR.
have rK := Rmul (Rmul (Rmul rX rW) (Rtr rY)) (Rinv rPyy uPyy).
by split=> //; [exact: (Radd rx (Rmul rK rnu)) | exact: (Rsub rP (Rmul (Rmul rK rPyy) (Rtr rK)))].
Qed.

Section CompRepr.
Variables (n m nl ml : nat) (wl : utw OL) (wm : utw OM) (hL : lmxF F -> lmxF F) (hM : 'cV[F]_n -> 'cV[F]_m).
Variables (ly : lmxF F) (y : 'cV[F]_m) (lx : lmxF F) (x : 'cV[F]_n) (lP : lmxF F) (P : 'M[F]_n).
Hypotheses (rw : repr_utw5 wl wm) (Hh : @h_corr n m hL hM) (ry : repr m 1 ly y).
Hypotheses (rx : repr n 1 lx x) (rsq : sq_corr5 lP P).

(* the steps the two corrections share (C05_Proofs, Section Steps) *)
Lemma state_offsets_repr :
  repr n (nsig n) (@state_offsets OL n nl wl lx lP) (@state_offsets OM n nl wm x P).
Proof. by apply: lay_sub_repr => //; exact: sigma_points5_repr. Qed.

Lemma meas_sigma_repr :
  repr m (nsig n) (@meas_sigma OL n m nl wl hL lx lP) (@meas_sigma OM n m nl wm hM x P).
Proof. by apply: propagate_repr => //; exact: sigma_points5_repr. Qed.

Lemma meas_mean_repr lY (Y : 'M[F]_(m, nsig n)) : repr m (nsig n) lY Y ->
  repr m 1 (@meas_mean OL n m ml wl lY) (@meas_mean OM n m ml wm Y).
Proof. by move=> rY; apply: lay_mean_repr => //; exact: wmean_col_repr. Qed.

Lemma meas_offsets_repr lY (Y : 'M[F]_(m, nsig n)) : repr m (nsig n) lY Y ->
  repr m (nsig n) (@meas_offsets OL n m ml wl lY) (@meas_offsets OM n m ml wm Y).
Proof. by move=> rY; apply: lay_sub_repr => //; exact: meas_mean_repr. Qed.

Theorem sukf_correct_comp_lay_transport s nzl nzm : @repr_noise s m nzl nzm ->
  noise_units nzm -> Cinv_unit nl ml wm hM y nzm x P ->
  repr_so (@sukf_correct_comp_lay OL n m s nl ml wl hL ly nzl lx lP)
          (@sukf_correct_comp_lay OM n m s nl ml wm hM y nzm x P).
Proof.
move=> rnz Hu; rewrite /Cinv_unit !sukf_correct_comp_layE.
have rD := sqrt_wcov_diag_repr (nsig n) rw.
apply: sukf_update_repr => //.
- exact: (Rmul state_offsets_repr rD).
- exact: (Rmul (meas_offsets_repr meas_sigma_repr) rD).
- exact: (Rsub ry (meas_mean_repr meas_sigma_repr)).
Qed.

Theorem ukf_correct_comp_lay_transport lR (R : 'M[F]_m) : repr m m lR R -> repr n n lP P ->
  (uo_Pyy (@ukf_correct_comp_lay OM n m nl ml wm hM y R x P) : 'M[F]_m) \in unitmx ->
  repr_uo (@ukf_correct_comp_lay OL n m nl ml wl hL ly lR lx lP)
          (@ukf_correct_comp_lay OM n m nl ml wm hM y R x P).
Proof.
move=> rR rP; rewrite !ukf_correct_comp_layE.
apply: ukf_update_repr => //.
- exact: wcov_diag_repr.
- exact: state_offsets_repr.
- exact: (meas_offsets_repr meas_sigma_repr).
- exact: (Rsub ry (meas_mean_repr meas_sigma_repr)).
Qed.
End CompRepr.

Definition repr_comp5 n (cl : lmxF F * lmxF F) (cm : 'cV[F]_n * 'M[F]_n) : Prop :=
  repr n 1 cl.1 cm.1 /\ repr n n cl.2 cm.2.

Definition repr_mix5 n (ml : mixture OL n) (mm : mixture OM n) : Prop :=
  List.Forall2 (@repr_comp5 n) (mix_comps ml) (mix_comps mm) /\ mix_weights ml = mix_weights mm.

Definition repr_members n m (bl : members OL n m) (bm : members OM n m) : Prop :=
  match bl, bm with
  | Some ol, Some om => List.Forall2 (@repr_so n m) ol om
  | None, None => True
  | _, _ => False
  end.

(* the per-component map of a step: the components correspond, their covariances' factors
   correspond, and the MathComp-side components meet the step's premise Q *)
Lemma comps_map_repr n (A B : Type) (R : A -> B -> Prop) (Q : 'cV[F]_n * 'M[F]_n -> Prop)
      (fL : lmxF F * lmxF F -> A) (fM : 'cV[F]_n * 'M[F]_n -> B) csl csm :
  (forall cl cm, @repr_comp5 n cl cm -> sq_corr5 cl.2 cm.2 -> Q cm -> R (fL cl) (fM cm)) ->
  List.Forall2 (@repr_comp5 n) csl csm -> List.Forall2 (fun cl cm => sq_corr5 cl.2 cm.2) csl csm ->
  List.Forall Q csm -> List.Forall2 R (List.map fL csl) (List.map fM csm).
Proof.
move=> H rc rs HQ; apply: F2_map; apply: F2_impl (F2_Forall_r (F2_and rc rs) HQ) => cl cm [[rcl rsl] q].
exact: H.
Qed.

(* the corrected components written over the first components of the output object *)
Lemma mix_out_repr n (A B : Type) (R : A -> B -> Prop) (gL : A -> lmxF F * lmxF F) (gM : B -> 'cV[F]_n * 'M[F]_n)
      outsl outsm (corrl : mixture OL n) (corrm : mixture OM n) :
  (forall a b, R a b -> @repr_comp5 n (gL a) (gM b)) -> List.Forall2 R outsl outsm -> repr_mix5 corrl corrm ->
  repr_mix5 (@mkMix OL n (C05_Model.overwrite_prefix (List.map gL outsl) (mix_comps corrl)) (mix_weights corrl))
            (@mkMix OM n (C05_Model.overwrite_prefix (List.map gM outsm) (mix_comps corrm)) (mix_weights corrm)).
Proof.
move=> H routs [rcc rcw]; split=> //=; apply: F2_overwrite_prefix => //.
by apply: F2_map; exact: F2_impl routs.
Qed.

Theorem sukf_correct_transport n m s nl ml wl wm hL hM ly (y : 'cV[F]_m) nzl nzm
        (predl corrl : mixture OL n) (predm corrm : mixture OM n) :
  repr_utw5 wl wm -> @h_corr n m hL hM -> repr m 1 ly y -> @repr_noise s m nzl nzm ->
  repr_mix5 predl predm -> repr_mix5 corrl corrm ->
  (Nat.modulo m s = 0%N ->
   [/\ List.Forall2 (fun cl cm => sq_corr5 cl.2 cm.2) (mix_comps predl) (mix_comps predm),
       noise_units nzm &
       List.Forall (fun c : 'cV[F]_n * 'M[F]_n => Cinv_unit nl ml wm hM y nzm c.1 c.2) (mix_comps predm)]) ->
  repr_mix5 (@sukf_correct OL n m s nl ml wl hL ly nzl predl corrl).1
            (@sukf_correct OM n m s nl ml wm hM y nzm predm corrm).1 /\
  repr_members (@sukf_correct OL n m s nl ml wl hL ly nzl predl corrl).2
               (@sukf_correct OM n m s nl ml wm hM y nzm predm corrm).2.
Proof.
move=> rw Hh ry rnz [rpc rpw] rc Hprem; rewrite /sukf_correct.
case E: (Nat.eqb _ _) => //=.
have [Hsq Hu HC] := Hprem (proj1 (Nat.eqb_eq _ _) E).
have routs := comps_map_repr
  (fun cl cm rcl rs hc => sukf_correct_comp_lay_transport rw Hh ry rcl.1 rs rnz Hu hc) rpc Hsq HC.
by split=> //; apply: mix_out_repr routs rc => ol om [r1 r2 _ _].
Qed.

Theorem ukf_correct_transport n m nl ml wl wm hL hM ly (y : 'cV[F]_m) lR (R : 'M[F]_m)
        (predl corrl : mixture OL n) (predm corrm : mixture OM n) :
  repr_utw5 wl wm -> @h_corr n m hL hM -> repr m 1 ly y -> repr m m lR R ->
  repr_mix5 predl predm -> repr_mix5 corrl corrm ->
  List.Forall2 (fun cl cm => sq_corr5 cl.2 cm.2) (mix_comps predl) (mix_comps predm) ->
  List.Forall (fun c : 'cV[F]_n * 'M[F]_n =>
                 (uo_Pyy (@ukf_correct_comp_lay OM n m nl ml wm hM y R c.1 c.2) : 'M[F]_m) \in unitmx)
              (mix_comps predm) ->
  repr_mix5 (@ukf_correct OL n m nl ml wl hL ly lR predl corrl).1
            (@ukf_correct OM n m nl ml wm hM y R predm corrm).1 /\
  List.Forall2 (@repr_uo n m) (@ukf_correct OL n m nl ml wl hL ly lR predl corrl).2
                              (@ukf_correct OM n m nl ml wm hM y R predm corrm).2.
Proof.
move=> rw Hh ry rR [rpc rpw] rc Hsq HP; rewrite /ukf_correct /=.
have routs := comps_map_repr
  (fun cl cm rcl rs hc => ukf_correct_comp_lay_transport rw Hh ry rcl.1 rs rR rcl.2 hc) rpc Hsq HP.
by split=> //; apply: mix_out_repr routs rc => ol om [r1 r2 _ _].
Qed.

Lemma lik_Rcat_repr s m nzl nzm : @repr_noise s m nzl nzm ->
  repr s m (@lik_Rcat OL s m nzl) (@lik_Rcat OM s m nzm).
Proof.
move=> rnz; apply: Rbuild => i j _ _; apply: Rget; apply: F2_nth; last exact: Rzero.
by apply: F2_map_seq => k; exact: noise_block_repr.
Qed.

Section UVR.
Variables (s m L : nat).
Variables (lR : lmxF F) (R : 'M[F]_(s,m)).
Hypothesis rR : repr s m lR R.
Let nb := Nat.div m s.

Lemma u_Rblk_repr i : repr s s (@u_Rblk OL s m lR i) (@u_Rblk OM s m R i).
Proof. exact: Rslice. Qed.

(* a non-zero product of determinants: every factor is invertible *)
Lemma fold_prod_neq0 (f : nat -> F) (js : list nat) (a : F) :
  List.fold_left (fun acc i => acc * f i) js a != 0 -> a != 0 /\ forall i, List.In i js -> f i != 0.
Proof.
elim: js a => [|j js IH] a //= H.
have [] := IH _ H; rewrite mulf_eq0 negb_or => /andP [a0 fj] Hjs; split=> // i [<-|Hi] //.
exact: Hjs.
Qed.

Lemma spow_neq0 (x : F) k : (0 < k)%N -> @spow OM x k != 0 -> x != 0.
Proof. by case: k => // k _ /=; rewrite mulf_eq0 negb_or => /andP []. Qed.

Hypothesis detR_neq0 : (@u_detR OM s m R : F) != 0.

Lemma Rblk_units i : (i < nb)%N ->
  (@u_Rblk OM s m R (if Nat.eqb m s then 0%N else i) : 'M[F]_s) \in unitmx.
Proof.
move=> ib; move: detR_neq0; rewrite /u_detR -/nb unitmxE unitfE.
case: (Nat.eqb m s).
- by apply: spow_neq0; exact: leq_ltn_trans ib.
- move=> H; have [_ Hall] := fold_prod_neq0 H.
  by apply: Hall; apply/List.in_seq; split; [exact/leP | exact/ltP].
Qed.

Lemma u_invR_repr : @repr_list F s s (@u_invR OL s m lR) (@u_invR OM s m R).
Proof.
rewrite /u_invR -/nb; move: Rblk_units; case: (Nat.eqb m s) => Hu;
  by apply: F2_map_in => i /in_seq0 ib; apply: Rinv; [exact: u_Rblk_repr | exact: (Hu i)].
Qed.

Lemma u_iR_repr i : repr s s (@u_iR OL s m lR i) (@u_iR OM s m R i).
Proof. by apply: F2_nth; [exact: u_invR_repr | exact: Rzero]. Qed.

Lemma u_mulinvR_repr r BL (BM : nat -> 'M[F]_(r,s)) : (forall i, repr r s (BL i) (BM i)) ->
  repr r m (@u_mulinvR OL s m r BL lR) (@u_mulinvR OM s m r BM R).
Proof.
move=> rB; apply: Rbuild => a b _ _; apply: Rget; apply: F2_nth; last exact: Rzero.
by apply: F2_map_seq => i; apply: Rmul; [exact: rB | exact: u_iR_repr].
Qed.

Lemma u_VinvR_repr lV (V : 'M[F]_(L,m)) : repr L m lV V ->
  repr L m (@u_VinvR OL s m L lV lR) (@u_VinvR OM s m L V R).
Proof. by move=> rV; apply: u_mulinvR_repr => i; exact: Rslice. Qed.

Lemma u_IVRU_repr lU (U : 'M[F]_(m,L)) lV (V : 'M[F]_(L,m)) : repr m L lU U -> repr L m lV V ->
  repr L L (@u_IVRU OL s m L lU lV lR) (@u_IVRU OM s m L U V R).
Proof. by move=> rU rV; apply: Radd; [exact: Rid | apply: Rmul => //; exact: u_VinvR_repr]. Qed.

Lemma u_detR_transport : @u_detR OL s m lR = @u_detR OM s m R.
Proof.
rewrite /u_detR -/nb; move: Rblk_units; case: (Nat.eqb m s) => Hu.
- case E: nb => [|k] //; rewrite (Rdet (u_Rblk_repr 0)) //.
  by apply: (Hu 0%N); rewrite E.
- apply: fold_left_rel => // a acc i /in_seq0 ib ->.
  by rewrite (Rdet (u_Rblk_repr i)) //; exact: (Hu i).
Qed.
End UVR.

(* the UVR terms (argument of the logarithm, weighted difference): equal at both instances as
   soon as the argument of the logarithm is non-zero at the MathComp instance *)
Theorem uvr_terms_transport s m L lin (input : 'cV[F]_m) lmean (mean : 'cV[F]_m)
        lU (U : 'M[F]_(m,L)) lV (V : 'M[F]_(L,m)) lR (R : 'M[F]_(s,m)) :
  repr m 1 lin input -> repr m 1 lmean mean -> repr m L lU U -> repr L m lV V -> repr s m lR R ->
  ((@uvr_terms OM s m L input mean U V R).1 : F) != 0 ->
  @uvr_terms OL s m L lin lmean lU lV lR = @uvr_terms OM s m L input mean U V R.
Proof.
move=> rin rmean rU rV rR H0.
have : (@u_detR OM s m R : F) * \det (@u_IVRU OM s m L U V R : 'M[F]_L) != 0 by move: H0; rewrite uvr_termsE.
rewrite mulf_eq0 negb_or => /andP [dR0 dI0]; rewrite !uvr_termsE.
have uI : (@u_IVRU OM s m L U V R : 'M[F]_L) \in unitmx by rewrite unitmxE unitfE.
have rI := u_IVRU_repr rR dR0 rU rV.
have rd := mcolwise_sub_repr rin rmean.
have rVR := u_VinvR_repr rR dR0 rV.
congr (_, _); first by rewrite (u_detR_transport rR dR0) (Rdet rI uI).
apply: (Rget (m:=1) (n:=1)).
apply: Rmul => //; apply: Rmul; first by apply: u_mulinvR_repr => // i; apply: Rtr; exact: Rslice.
apply: Rsub; first exact: Rid.
by apply: Rmul => //; apply: Rmul => //; exact: Rinv.
Qed.

(* the argument of std::log in getLikelihood(), component o (C05_sukf_log_argument_positive) *)
Definition log_arg n m s (nz : noise OM s m) (o : sukf_out OM n m) : F :=
  (@uvr_terms OM s m (nsig n) (so_innov o) (@mzero OM m 1) (so_Y o) (@mtr OM m (nsig n) (so_Y o)) (@lik_Rcat OM s m nz)).1.

Theorem sukf_likelihood_comp_transport n m s nzl nzm (ol : sukf_out OL n m) (om : sukf_out OM n m) :
  @repr_noise s m nzl nzm -> repr_so ol om -> log_arg nzm om != 0 ->
  @sukf_likelihood_comp OL n m s nzl ol = @sukf_likelihood_comp OM n m s nzm om.
Proof.
move=> rnz [_ _ rnu rY] H0; rewrite /sukf_likelihood_comp /uvr_log_density.
by rewrite (uvr_terms_transport rnu (Rzero m 1) rY (Rtr rY) (lik_Rcat_repr rnz) H0).
Qed.

Theorem sukf_likelihood_transport n m s nzl nzm (bl : members OL n m) (bm : members OM n m) :
  @repr_noise s m nzl nzm -> repr_members bl bm ->
  (forall outs, bm = Some outs -> List.Forall (fun o => log_arg nzm o != 0) outs) ->
  @sukf_likelihood OL n m s nzl bl = @sukf_likelihood OM n m s nzm bm.
Proof.
move=> rnz; case: bl bm => [ol|] [om|] //= ro H; congr Some.
move: (H om erefl) => {H}; elim: ro => [|l o ls os rlo _ IH] //= H.
have [H1 H2] := proj1 (List.Forall_cons_iff _ _ _) H.
by rewrite (sukf_likelihood_comp_transport rnz rlo H1) IH.
Qed.

Theorem ukf_likelihood_comp_transport n m (ol : ukf_out OL n m) (om : ukf_out OM n m) :
  repr_uo ol om -> (uo_Pyy om : 'M[F]_m) \in unitmx ->
  @ukf_likelihood_comp OL n m ol = @ukf_likelihood_comp OM n m om.
Proof.
move=> [_ _ rnu rP] uP; rewrite /ukf_likelihood_comp.
exact: (density_transport tr sq eg rnu (repr_mzero tr _ _ m 1) rP uP).
Qed.

(* k blocks of size s > 0 with SPD noise blocks: every invertibility premise is derived *)
Section SPD.
Variables (n nl ml k s : nat).
Notation m := (k * s)%N.
Hypothesis s_gt0 : (0 < s)%N.
Variables (nzl : noise OL s m) (nzm : noise OM s m) (Rb : nat -> 'M[F]_s).
Hypothesis rnz : repr_noise nzl nzm.
Hypothesis Hnz : noise_blocks nzm Rb.
Hypothesis spdRb : forall j, (j < k)%N -> spd (Rb j).

(* the whole step and its likelihood: executed model = theorem model *)
Theorem sukf_step_transport_spd wl wm hL hM ly (y : 'cV[F]_m)
        (predl corrl : mixture OL n) (predm corrm : mixture OM n) :
  repr_utw5 wl wm -> @h_corr n m hL hM -> repr m 1 ly y ->
  repr_mix5 predl predm -> repr_mix5 corrl corrm ->
  List.Forall2 (fun cl cm => sq_corr5 cl.2 cm.2) (mix_comps predl) (mix_comps predm) ->
  [/\ repr_mix5 (@sukf_correct OL n m s nl ml wl hL ly nzl predl corrl).1
                (@sukf_correct OM n m s nl ml wm hM y nzm predm corrm).1,
      repr_members (@sukf_correct OL n m s nl ml wl hL ly nzl predl corrl).2
                   (@sukf_correct OM n m s nl ml wm hM y nzm predm corrm).2 &
      @sukf_likelihood OL n m s nzl (@sukf_correct OL n m s nl ml wl hL ly nzl predl corrl).2 =
      @sukf_likelihood OM n m s nzm (@sukf_correct OM n m s nl ml wm hM y nzm predm corrm).2].
Proof.
move=> rw Hh ry rp rc Hsq.
have Hu : noise_units nzm.
  move=> j; rewrite (div_mulK _ s_gt0) => jk; rewrite (noise_blockE Hnz jk).
  by apply: spd_unit; exact: spdRb.
have HC : List.Forall (fun c : 'cV[F]_n * 'M[F]_n => Cinv_unit nl ml wm hM y nzm c.1 c.2) (mix_comps predm).
  by apply/List.Forall_forall => c _; exact: (sukf_Cinv_unit s_gt0 Hnz spdRb).
have [r1 r2] := sukf_correct_transport rw Hh ry rnz rp rc (fun _ => And3 Hsq Hu HC).
split=> //; apply: sukf_likelihood_transport => // outs _.
apply/List.Forall_forall => o _; apply: lt0r_neq0; exact: (uvr_det_gt0 s_gt0 Hnz spdRb).
Qed.
End SPD.

End T.

(* non-vacuity: the premises of sukf_step_transport_spd hold together on a concrete family of
   instances: identity functions as the two square-root oracles, one component with zero mean
   and identity covariance, the reduced noise constructor with an identity block (k blocks of
   size s.+1), the harness' affine measurement function with H = 0, b = 0 *)
Section NonVacuity.
Variable F : realFieldType.
Variable tr : Transc F.
Local Notation id_sq := (@id_sq F).
Local Notation zero_eg := (@zero_eg F).
Local Notation id_sqL := (@id_sqL F).
Local Notation zero_egL := (@zero_egL F tr).
Let OL := ListMat (FOps tr) id_sqL zero_egL.
Let OM := MxMat tr id_sq zero_eg.
Local Notation Uzero := (@repr_mzero F tr id_sqL zero_egL).
Local Notation Uid := (@repr_mid F tr id_sqL zero_egL).
Variables (n k s : nat).
Notation m := (k * s.+1)%N.
Definition unit_mix5L : mixture OL n := @mkMix OL n (cons (@mzero OL n 1, @mid OL n) nil) (cons 1 nil).
Definition unit_mix5M : mixture OM n := @mkMix OM n (cons (0 : 'cV[F]_n, 1%:M : 'M[F]_n) nil) (cons 1 nil).
Definition zero_hL : lmxF F -> lmxF F :=
  @h_family OL n m 0 (@mzero OL m n) (@mzero OL m n) (@mzero OL m n) (@mzero OL m 1) (@mzero OL m 1).
Definition zero_hM : 'cV[F]_n -> 'cV[F]_m :=
  @h_family OM n m 0 (0 : 'M[F]_(m,n)) (0 : 'M[F]_(m,n)) (0 : 'M[F]_(m,n)) (0 : 'cV[F]_m) (0 : 'cV[F]_m).

Lemma sukf_premises_satisfiable :
  [/\ @h_corr F n m zero_hL zero_hM,
      @repr_noise F tr id_sq zero_eg id_sqL zero_egL s.+1 m (@NoiseReduced OL s.+1 m (@mid OL s.+1))
                  (@NoiseReduced OM s.+1 m (1%:M : 'M[F]_s.+1)),
      noise_blocks (@NoiseReduced OM s.+1 m (1%:M : 'M[F]_s.+1)) (fun _ => 1%:M : 'M[F]_s.+1) /\
      (forall j, (j < k)%N -> spd (1%:M : 'M[F]_s.+1)),
      repr_mix5 unit_mix5L unit_mix5M &
      List.Forall2 (fun (cl : lmxF F * lmxF F) (cm : 'cV[F]_n * 'M[F]_n) => sq_corr5 id_sq id_sqL cl.2 cm.2)
                   (mix_comps unit_mix5L) (mix_comps unit_mix5M)].
Proof.
split.
- by apply: (h_family_corr tr id_sq zero_eg id_sqL zero_egL 0); exact: Uzero.
- exact: Uid.
- by split=> // j _; exact: spd1.
- split=> //=; apply: List.Forall2_cons; last exact: List.Forall2_nil.
  by split; [exact: Uzero | exact: Uid].
- by apply: List.Forall2_cons; [exact: Uid | exact: List.Forall2_nil].
Qed.

(* ... and the transport theorem applies to this instance (measurement y = 0) *)
Lemma sukf_step_unit_instance nl ml (a b kp : F) :
  let wl := @ut_weights OL n a b kp in let wm := @ut_weights OM n a b kp in
  let nzl := @NoiseReduced OL s.+1 m (@mid OL s.+1) in let nzm := @NoiseReduced OM s.+1 m (1%:M : 'M[F]_s.+1) in
  let rl := @sukf_correct OL n m s.+1 nl ml wl zero_hL (@mzero OL m 1) nzl unit_mix5L unit_mix5L in
  let rm := @sukf_correct OM n m s.+1 nl ml wm zero_hM (0 : 'cV[F]_m) nzm unit_mix5M unit_mix5M in
  [/\ @repr_mix5 F tr id_sq zero_eg id_sqL zero_egL n rl.1 rm.1,
      @repr_members F tr id_sq zero_eg id_sqL zero_egL n m rl.2 rm.2 &
      @sukf_likelihood OL n m s.+1 nzl rl.2 = @sukf_likelihood OM n m s.+1 nzm rm.2].
Proof.
have [Hh rnz [Hnz Hspd] rp Hsq] := sukf_premises_satisfiable.
move=> wl wm nzl nzm rl rm.
apply: (sukf_step_transport_spd nl ml (ltn0Sn s) rnz Hnz Hspd) => //.
exact: Uzero.
Qed.
End NonVacuity.

Print Assumptions sukf_correct_transport.
Print Assumptions sukf_likelihood_transport.
Print Assumptions ukf_correct_transport.
Print Assumptions sukf_step_transport_spd.
