(* Properties_C10.v — property C10: the control interface may be used from another
   thread without data races.  The first group of theorems holds for EVERY access table
   and EVERY execution (interleaving) of its trace semantics; the work is in C10_Proofs
   ([races_confined]).  The second group is about [current_table], which
   props/C10_translate.py regenerates from the C++ sources of /repo on every run
   (C10_AccessTable.v). *)
Require Import List String Bool Arith.
Import ListNotations.
Require Import BFL.C10_Model BFL.C10_Proofs BFL.C10_AccessTable BFL.C10_Current.
Local Open Scope string_scope.

(* every data race (two accesses of different threads that may touch the same variable,
   at least one a write, not both atomic, not ordered by happens-before) of every
   execution of a table is between a pair of accesses that the checker reports *)
Theorem C10_races_confined tbl tr i j o1 o2 : valid tbl tr -> race tr i j o1 o2 ->
  exists c f, In (c, f) (race_freeb tbl) /\ ((o1 = c /\ o2 = f) \/ (o1 = f /\ o2 = c)).
Proof. exact (races_confined tbl tr i j o1 o2). Qed.

(* soundness of the checker: no offending pair => no execution has a data race *)
Theorem C10_race_freeb_sound tbl : race_freeb tbl = [] ->
  forall tr, valid tbl tr -> forall i j o1 o2, ~ race tr i j o1 o2.
Proof. exact (race_freeb_sound tbl). Qed.

(* ... in particular conflicting accesses of different threads are never adjacent unless both atomic *)
Theorem C10_no_adjacent_conflict tbl : race_freeb tbl = [] ->
  forall tr, valid tbl tr -> forall i t1 t2 o1 o2,
    nth_error tr i = Some (t1, EAcc o1) -> nth_error tr (S i) = Some (t2, EAcc o2) -> t1 <> t2 ->
    conflicting (o_acc o1) (o_acc o2) = true -> both_atomic (o_acc o1) (o_acc o2) = true.
Proof.
  intros H tr V i t1 t2 o1 o2 Hi Hj Hne Hconf.
  destruct (both_atomic (o_acc o1) (o_acc o2)) eqn:Hat; [reflexivity|]. exfalso.
  exact (race_freeb_sound _ H _ V i (S i) o1 o2 (adjacent_race _ _ _ _ _ _ Hi Hj Hne Hconf Hat)).
Qed.

(* the boolean checker decides the lock-set / atomic / fork-join discipline *)
Theorem C10_race_freeb_iff_race_free tbl : race_freeb tbl = [] <-> race_free tbl.
Proof.
  split; intros H.
  - intros c f Hc Hf Tc Tf Hconf.
    destruct (pair_ok c f) eqn:P; [exact (pair_ok_true _ _ P Hconf)|].
    assert (In (c, f) (race_freeb tbl)) by (apply in_race_freeb; auto).
    rewrite H in *. contradiction.
  - destruct (race_freeb tbl) as [|[c f] r] eqn:E; [reflexivity|]. exfalso.
    assert (Hin : In (c, f) (race_freeb tbl)) by (rewrite E; left; reflexivity).
    apply in_race_freeb in Hin. destruct Hin as (Hc & Tc & Hf & Tf & P).
    destruct (pair_ok_false _ _ P) as (Hconf & Hat & Hcm & Hph).
    destruct (H c f Hc Hf Tc Tf Hconf) as [A|[(m & A & B)|A]]; [congruence| |contradiction].
    unfold common_mutex in Hcm. rewrite A, B, String.eqb_refl in Hcm. discriminate.
Qed.

(* completeness: every pair the checker reports IS a data race of some execution of the table *)
Theorem C10_offenders_realisable tbl c f : In (c, f) (race_freeb tbl) ->
  exists tr i, valid tbl tr /\ race tr i (S i) c f.
Proof. exact (offenders_realisable tbl c f). Qed.

(* the racy variables of every execution are among [racy_vars tbl] *)
Theorem C10_race_vars_confined tbl tr i j o1 o2 : valid tbl tr -> race tr i j o1 o2 ->
  In (var_name (a_var (o_acc o1))) (racy_vars tbl) /\ In (var_name (a_var (o_acc o2))) (racy_vars tbl).
Proof. exact (race_vars_confined tbl tr i j o1 o2). Qed.

(* the hypotheses are satisfiable: a table the checker accepts, with a 12-step execution that
   uses the mutex, the atomic and the fork/join ordering *)
Example C10_example_table_ok : race_freeb ex_tbl = [] /\ validb ex_tbl ex_trace = true.
Proof. vm_compute. split; reflexivity. Qed.

(* ... and a table it rejects, with the execution that exhibits the reported race *)
Example C10_example_table_racy : race_freeb ex_bad_tbl = [(ex_x_set, ex_x_body_plain)] /\
  valid ex_bad_tbl ex_bad_trace /\ race ex_bad_trace 2 3 ex_x_set ex_x_body_plain.
Proof.
  split; [vm_compute; reflexivity|]. split; [apply validb_sound; vm_compute; reflexivity|].
  apply (adjacent_race _ _ Ctl Flt); try reflexivity. discriminate.
Qed.

(* Premise of everything below, built into the semantics: ONE controlling thread ([Ctl] is a single
   thread; two control methods never overlap).  Pairs of control accesses that would conflict with
   two controllers are listed separately ([ctl_ctl_offenders], reported in the evidence).

   THE PROPERTY, on the table regenerated from the sources of this run: the checker reports no
   offending pair, i.e. every pair of accesses to the same variable from the controlling thread and
   from the filtering thread, at least one a write, is both-atomic, under the same mutex, or ordered
   by thread creation / join.  A new race, a control flag or a skip flag losing its atomic or its
   lock, or a construct the translator does not understand, breaks this theorem. *)
Theorem C10_current_table_race_free : race_freeb current_table = [].
Proof.
  (* the generated file holds the checker's answer on this table, evaluated once, as
     [current_offenders]: it is the empty list *)
  rewrite current_offenders_eq. reflexivity.
Qed.

Theorem C10_current_table_discipline : race_free current_table.
Proof. exact (proj1 (C10_race_freeb_iff_race_free _) C10_current_table_race_free). Qed.

(* hence no execution (interleaving of control/query commands with the filtering thread) of the
   current table has a data race *)
Theorem C10_current_table_no_data_race tr : valid current_table tr ->
  forall i j o1 o2, ~ race tr i j o1 o2.
Proof. exact (C10_race_freeb_sound _ C10_current_table_race_free tr). Qed.

Theorem C10_current_table_no_adjacent_conflict tr : valid current_table tr -> forall i t1 t2 o1 o2,
  nth_error tr i = Some (t1, EAcc o1) -> nth_error tr (S i) = Some (t2, EAcc o2) -> t1 <> t2 ->
  conflicting (o_acc o1) (o_acc o2) = true -> both_atomic (o_acc o1) (o_acc o2) = true.
Proof. exact (C10_no_adjacent_conflict _ C10_current_table_race_free tr). Qed.

(* the table is not trivially green: the control flags, the mutex, the condition variable, the six skip
   flags and SkipFlag::value_ are all seen as shared by both threads, and at least 20 control and 100
   filtering-thread method bodies are in the table *)
Theorem C10_current_table_covers_the_control_state :
  subset_str required_shared (shared_vars current_table) = true /\
  Nat.leb min_ctl_methods (n_methods current_table Ctl) = true /\
  Nat.leb min_flt_methods (n_methods current_table Flt) = true.
Proof. exact current_table_covers. Qed.

(* the translator's Python mirror of the checker (used for reporting) agrees with the Coq checker *)
Theorem C10_reported_offenders_are_the_checked_ones :
  racy_vars current_table = py_racy_vars /\ List.length (race_freeb current_table) = py_offender_count.
Proof. exact py_checker_agrees. Qed.

(* the premise [valid current_table tr] is satisfiable by a non-empty execution *)
Example C10_current_table_has_executions :
  validb current_table [(Ctl, EFork); (Flt, EAcq "FilteringAlgorithm::mtx_run_");
                        (Flt, ERel "FilteringAlgorithm::mtx_run_"); (Ctl, EJoin)] = true.
Proof. vm_compute. reflexivity. Qed.

Print Assumptions C10_races_confined.
Print Assumptions C10_race_freeb_sound.
Print Assumptions C10_no_adjacent_conflict.
Print Assumptions C10_race_freeb_iff_race_free.
Print Assumptions C10_offenders_realisable.
Print Assumptions C10_race_vars_confined.
Print Assumptions C10_current_table_race_free.
Print Assumptions C10_current_table_discipline.
Print Assumptions C10_current_table_no_data_race.
Print Assumptions C10_current_table_no_adjacent_conflict.
Print Assumptions C10_current_table_covers_the_control_state.
Print Assumptions C10_reported_offenders_are_the_checked_ones.
