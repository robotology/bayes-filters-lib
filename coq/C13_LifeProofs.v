(* C13_LifeProofs.v — moves of the step objects change nothing the skip property speaks about. *)
Require Import List Bool.
Require Import BFL.C13_Model BFL.C13_Proofs BFL.C13_Life.
Import ListNotations.
Local Open Scope bool_scope.

Lemma move_flags_id f : move_flags f = f.
Proof. destruct f; reflexivity. Qed.

Lemma move_state_id st : move_state st = st.
Proof. destruct st as [[p i s x c] n]; reflexivity. Qed.

Lemma lnext_move st : lnext LMove st = st.
Proof. exact (move_state_id st). Qed.

Lemma lfinal_cons o ops st : lfinal (o :: ops) st = lfinal ops (lnext o st).
Proof. reflexivity. Qed.

Lemma lfinal_erase ops : forall st, lfinal ops st = final_m (erase ops) st.
Proof.
induction ops as [|o r IH]; intros st; [reflexivity|].
rewrite lfinal_cons; destruct o as [o|].
- simpl erase; rewrite final_m_cons; apply IH.
- rewrite lnext_move; simpl erase; apply IH.
Qed.

(* every observation at a position that is not a move (answers and reported flags of the skip commands,
   outcomes of predict / correct, freezes) is the observation of the word without the moves *)
Lemma kept_run_lops k ops : forall st, kept (run_lops k ops st) = run_ops k (erase ops) st.
Proof.
induction ops as [|o r IH]; intros st; [reflexivity|].
destruct o as [o|].
- change (kept (run_lops k (LOp o :: r) st)) with (observe k o st :: kept (run_lops k r (next o st))).
  rewrite IH; reflexivity.
- change (kept (run_lops k (LMove :: r) st)) with (kept (run_lops k r (lnext LMove st))).
  rewrite lnext_move; simpl erase; apply IH.
Qed.

Lemma run_lops_app k a : forall b st, run_lops k (a ++ b) st = run_lops k a st ++ run_lops k b (lfinal a st).
Proof.
induction a as [|o r IH]; intros b st; [reflexivity|].
change (run_lops k ((o :: r) ++ b) st) with (lobserve k o st :: run_lops k (r ++ b) (lnext o st)).
rewrite IH; reflexivity.
Qed.

(* what the objects obtained by a move report: the flags the step objects had, i.e. those of the commands so far *)
Lemma run_lops_move k a b st :
  run_lops k (a ++ LMove :: b) st =
  run_lops k a st ++ LMoved (ms_flags (final_m (erase a) st)) :: run_lops k b (final_m (erase a) st).
Proof.
rewrite run_lops_app, <- lfinal_erase.
change (run_lops k (LMove :: b) (lfinal a st)) with
  (LMoved (ms_flags (move_state (lfinal a st))) :: run_lops k b (lnext LMove (lfinal a st))).
rewrite lnext_move, move_state_id; reflexivity.
Qed.

Lemma erase_app a b : erase (a ++ b) = erase a ++ erase b.
Proof. induction a as [|[o|] r IH]; simpl; [reflexivity| rewrite IH; reflexivity | exact IH]. Qed.

Lemma erase_lift ops : erase (lift ops) = ops.
Proof. induction ops as [|o r IH]; simpl; [reflexivity | rewrite IH; reflexivity]. Qed.

Lemma erase_insert_move n ops : erase (insert_move n ops) = erase ops.
Proof.
unfold insert_move; rewrite erase_app; simpl erase; rewrite <- erase_app, firstn_skipn; reflexivity.
Qed.

Lemma lfinal_flags have ops :
  ms_flags (lfinal ops (m_init have)) = final (skips_of (erase ops)) (init have).
Proof. rewrite lfinal_erase, final_m_eq; reflexivity. Qed.

(* the correction move constructors as they were before 4c35858: the statement is false of them *)
Lemma old_move_refuted :
  exists (ops : list lop) (k : kind) (have : bool),
    last_status corr_names false (skips_of (erase ops)) = true /\
    run_lops_g movers_before k (ops ++ [LOp (OpCorrect false)]) (m_init have) =
      [LObs (ObsSkip (Ok true) (mkFlags false false false None true)); LMoved (init false); LObs (ObsStep (OCorrected KF 0))] /\
    run_lops k (ops ++ [LOp (OpCorrect false)]) (m_init have) =
      [LObs (ObsSkip (Ok true) (mkFlags false false false None true)); LMoved (mkFlags false false false None true); LObs (ObsStep OInput)].
Proof. exists [LOp (OpSkip NCorrection true); LMove], KF, false; repeat split. Qed.
