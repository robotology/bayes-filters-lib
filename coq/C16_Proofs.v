(* C16_Proofs.v — the shipped models over 'M[F], F any realFieldType: F and Q of the white-noise-
   acceleration model entry by entry and Q SPD (both through [blocks_ind]: the matrices are one 2x2
   block repeated on the diagonal), sampling and transition density, the 0/1 selector of LinearModel
   and the sensor descriptions it leads to, the grid initialiser; a Cholesky factor of Q over real
   closed fields.  The constructor checks and serving state machines are in C16_ProofsSM.v. *)
Require Import ZArith List Lia.
Require Import BFL.Ops BFL.Density BFL.C16_Model.
From mathcomp Require Import ssreflect ssrfun ssrbool eqtype ssrnat seq choice fintype bigop order ssralg ssrnum zmodp matrix mxalgebra div ssrint.
From mathcomp Require Import ring.
Require Import BFL.MxOps BFL.LinAlg BFL.C16_ProofsSM.
Set Implicit Arguments.
Unset Strict Implicit.
Unset Printing Implicit Defensive.
Import Order.Theory GRing.Theory Num.Theory.
Local Open Scope ring_scope.

Section SPDlemmas.
Variable F : realFieldType.

Lemma spd_scale n (A : 'M[F]_n) c : 0 < c -> spd A -> spd (c *: A).
Proof.
move=> c0 [sA pA]; split; first by rewrite /sym linearZ /= sA.
by move=> x xn0; rewrite qf_scale mulr_gt0 // pA.
Qed.

Notation o0 := (ord0 : 'I_2).
Notation o1 := (lift ord0 ord0 : 'I_2).

Lemma ord2P (P : 'I_2 -> Prop) : P o0 -> P o1 -> forall i, P i.
Proof. by move=> P0 P1 i; case: (unliftP ord0 i) => [k|] ->; rewrite ?[k]ord1. Qed.

Lemma matrix2P (A B : 'M[F]_2) :
  A o0 o0 = B o0 o0 -> A o0 o1 = B o0 o1 -> A o1 o0 = B o1 o0 -> A o1 o1 = B o1 o1 -> A = B.
Proof. by move=> e00 e01 e10 e11; apply/matrixP; do 2!elim/ord2P. Qed.

Lemma sum2 (f : 'I_2 -> F) : \sum_i f i = f o0 + f o1.
Proof. by rewrite big_ord_recl big_ord1. Qed.

(* a symmetric 2x2 matrix with positive leading minors is SPD *)
Lemma spd2_minors (A : 'M[F]_2) :
  A o1 o0 = A o0 o1 -> 0 < A o0 o0 -> 0 < A o0 o0 * A o1 o1 - A o0 o1 * A o0 o1 -> spd A.
Proof.
set a := A o0 o0; set b := A o0 o1; set c := A o1 o1 => sA a0 d0; split.
  by apply: matrix2P; rewrite !mxE.
move=> x xn0; set x0 := x ord0 o0; set x1 := x ord0 o1.
(* completing the square *)
have E : a * qf A x = (a * x0 + b * x1) ^+ 2 + (a * c - b * b) * x1 ^+ 2.
  by rewrite /qf mxE sum2 !mxE !sum2 sA -/a -/b -/c -/x0 -/x1; ring.
rewrite -(pmulr_rgt0 _ a0) E; case: (eqVneq x1 0) => [z1|n1]; last first.
  by rewrite ltr_paddl ?sqr_ge0 // mulr_gt0 // exprn_even_gt0.
have n0 : x0 != 0.
  by apply: contra xn0 => /eqP z0; apply/eqP/rowP; elim/ord2P; rewrite mxE.
rewrite z1 mulr0 addr0 expr0n /= mulr0 addr0 exprn_even_gt0 //= mulf_neq0 //.
by rewrite gt_eqF.
Qed.
End SPDlemmas.

Section Models.
Variable F : realFieldType.

Variable tr : Transc F.
Variable sq : forall n, 'M[F]_n -> 'M[F]_n.
Variable eg : forall n, 'M[F]_n -> 'M[F]_(n,1).
Let O := MxMat tr sq eg.

Lemma blocks2_block (B : 'M[F]_2) : blocks2 O B = block_mx B 0 0 B.
Proof. by []. Qed.
Lemma blocks3_block (B : 'M[F]_2) : blocks3 O B = block_mx B 0 0 (block_mx B 0 0 B).
Proof.
rewrite /blocks3 /= /block_mx row_mx0; f_equal.
(* the two lower block rows form a block matrix whose left column is zero *)
by rewrite -[LHS]/(block_mx (0 : 'M[F]_2) (row_mx B (0 : 'M[F]_2)) 0 (row_mx 0 B)) block_mxEh col_mx0.
Qed.

(* [blocks d B] is B repeated [dim_blocks d] times on the diagonal: what holds of B, and of
   block_mx B 0 0 D whenever it holds of D, holds of it.  Stated for two matrices built in
   step, so that it also relates blocks d A to blocks d B. *)
Lemma blocks_ind (A B : 'M[F]_2) (P : nat -> forall n, 'M[F]_n -> 'M[F]_n -> Prop) :
  P 1%N 2%N A B ->
  (forall k n D E, P k n D E -> P k.+1 (2 + n)%N (block_mx A 0 0 D) (block_mx B 0 0 E)) ->
  forall d, P (dim_blocks d) (dim_n d) (blocks (O:=O) d A) (blocks (O:=O) d B).
Proof.
move=> P1 PS; case; rewrite /blocks ?blocks2_block ?blocks3_block; first exact: P1.
  exact: PS.
exact: PS (PS _ _ _ _ P1).
Qed.

(* entry (2a+r, 2b+s) of the assembled matrix: block (a, b), position (r, s) *)
Lemma blocks_entry d (B : 'M[F]_2) a b r s :
  (a < dim_blocks d)%N -> (b < dim_blocks d)%N -> (r < 2)%N -> (s < 2)%N ->
  mx_get (blocks (O:=O) d B) (2 * a + r) (2 * b + s) = if a == b then mx_get B r s else 0.
Proof.
move=> ha hb r2 s2; move: d a b ha hb.
apply: (@blocks_ind B B (fun k n D _ => forall a b, (a < k)%N -> (b < k)%N ->
          mx_get D (2 * a + r) (2 * b + s) = if a == b then mx_get B r s else 0)).
  by move=> [|a] [|b].
move=> k n D _ IH a b ha hb; rewrite mx_get_block_diag.
(* a row or column index 2c+t lies in the leading block iff c = 0 *)
have lt2 c t : (t < 2)%N -> (2 * c + t < 2)%N = (c == 0%N).
  by case: c => [|c] // _; rewrite mulnS -addnA ltnNge leq_addr.
have sub2 c t : (2 * c.+1 + t - 2 = 2 * c + t)%N by rewrite mulnS -addnA addKn.
by rewrite !lt2 //; case: a b ha hb => [|a] [|b] //= ha hb; rewrite !sub2 IH.
Qed.

Lemma blocks_spd d (B : 'M[F]_2) : spd B -> spd (blocks (O:=O) d B : 'M[F]_(dim_n d)).
Proof.
move=> sB; apply: (@blocks_ind B B (fun _ n D _ => spd D)) => // k n D _.
exact: spd_block_diag.
Qed.

(* the blocks multiply block-wise: a factor of the 2x2 block gives a factor of Q *)
Lemma blocks_mul_tr d (A : 'M[F]_2) :
  (blocks (O:=O) d A : 'M[F]_(dim_n d)) *m (blocks (O:=O) d A : 'M[F]_(dim_n d))^T
  = blocks (O:=O) d (A *m A^T).
Proof.
apply: (@blocks_ind A (A *m A^T) (fun _ n D E => D *m D^T = E)) => // k n D E <-.
by rewrite tr_block_mx mulmx_block !trmx0 !mulmx0 !mul0mx !addr0 !add0r.
Qed.

Lemma blocks_scale d (c : F) (B : 'M[F]_2) :
  blocks (O:=O) d (c *: B) = c *: (blocks (O:=O) d B : 'M[F]_(dim_n d)) :> 'M[F]_(dim_n d).
Proof.
apply: (@blocks_ind (c *: B) B (fun _ n D E => D = c *: E)) => // k n D E ->.
by rewrite scale_block_mx !scaler0.
Qed.

Definition F2_closed (T : F) (r s : nat) : F :=
  if r == s then 1 else if (r < s)%N then T else 0.
Definition Q2_closed (T : F) (r s : nat) : F :=
  match r, s with
  | 0%N, 0%N => T ^+ 3 / 3%:R
  | 1%N, 1%N => T
  | _, _ => T ^+ 2 / 2%:R
  end.

Lemma wna_F2_entry T r s : (r < 2)%N -> (s < 2)%N -> mx_get (wna_F2 (O:=O) T) r s = F2_closed T r s.
Proof.
move=> r2 s2; rewrite /wna_F2 /mof_lists mx_get_build //.
by case: r r2 => [|[|r]] // _; case: s s2 => [|[|s]].
Qed.

Lemma lit2E : lit2 O = 2%:R. Proof. by []. Qed.
Lemma lit3E : lit3 O = 3%:R. Proof. by []. Qed.

Lemma wna_q11E (T : F) : wna_q11 O T = T ^+ 3 / 3%:R.
Proof. by rewrite /wna_q11 /pow3 /= lit3E mul1r mulrC !exprS expr0 mulr1. Qed.
Lemma wna_q2E (T : F) : wna_q2 O T = T ^+ 2 / 2%:R.
Proof. by rewrite /wna_q2 /pow2 /= lit2E mul1r mulrC !exprS expr0 mulr1. Qed.

Lemma wna_Q2_entry T r s : (r < 2)%N -> (s < 2)%N -> mx_get (wna_Q2 (O:=O) T) r s = Q2_closed T r s.
Proof.
move=> r2 s2; rewrite /wna_Q2 /mof_lists mx_get_build //.
by case: r r2 => [|[|r]] // _; case: s s2 => [|[|s]] //= _; rewrite ?wna_q11E ?wna_q2E.
Qed.

Lemma wna_Q2_minors (T : F) : 0 < T ->
  0 < T ^+ 3 / 3%:R /\ T ^+ 3 / 3%:R * T - T ^+ 2 / 2%:R * (T ^+ 2 / 2%:R) = T ^+ 4 / 12%:R /\ 0 < T ^+ 4 / 12%:R.
Proof.
move=> T0; split; first by rewrite divr_gt0 ?exprn_gt0 // ltr0n.
split; last by rewrite divr_gt0 ?exprn_gt0 // ltr0n.
by field.
Qed.

Lemma wna_Q2_spd (T : F) : 0 < T -> spd (wna_Q2 (O:=O) T : 'M[F]_2).
Proof.
move=> T0; have [a0 [dE d0]] := wna_Q2_minors T0.
by apply: spd2_minors; rewrite !mxE /= ?wna_q11E ?wna_q2E ?dE.
Qed.

Lemma wna_Q_spd d (T q : F) : 0 < T -> 0 < q -> spd (wna_Q (O:=O) d T q : 'M[F]_(dim_n d)).
Proof. by move=> T0 q0; apply: spd_scale => //; apply: blocks_spd; exact: wna_Q2_spd. Qed.

Lemma wna_Q_unit d (T q : F) : 0 < T -> 0 < q -> (wna_Q (O:=O) d T q : 'M[F]_(dim_n d)) \in unitmx.
Proof. by move=> T0 q0; apply: spd_unit; exact: wna_Q_spd. Qed.

Lemma fill_colmajor_entry rows num (zs : list F) (i : 'I_rows) (j : 'I_num) :
  (fill_colmajor (O:=O) rows num zs : 'M[F]_(rows, num)) i j = List.nth (j * rows + i)%N zs 0.
Proof. by rewrite /fill_colmajor /= mxE. Qed.

Lemma noise_sample_fst d (L : 'M[F]_d) num zs :
  (noise_sample (O:=O) L num zs).1 = L *m (fill_colmajor (O:=O) d num zs : 'M[F]_(d, num)).
Proof. by []. Qed.
Lemma noise_sample_snd d (L : 'M[F]_d) num zs :
  (noise_sample (O:=O) L num zs).2 = skipn (d * num) zs.
Proof. by []. Qed.

(* every entry of a sample: row i of L against the j-th group of d consecutive draws *)
Lemma noise_sample_entry d (L : 'M[F]_d) num zs (i : 'I_d) (j : 'I_num) :
  ((noise_sample (O:=O) L num zs).1 : 'M[F]_(d, num)) i j = \sum_(k < d) L i k * List.nth (j * d + k)%N zs 0.
Proof. by rewrite noise_sample_fst mxE; apply: eq_bigr => k _; rewrite fill_colmajor_entry. Qed.

(* the sample is a linear image of Z: its "covariance" L (Z Z^T) L^T is L L^T *)
Lemma linear_image_cov d num (L Q : 'M[F]_d) (Z : 'M[F]_(d, num)) :
  L *m L^T = Q -> Z *m Z^T = 1%:M -> (L *m Z) *m (L *m Z)^T = Q.
Proof. by move=> LL ZZ; rewrite trmx_mul mulmxA -[L *m Z *m Z^T]mulmxA ZZ mulmx1. Qed.

Lemma additive_motion_eq d c (Fm L : 'M[F]_d) (X : 'M[F]_(d, c)) zs :
  additive_motion (O:=O) Fm L X zs =
  (Fm *m X + L *m (fill_colmajor (O:=O) d c zs : 'M[F]_(d, c)), skipn (d * c) zs).
Proof. by []. Qed.

Lemma mcol_col m n (A : 'M[F]_(m, n)) (j : 'I_n) : mcol (O:=O) j A = col j A.
Proof. by apply/matrixP => i k; rewrite /mcol /= !mxE mx_get_ord. Qed.

Lemma density_shift d (x mu : 'cV[F]_d) (Q : 'M[F]_d) :
  density (O:=O) (x - mu) (0 : 'cV[F]_d) Q = density (O:=O) x mu Q.
Proof. by rewrite /density /log_density /= subr0. Qed.

Lemma transition_probability_nth d c (Fm Q : 'M[F]_d) (prev cur : 'M[F]_(d, c)) (j : 'I_c) dflt :
  List.nth j (transition_probability (O:=O) Fm Q prev cur) dflt =
  density (O:=O) (col j cur) (Fm *m col j prev) Q.
Proof.
rewrite /transition_probability nth_map_seqN // mcol_col /=.
by rewrite !colE mulmxBl -mulmxA density_shift.
Qed.

Lemma transition_probability_length d c (Fm Q : 'M[F]_d) (prev cur : 'M[F]_(d, c)) :
  length (transition_probability (O:=O) Fm Q prev cur) = c.
Proof. by rewrite /transition_probability map_length seq_length. Qed.

(* the simulated trajectory over this model: x_{k+1} = F x_k + L z_k, z_k the k-th group of
   dim_n d consecutive draws *)
Definition wna_motion1 d (T q : F) : M O (dim_n d) 1 -> list F -> M O (dim_n d) 1 * list F :=
  fun x z => wna_motion (O:=O) d T q (c:=1) x z.

Lemma wna_iter_draws d (T q : F) (x0 : 'cV[F]_(dim_n d)) zs k :
  (iter_motion (@wna_motion1 d T q) k (x0, zs)).2 = skipn (dim_n d * k) zs.
Proof.
elim: k => [|k IH]; first by rewrite muln0.
rewrite [iter_motion _ _ _]/= /wna_motion1 /wna_motion additive_motion_eq [(_, _).2]/= IH skipn_skipn_add.
by congr (skipn _ _); rewrite muln1 mulnS addnC.
Qed.

Lemma mx_get_mset r c (A : 'M[F]_(r, c)) i j v a b : (a < r)%N -> (b < c)%N ->
  mx_get (mset (O:=O) A i j v) a b = if (a == i) && (b == j) then v else mx_get A a b.
Proof. by move=> ar bc; rewrite /mset /= mx_get_build // !nat_eqbE. Qed.

Lemma lm_fill_entries m n (idxs : list nat) : forall i (H H' : 'M[F]_(m, n)),
  lm_fill (O:=O) i idxs H = inr H' ->
  forall a b, (a < m)%N -> (b < n)%N ->
  mx_get H' a b = if (i <= a < i + length idxs)%N && (b == List.nth (a - i)%N idxs 0%N) then 1 else mx_get H a b.
Proof.
elim: idxs => [|ci rest IH] i H H' /=.
  by case=> <- a b _ _; rewrite addn0; case: (ltngtP i a).
rewrite nat_ltbE; case: ifP => // cin /IH E a b am bn; rewrite {}E // mx_get_mset //.
rewrite addSn -addnS.
case: (ltngtP i a) => [lt|gt|<-] /=.
- by rewrite -[(a - i)%N]prednK ?subn_gt0 //= -subnS.
- by [].
- by rewrite subnn /= addnS ltnS leq_addr.
Qed.

Lemma mx_build_get m n (A : 'M[F]_(m, n)) : mx_build m n (fun i j => mx_get A i j) = A.
Proof. by apply/matrixP => i j; rewrite mxE mx_get_ord. Qed.

Lemma sabs1_01 (b : bool) : sabs1 (O:=O) (if b then 1 else 0 : F) = if b then 1 else 0.
Proof. by rewrite /sabs1 /=; case: b; rewrite ?ltxx // ltNge ler01. Qed.

Lemma argmax_keep (f : nat -> F) k : forall j best bv,
  (forall j', (j <= j' < j + k)%N -> f j' <= bv) -> argmax_from (O:=O) f j k best bv = best.
Proof.
elim: k => [|k IH] j best bv le //=.
have -> : (bv < f j) = false.
  by apply/negbTE; rewrite -leNgt; apply: le; rewrite leqnn addnS ltnS leq_addr.
apply: IH => j' /andP [a b].
by apply: le; rewrite (ltnW a) /= addnS -addSn.
Qed.

(* scanning the 0/1 indicator of c from j on: until c is met the best value is 0, from then on it is the
   1 found at c, which nothing exceeds *)
Lemma argmax_indicator (f : nat -> F) c k : forall j best bv,
  (forall j', (j' < j + k)%N -> f j' = if j' == c then 1 else 0) -> (c < j + k)%N ->
  (if (c < j)%N then best = c /\ bv = 1 else bv = 0) ->
  argmax_from (O:=O) f j k best bv = c.
Proof.
elim: k => [|k IH] j best bv E ck st /=; first by move: ck st; rewrite addn0 => -> [].
rewrite addnS -addSn in E ck; rewrite E; last by rewrite addSn ltnS leq_addr.
case: (ltngtP c j) st E ck => [cj [-> ->]|jc ->|<- ->] E ck.
- by rewrite ltr10; apply: IH => //; rewrite ltnS ltnW.
- by rewrite ltxx; apply: IH => //; rewrite ltnS leqNgt jc.
- by rewrite ltr01; apply: IH => //; rewrite ltnSn.
Qed.

Lemma row_argmax_selector m n (H : 'M[F]_(m, n)) i c : (c < n)%N ->
  (forall b, (b < n)%N -> mx_get H i b = if b == c then 1 else 0) ->
  row_argmax_abs (O:=O) H i = c.
Proof.
case: n H => [|n] H // cn E; rewrite /row_argmax_abs.
have Ef j' : (j' < 1 + n)%N -> sabs1 (O:=O) (mx_get H i j') = if j' == c then 1 else 0.
  by move=> lt; rewrite E // sabs1_01.
by apply: argmax_indicator => //; rewrite [mget _ _ _]/= Ef //; case: (c).
Qed.

Lemma sofnatE k : sofnat (sc O) k = k%:R :> F.
Proof. exact: sofnat_natr. Qed.

Lemma mx_get_set_col r c (A : 'M[F]_(r, c)) k v i j : (i < r)%N -> (j < c)%N ->
  mx_get (set_col (O:=O) A k v) i j = if j == k then v i else mx_get A i j.
Proof. by move=> ir jc; rewrite /set_col /= mx_get_build // nat_eqbE. Qed.

Lemma fold_set_col r c (g : nat * nat -> nat) (v : nat * nat -> nat -> F) (l : list (nat * nat)) :
  forall (A : 'M[F]_(r, c)) p0, List.In p0 l -> (forall p, List.In p l -> g p = g p0 -> p = p0) ->
  forall i, (i < r)%N -> (g p0 < c)%N ->
  mx_get (fold_left (fun B p => set_col (O:=O) B (g p) (v p)) l A) i (g p0) = v p0 i.
Proof.
elim/rev_ind: l => [|p l IH] A p0 //= hin uniq i ir kc.
rewrite fold_left_app /= mx_get_set_col //.
case: eqP => [e|ne].
  by rewrite (uniq p) //; apply/in_or_app; right; left.
apply: IH => //.
  by have [hl|[e|[]]] := in_app_or _ _ _ hin => //; case: ne; rewrite e.
by move=> q ql; apply: uniq; apply/in_or_app; left.
Qed.

Lemma grid_pairs_in nx ny i j : List.In (i, j) (grid_pairs nx ny) <-> (i < nx)%N /\ (j < ny)%N.
Proof.
rewrite /grid_pairs in_prod_iff !in_seq /=.
split=> [[[_ /ssrnat.ltP a] [_ /ssrnat.ltP b]]|[/ssrnat.ltP a /ssrnat.ltP b]] //.
by split; split=> //; exact: Nat.le_0_l.
Qed.

Lemma grid_index_inj ny i j i0 j0 : (j < ny)%N -> (j0 < ny)%N ->
  (i * ny + j = i0 * ny + j0)%N -> (i, j) = (i0, j0).
Proof.
move=> jn j0n E; have ny0 : (0 < ny)%N by apply: leq_ltn_trans jn.
have := congr1 (fun k => k %/ ny)%N E; rewrite !divnMDl // !divn_small // !addn0 => ->.
by have := congr1 (fun k => k %% ny)%N E; rewrite !modnMDl !modn_small // => ->.
Qed.

(* the nested loops write column i * ny + j once, for every grid point (i, j) *)
Lemma grid_fold_entry (xinf dx yinf dy : F) nx ny np (st : 'M[F]_(4, np)) i j r :
  np = (nx * ny)%N -> (i < nx)%N -> (j < ny)%N -> (r < 4)%N ->
  mx_get (fold_left (fun A ij => set_col (O:=O) A (fst ij * ny + snd ij)%coq_nat
                                         (grid_point (O:=O) xinf dx yinf dy nx ny (fst ij) (snd ij)))
                    (grid_pairs nx ny) st) r (i * ny + j)
  = grid_point (O:=O) xinf dx yinf dy nx ny i j r.
Proof.
move=> e ix jy r4.
have kn : (i * ny + j < np)%N.
  by rewrite e; apply: (@leq_trans (i.+1 * ny)%N); rewrite ?leq_mul2r ?ix ?orbT // mulSn [(ny + _)%N]addnC ltn_add2l.
pose g (p : nat * nat) := (p.1 * ny + p.2)%N.
pose v (p : nat * nat) := grid_point (O:=O) xinf dx yinf dy nx ny p.1 p.2.
apply: (@fold_set_col 4 np g v _ _ (i, j)) => //; first by apply/grid_pairs_in.
case=> i1 j1 /grid_pairs_in [_ j1y] /= E.
exact: (grid_index_inj j1y jy E).
Qed.

Lemma grid_coordE delta inf n i : grid_coord (O:=O) delta inf n i = inf + i%:R * (delta / (n%:R - 1)) :> F.
Proof. by rewrite /grid_coord /sofnat /= !ZnatE addrC mulrC. Qed.

Lemma grid_coord_first delta inf n : grid_coord (O:=O) delta inf n 0 = inf :> F.
Proof. by rewrite grid_coordE mul0r addr0. Qed.

Lemma natr_pred_neq0 n : (2 <= n)%N -> n%:R - 1 != 0 :> F.
Proof. by move=> n2; rewrite subr_eq0 -[1]/(1%:R) eqr_nat neq_ltn orbC n2. Qed.

Lemma grid_coord_last sup inf n : (2 <= n)%N -> grid_coord (O:=O) (sup - inf) inf n n.-1 = sup :> F.
Proof.
move=> n2; rewrite grid_coordE.
have -> : (n.-1)%:R = n%:R - 1 :> F by rewrite -{2}[n]prednK ?(ltn_trans _ n2) // -addn1 natrD addrK.
by rewrite mulrCA divff ?natr_pred_neq0 // mulr1 addrC subrK.
Qed.
End Models.

Section FactorExists.
Variable R : rcfType.
Variable tr : Transc R.
Variable sq : forall n, 'M[R]_n -> 'M[R]_n.
Variable eg : forall n, 'M[R]_n -> 'M[R]_(n,1).
Let O := MxMat tr sq eg.

(* the lower-triangular Cholesky factor of q [T^3/3 T^2/2; T^2/2 T] *)
Definition chol2 (T q : R) : 'M[R]_2 :=
  let a := Num.sqrt (q * (T ^+ 3 / 3%:R)) in
  \matrix_(i < 2, j < 2)
    (if (i == 0%N :> nat) && (j == 0%N :> nat) then a
     else if (i == 1%N :> nat) && (j == 0%N :> nat) then q * (T ^+ 2 / 2%:R) / a
     else if (i == 1%N :> nat) && (j == 1%N :> nat) then Num.sqrt (q * T / 4%:R) else 0).

Lemma chol2_factor (T q : R) : 0 < T -> 0 < q ->
  chol2 T q *m (chol2 T q)^T = q *: (wna_Q2 (O:=O) T : 'M[R]_2).
Proof.
move=> T0 q0.
have A0 : 0 < q * (T ^+ 3 / 3%:R) by rewrite mulr_gt0 // divr_gt0 ?exprn_gt0 // ltr0n.
have C0 : 0 < q * T / 4%:R by rewrite divr_gt0 ?mulr_gt0 // ltr0n.
set a := Num.sqrt (q * (T ^+ 3 / 3%:R)).
set c := Num.sqrt (q * T / 4%:R).
have aa : a * a = q * (T ^+ 3 / 3%:R) by rewrite -expr2 sqr_sqrtr // ltW.
have cc : c * c = q * T / 4%:R by rewrite -expr2 sqr_sqrtr // ltW.
have an0 : a != 0 by rewrite gt_eqF // sqrtr_gt0.
have Tn0 : T != 0 by rewrite gt_eqF.
have qn0 : q != 0 by rewrite gt_eqF.
apply/matrixP => i j; rewrite !mxE !big_ord_recl big_ord0 !mxE /= -/a -/c.
case: i => [[|[|i]] ?] //; case: j => [[|[|j]] ?] //=; rewrite ?wna_q11E ?wna_q2E ?mulr0 ?mul0r ?addr0 ?add0r.
- exact: aa.
- by rewrite mulrC divfK.
- by rewrite divfK.
- rewrite cc mulrACA -invfM aa; field.
  by rewrite Tn0 qn0.
Qed.

End FactorExists.
