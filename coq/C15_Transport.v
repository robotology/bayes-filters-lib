(* C15_Transport.v — the factorised ("UVR", Woodbury / determinant lemma) Gaussian
   log-density and density of C15_Model.v, and the batch forms of the direct
   ones, executed at the LIST instance (the one that is extracted and run), over
   the scalars of an arbitrary realFieldType, return the values the same Gallina
   terms have at the MathComp instance (the one the C15 theorems are about), on
   well-formed inputs, for R given in full (all blocks side by side) and for one
   shared block.  The list instance inverts matrices with the Gauss-Jordan
   routine of ListOps.v (proved in ListGauss.v, on invertible inputs): every
   matrix the model inverts or takes the determinant of -- each diagonal block
   of R, the capacitance matrix I + V R^-1 U, the assembled S in the direct
   form -- is proved invertible from the positive-definiteness premises
   (LinAlg.v, C15_Proofs.v), not assumed so.  Only rounding separates the
   executed model from the theorems.  Axiom-free. *)
Require Import ZArith List Bool.
Require Import BFL.Ops BFL.ListOps BFL.Density BFL.C15_Model.
From mathcomp Require Import ssreflect ssrfun ssrbool eqtype ssrnat seq choice fintype bigop order ssralg ssrnum zmodp matrix mxalgebra.
Require Import BFL.MxOps BFL.LinAlg BFL.ListOpsCorrect BFL.ListGauss BFL.C02_Transport BFL.C01_Transport BFL.C15_Proofs.
Set Implicit Arguments.
Unset Strict Implicit.
Unset Printing Implicit Defensive.
Import GRing.Theory.
Local Open Scope ring_scope.

Section T.
Variable F : realFieldType.
Variable tr : Transc F.
Variable sq : forall n, 'M[F]_n -> 'M[F]_n.
Variable eg : forall n, 'M[F]_n -> 'M[F]_(n,1).
Let S := FOps tr.
Let OL := ListMat S idL idL.
Let OM := MxMat tr sq eg.
Notation repr m n l A := (@C02_Transport.repr F m n l A) (only parsing).

(* element access and mbuild are total: out of range both sides read 0 *)
Lemma repr_mget m n l (A : 'M[F]_(m,n)) i j : repr m n l A ->
  @mget OL m n l i j = @mget OM m n A i j.
Proof. by move=> rA; exact: rget. Qed.

Lemma repr_mbuild m n (f g : nat -> nat -> F) :
  (forall i j, (i < m)%N -> (j < n)%N -> f i j = g i j) ->
  repr m n (@mbuild OL m n f) (@mbuild OM m n g).
Proof. exact: rbuild. Qed.

Lemma repr_mid n : repr n n (@mid OL n) (1%:M : 'M[F]_n).
Proof. exact: C02_Transport.repr_mid. Qed.

Lemma repr_mslice m n l (A : 'M[F]_(m,n)) r0 c0 r c : repr m n l A ->
  repr r c (@mslice OL m n r0 c0 r c l) (@mslice OM m n r0 c0 r c A).
Proof. exact: rbuild_get. Qed.

Lemma repr_mcol m n l (A : 'M[F]_(m,n)) j : repr m n l A ->
  repr m 1 (@mcol OL m n j l) (@mcol OM m n j A).
Proof. exact: rbuild_get. Qed.

Lemma repr_mrow m n l (A : 'M[F]_(m,n)) i : repr m n l A ->
  repr 1 n (@mrow OL m n i l) (@mrow OM m n i A).
Proof. exact: rbuild_get. Qed.

Lemma repr_mset_block m n r c lA (A : 'M[F]_(m,n)) r0 c0 lB (B : 'M[F]_(r,c)) :
  repr m n lA A -> repr r c lB B ->
  repr m n (@mset_block OL m n r c lA r0 c0 lB) (@mset_block OM m n r c A r0 c0 B).
Proof.
move=> rA rB; apply: repr_mbuild => i j _ _.
by rewrite (repr_mget _ _ rA) (repr_mget _ _ rB).
Qed.

Lemma repr_mcolwise_sub d b lX (X : 'M[F]_(d,b)) lm (mu : 'cV[F]_d) :
  repr d b lX X -> repr d 1 lm mu ->
  repr d b (@mcolwise_sub OL d b lX lm) (@mcolwise_sub OM d b X mu).
Proof.
move=> rX rm; apply: repr_mbuild => i j _ _.
by rewrite (repr_mget _ _ rX) (repr_mget _ _ rm).
Qed.

(* a loop over 0 .. cnt-1 that keeps the representation *)
Lemma repr_fold m n cnt (fl : lmxF F -> nat -> lmxF F) (fm : 'M[F]_(m,n) -> nat -> 'M[F]_(m,n)) l0 A0 :
  (forall l A t, (t < cnt)%N -> repr m n l A -> repr m n (fl l t) (fm A t)) ->
  repr m n l0 A0 ->
  repr m n (List.fold_left fl (List.seq 0 cnt) l0) (List.fold_left fm (List.seq 0 cnt) A0).
Proof.
move=> Hstep Hr0; elim: cnt Hstep => [|cnt IH] Hstep //.
rewrite List.seq_S !List.fold_left_app /=; apply: (Hstep) => //.
by apply: IH => l A t lt; apply: (Hstep); exact: ltnW.
Qed.

Section UVR.
Variables (bs nb k b rc : nat).
Hypothesis bs0 : (0 < bs)%N.
Notation d := (nb * bs)%N.
Variables (li : lmxF F) (input : 'M[F]_(d,b)) (lm : lmxF F) (mean : 'cV[F]_d).
Variables (lU : lmxF F) (U : 'M[F]_(d,k)) (lV : lmxF F) (V : 'M[F]_(k,d)).
Variables (lR : lmxF F) (R : 'M[F]_(bs,rc)).
Hypothesis ri : repr d b li input.
Hypothesis rm : repr d 1 lm mean.
Hypothesis rU : repr d k lU U.
Hypothesis rV : repr k d lV V.
Hypothesis rR : repr bs rc lR R.
Notation blkR := (blk (tr:=tr) (sq:=sq) (eg:=eg) (R : M OM bs rc)).

(* the blocks of R are invertible: the only premise of this subsection *)
Hypothesis uB : forall t, (t < nb)%N -> blkR t \in unitmx.

Lemma blk_single : (rc == bs)%N -> forall t, (t < nb)%N ->
  (@uvr_R_single OM bs rc R : 'M[F]_bs) \in unitmx.
Proof. by move=> E t tn; have := uB tn; rewrite /blk E. Qed.

Lemma blk_block : (rc == bs)%N = false -> forall t, (t < nb)%N ->
  (@uvr_R_block OM bs rc R t : 'M[F]_bs) \in unitmx.
Proof. by move=> E t tn; have := uB tn; rewrite /blk E. Qed.

Lemma repr_inv_R :
  repr bs d (@uvr_inv_R OL d bs rc nb lR) (@uvr_inv_R OM d bs rc nb R).
Proof.
rewrite /uvr_inv_R nat_eqbE; case E: (rc == bs)%N.
- apply: repr_fold; last exact: repr_mzero.
  move=> l A t tn rA; apply: repr_mset_block => //.
  by apply: repr_minv; [exact: repr_mslice | exact: blk_single tn].
- apply: repr_fold; last exact: repr_mzero.
  move=> l A t tn rA; apply: repr_mset_block => //.
  by apply: repr_minv; [exact: repr_mslice | exact: blk_block tn].
Qed.

Lemma repr_V_inv_R liR (iR : 'M[F]_(bs,d)) : repr bs d liR iR ->
  repr k d (@uvr_V_inv_R OL k d bs lV liR) (@uvr_V_inv_R OM k d bs V iR).
Proof.
move=> riR; rewrite /uvr_V_inv_R; apply: repr_fold; last exact: repr_mzero.
move=> l A t _ rA; apply: repr_mset_block => //.
by apply: (repr_mul tr); exact: repr_mslice.
Qed.

Lemma repr_diffT_inv_R ld (df : 'M[F]_(d,b)) liR (iR : 'M[F]_(bs,d)) :
  repr d b ld df -> repr bs d liR iR ->
  repr b d (@uvr_diffT_inv_R OL d b bs nb ld liR) (@uvr_diffT_inv_R OM d b bs nb df iR).
Proof.
move=> rd riR; rewrite /uvr_diffT_inv_R; apply: repr_fold; last exact: repr_mzero.
move=> l A t _ rA; apply: repr_mset_block => //.
by apply: (repr_mul tr); [apply: (repr_tr tr); exact: repr_mslice | exact: repr_mslice].
Qed.

Lemma repr_capacitance lVR (VR : 'M[F]_(k,d)) : repr k d lVR VR ->
  repr k k (@uvr_I_V_inv_R_U OL k d lVR lU) (@uvr_I_V_inv_R_U OM k d VR U).
Proof.
by move=> rVR; rewrite /uvr_I_V_inv_R_U; apply: (repr_add tr); [exact: repr_mid | exact: (repr_mul tr)].
Qed.

Lemma det_R_transport : @uvr_det_R OL bs rc nb lR = @uvr_det_R OM bs rc nb R.
Proof.
rewrite /uvr_det_R nat_eqbE; case E: (rc == bs)%N.
- (* with no block there is no premise on R, and both sides are the empty power *)
  case: nb uB blk_single => [|nb'] uB' bsg //.
  have uS1 := bsg E 0%N (ltn0Sn _).
  by rewrite (repr_mdet tr (repr_mslice 0 0 bs bs rR) uS1).
- have st t : (t < nb)%N -> @mdet OL bs (@uvr_R_block OL bs rc lR t) = @mdet OM bs (@uvr_R_block OM bs rc R t).
    by move=> tn; exact: (repr_mdet tr (repr_mslice 0 (bs * t) bs bs rR) (blk_block E tn)).
  rewrite (fold_prod (fun t => @mdet OL bs (@uvr_R_block OL bs rc lR t)) nb).
  rewrite (fold_prod (fun t => @mdet OM bs (@uvr_R_block OM bs rc R t)) nb).
  by apply: eq_bigr => t _; exact: st.
Qed.

(* the capacitance matrix is invertible once S is *)
Hypothesis uS : (@assembled_S OM d k bs rc U V R : 'M[F]_d) \in unitmx.

Let uC := uvr_capacitance_unit bs0 uB uS.

Lemma weighted_diff_transport ld (df : 'M[F]_(d,b)) i :
  repr d b ld df ->
  @uvr_weighted_diff OL d b k
     (@uvr_diffT_inv_R OL d b bs nb ld (@uvr_inv_R OL d bs rc nb lR)) lU
     (@uvr_I_V_inv_R_U OL k d (@uvr_V_inv_R OL k d bs lV (@uvr_inv_R OL d bs rc nb lR)) lU)
     (@uvr_V_inv_R OL k d bs lV (@uvr_inv_R OL d bs rc nb lR)) ld i
  = @uvr_weighted_diff OM d b k
     (@uvr_diffT_inv_R OM d b bs nb df (@uvr_inv_R OM d bs rc nb R)) U
     (@uvr_I_V_inv_R_U OM k d (@uvr_V_inv_R OM k d bs V (@uvr_inv_R OM d bs rc nb R)) U)
     (@uvr_V_inv_R OM k d bs V (@uvr_inv_R OM d bs rc nb R)) df i.
Proof.
move=> rd; rewrite /uvr_weighted_diff.
have riR := repr_inv_R.
have rVR := repr_V_inv_R riR.
have rC := repr_capacitance rVR.
have rCi := repr_minv tr rC uC.
have rdT := repr_diffT_inv_R rd riR.
(* row_i * (I - U C^-1 (V R^-1)) * col_i, from the outside in *)
apply: repr_mget.
apply: (repr_mul tr); last exact: repr_mcol.
apply: (repr_mul tr); first exact: repr_mrow.
apply: (repr_msub tr); first exact: repr_mid.
by apply: (repr_mul tr) => //; apply: (repr_mul tr).
Qed.

Lemma det_S_transport :
  @smul (sc OL) (@uvr_det_R OL bs rc nb lR)
        (@mdet OL k (@uvr_I_V_inv_R_U OL k d (@uvr_V_inv_R OL k d bs lV (@uvr_inv_R OL d bs rc nb lR)) lU))
  = @smul (sc OM) (@uvr_det_R OM bs rc nb R)
        (@mdet OM k (@uvr_I_V_inv_R_U OM k d (@uvr_V_inv_R OM k d bs V (@uvr_inv_R OM d bs rc nb R)) U)).
Proof.
by rewrite det_R_transport (repr_mdet tr (repr_capacitance (repr_V_inv_R repr_inv_R)) uC).
Qed.

(* the factorised log-density and density: the same lists of values *)
Theorem log_density_uvr_transport :
  @log_density_uvr OL d b k bs rc li lm lU lV lR = @log_density_uvr OM d b k bs rc input mean U V R.
Proof.
rewrite /log_density_uvr div_mulK // det_S_transport.
apply: List.map_ext => i.
by rewrite (weighted_diff_transport i (repr_mcolwise_sub ri rm)).
Qed.

Theorem density_uvr_transport :
  @density_uvr OL d b k bs rc li lm lU lV lR = @density_uvr OM d b k bs rc input mean U V R.
Proof. by rewrite /density_uvr log_density_uvr_transport. Qed.

(* the spec-level assembly U V + blockdiag(R) (no inverse involved) *)
Lemma repr_blockdiag :
  repr d d (@blockdiag OL d bs rc lR) (@blockdiag OM d bs rc R).
Proof.
rewrite /blockdiag; apply: repr_fold; last exact: repr_mzero.
move=> l A t _ rA; apply: repr_mset_block => //.
by case: (Nat.eqb rc bs); exact: repr_mslice.
Qed.

Lemma repr_assembled :
  repr d d (@assembled_S OL d k bs rc lU lV lR) (@assembled_S OM d k bs rc U V R).
Proof. by rewrite /assembled_S; apply: (repr_add tr); [exact: (repr_mul tr) | exact: repr_blockdiag]. Qed.

End UVR.

Theorem log_density_mat_transport d b li (input : 'M[F]_(d,b)) lm (mean : 'cV[F]_d) lc (cov : 'M[F]_d) :
  repr d b li input -> repr d 1 lm mean -> repr d d lc cov -> cov \in unitmx ->
  @log_density_mat OL d b li lm lc = @log_density_mat OM d b input mean cov.
Proof.
move=> ri rm rc uc; rewrite /log_density_mat; apply: List.map_ext => i.
exact: (log_density_transport tr sq eg (repr_mcol i ri) rm rc uc).
Qed.

Theorem density_mat_transport d b li (input : 'M[F]_(d,b)) lm (mean : 'cV[F]_d) lc (cov : 'M[F]_d) :
  repr d b li input -> repr d 1 lm mean -> repr d d lc cov -> cov \in unitmx ->
  @density_mat OL d b li lm lc = @density_mat OM d b input mean cov.
Proof. by move=> ri rm rc uc; rewrite /density_mat (log_density_mat_transport ri rm rc uc). Qed.

Theorem direct_executed_is_model d b li (input : 'M[F]_(d,b)) lm (mean : 'cV[F]_d) lc (cov : 'M[F]_d) :
  repr d b li input -> repr d 1 lm mean -> repr d d lc cov -> spd cov ->
  @log_density_mat OL d b li lm lc = @log_density_mat OM d b input mean cov /\
  @density_mat OL d b li lm lc = @density_mat OM d b input mean cov.
Proof.
move=> ri rm rc sc; split.
- exact: (log_density_mat_transport ri rm rc (spd_unit sc)).
- exact: (density_mat_transport ri rm rc (spd_unit sc)).
Qed.

(* positive-definiteness premises only: the invertibility premises above are derived *)
Section SPD.
Variables (bs nb k b rc : nat).
Hypothesis bs0 : (0 < bs)%N.
Notation d := (nb * bs)%N.
Variables (li : lmxF F) (input : 'M[F]_(d,b)) (lm : lmxF F) (mean : 'cV[F]_d).
Variables (lU : lmxF F) (U : 'M[F]_(d,k)) (lV : lmxF F) (V : 'M[F]_(k,d)).
Variables (lR : lmxF F) (R : 'M[F]_(bs,rc)).
Hypothesis ri : repr d b li input.
Hypothesis rm : repr d 1 lm mean.
Hypothesis rU : repr d k lU U.
Hypothesis rV : repr k d lV V.
Hypothesis rR : repr bs rc lR R.
Notation blkR := (blk (tr:=tr) (sq:=sq) (eg:=eg) (R : M OM bs rc)).
Hypothesis sB : forall t, (t < nb)%N -> spd (blkR t).
Hypothesis sS : spd (@assembled_S OM d k bs rc U V R : 'M[F]_d).

Let uB t (tn : (t < nb)%N) : blkR t \in unitmx := spd_unit (sB tn).
Let uS := spd_unit sS.

(* the executed factorised (log-)density is the theorem-level one *)
Theorem uvr_executed_is_model :
  @log_density_uvr OL d b k bs rc li lm lU lV lR = @log_density_uvr OM d b k bs rc input mean U V R /\
  @density_uvr OL d b k bs rc li lm lU lV lR = @density_uvr OM d b k bs rc input mean U V R.
Proof.
split.
- exact: (log_density_uvr_transport bs0 ri rm rU rV rR uB uS).
- exact: (density_uvr_transport bs0 ri rm rU rV rR uB uS).
Qed.

(* ... and equals the direct theorem-level (log-)density of the assembled covariance, per evaluation point;
   so do the executed direct forms applied to the executed assembly *)
Theorem uvr_executed_is_direct_definition i : (i < b)%N ->
  List.nth i (@log_density_uvr OL d b k bs rc li lm lU lV lR) 0 =
  @log_density OM d (@mcol OM d b i input) mean (@assembled_S OM d k bs rc U V R) /\
  List.nth i (@log_density_mat OL d b li lm (@assembled_S OL d k bs rc lU lV lR)) 0 =
  @log_density OM d (@mcol OM d b i input) mean (@assembled_S OM d k bs rc U V R).
Proof.
move=> ib; split.
- by rewrite (log_density_uvr_transport bs0 ri rm rU rV rR uB uS); exact: (uvr_eq_direct bs0 input mean uB uS ib).
- rewrite (log_density_mat_transport ri rm (repr_assembled rU rV rR) uS).
  by rewrite /log_density_mat (nth_map_seqN _ _ ib).
Qed.

End SPD.

(* R in full: the diagonal blocks side by side (bs x nb*bs) *)
Theorem uvr_executed_is_model_full_R bs nb k b (bs0 : (0 < bs)%N)
        li (input : 'M[F]_(nb * bs, b)) lm (mean : 'cV[F]_(nb * bs))
        lU (U : 'M[F]_(nb * bs, k)) lV (V : 'M[F]_(k, nb * bs)) lR (R : 'M[F]_(bs, nb * bs)) :
  repr (nb * bs) b li input -> repr (nb * bs) 1 lm mean -> repr (nb * bs) k lU U -> repr k (nb * bs) lV V ->
  repr bs (nb * bs) lR R ->
  (forall t, (t < nb)%N -> spd (@uvr_R_block OM bs (nb * bs) R t : 'M[F]_bs)) ->
  spd (@assembled_S OM (nb * bs) k bs (nb * bs) U V R : 'M[F]_(nb * bs)) ->
  @log_density_uvr OL (nb * bs) b k bs (nb * bs) li lm lU lV lR = @log_density_uvr OM (nb * bs) b k bs (nb * bs) input mean U V R /\
  @density_uvr OL (nb * bs) b k bs (nb * bs) li lm lU lV lR = @density_uvr OM (nb * bs) b k bs (nb * bs) input mean U V R.
Proof.
move=> ri rm rU rV rR sB sS; apply: (uvr_executed_is_model bs0 ri rm rU rV rR _ sS) => t tn.
by rewrite (blk_per_block (tr:=tr) (sq:=sq) (eg:=eg) bs0 R tn); exact: sB.
Qed.

(* R as one block shared by all diagonal positions (bs x bs) *)
Theorem uvr_executed_is_model_shared_R bs nb k b (bs0 : (0 < bs)%N)
        li (input : 'M[F]_(nb * bs, b)) lm (mean : 'cV[F]_(nb * bs))
        lU (U : 'M[F]_(nb * bs, k)) lV (V : 'M[F]_(k, nb * bs)) lR (R : 'M[F]_bs) :
  repr (nb * bs) b li input -> repr (nb * bs) 1 lm mean -> repr (nb * bs) k lU U -> repr k (nb * bs) lV V ->
  repr bs bs lR R ->
  spd R ->
  spd (@assembled_S OM (nb * bs) k bs bs U V R : 'M[F]_(nb * bs)) ->
  @log_density_uvr OL (nb * bs) b k bs bs li lm lU lV lR = @log_density_uvr OM (nb * bs) b k bs bs input mean U V R /\
  @density_uvr OL (nb * bs) b k bs bs li lm lU lV lR = @density_uvr OM (nb * bs) b k bs bs input mean U V R.
Proof.
move=> ri rm rU rV rR sR sS; apply: (uvr_executed_is_model bs0 ri rm rU rV rR _ sS) => t tn.
by rewrite (blk_shared (tr:=tr) (sq:=sq) (eg:=eg) R t).
Qed.

(* the common use V = U^T (any encoding of R): positive definite blocks are the only premise *)
Theorem uvr_executed_is_model_sym_factor bs nb k b rc (bs0 : (0 < bs)%N)
        li (input : 'M[F]_(nb * bs, b)) lm (mean : 'cV[F]_(nb * bs))
        lU (U : 'M[F]_(nb * bs, k)) lR (R : 'M[F]_(bs, rc)) :
  repr (nb * bs) b li input -> repr (nb * bs) 1 lm mean -> repr (nb * bs) k lU U -> repr bs rc lR R ->
  (forall t, (t < nb)%N -> spd (blk (tr:=tr) (sq:=sq) (eg:=eg) (R : M OM bs rc) t)) ->
  @log_density_uvr OL (nb * bs) b k bs rc li lm lU (@mtr OL (nb * bs) k lU) lR
  = @log_density_uvr OM (nb * bs) b k bs rc input mean U (@mtr OM (nb * bs) k U) R /\
  @density_uvr OL (nb * bs) b k bs rc li lm lU (@mtr OL (nb * bs) k lU) lR
  = @density_uvr OM (nb * bs) b k bs rc input mean U (@mtr OM (nb * bs) k U) R.
Proof.
move=> ri rm rU rR sB; apply: uvr_executed_is_model => //; first exact: (repr_tr tr).
exact: (assembled_sym_factor_spd (tr:=tr) (sq:=sq) (eg:=eg) bs0 U sB).
Qed.

End T.

(* non-vacuity: identity blocks, U = V = 0, any points: the premises hold in every shape *)
Example uvr_transport_premises_satisfiable (F : realFieldType) (tr : Transc F)
        (sq : forall n, 'M[F]_n -> 'M[F]_n) (eg : forall n, 'M[F]_n -> 'M[F]_(n,1)) bs nb k (bs0 : (0 < bs)%N) :
  let OL := ListMat (FOps tr) (fun _ X => X) (fun _ X => X) in
  let OM := MxMat tr sq eg in
  [/\ @C02_Transport.repr F bs bs (@mid OL bs) (1%:M : 'M[F]_bs),
      @C02_Transport.repr F (nb * bs) k (@mzero OL (nb * bs) k) (0 : 'M[F]_(nb * bs, k)),
      spd (1%:M : 'M[F]_bs) &
      spd (@assembled_S OM (nb * bs) k bs bs (0 : 'M[F]_(nb * bs, k)) (0 : 'M[F]_(k, nb * bs)) (1%:M : 'M[F]_bs) : 'M[F]_(nb * bs))].
Proof.
split; [exact: repr_mid | exact: repr_mzero | exact: spd1 |].
by rewrite assembled_01 //; exact: spd1.
Qed.

Print Assumptions uvr_executed_is_model.
Print Assumptions uvr_executed_is_direct_definition.
Print Assumptions uvr_executed_is_model_full_R.
Print Assumptions uvr_executed_is_model_shared_R.
Print Assumptions uvr_executed_is_model_sym_factor.
Print Assumptions direct_executed_is_model.
