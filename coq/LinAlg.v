(* LinAlg.v — symmetric / PSD / SPD matrices over a realFieldType, through the
   quadratic form x A x^T (x a row vector); the Loewner order; block matrices and the
   Schur complement, hence the positive determinant of an SPD matrix.
   Axiom-free (MathComp only). *)
From mathcomp Require Import ssreflect ssrfun ssrbool eqtype ssrnat seq choice fintype bigop order ssralg ssrnum zmodp matrix mxalgebra.
Set Implicit Arguments.
Unset Strict Implicit.
Unset Printing Implicit Defensive.
Import Order.Theory GRing.Theory Num.Theory.
Local Open Scope ring_scope.

Section SPD.
Variable F : realFieldType.

Definition sym n (A : 'M[F]_n) := A^T = A.
Definition qf n (A : 'M[F]_n) (x : 'rV[F]_n) : F := (x *m A *m x^T) 0 0.
Definition psd n (A : 'M[F]_n) := sym A /\ forall x, 0 <= qf A x.
Definition spd n (A : 'M[F]_n) := sym A /\ forall x, x != 0 -> 0 < qf A x.
(* Loewner order *)
Definition mle n (A B : 'M[F]_n) := psd (B - A).

Lemma qf_add n (A B : 'M[F]_n) x : qf (A + B) x = qf A x + qf B x.
Proof. by rewrite /qf mulmxDr mulmxDl mxE. Qed.

Lemma qf_opp n (A : 'M[F]_n) x : qf (- A) x = - qf A x.
Proof. by rewrite /qf mulmxN mulNmx mxE. Qed.

Lemma qf_scale n (A : 'M[F]_n) c x : qf (c *: A) x = c * qf A x.
Proof. by rewrite /qf -scalemxAr -scalemxAl mxE. Qed.

Lemma qf_congr n m (A : 'M[F]_n) (B : 'M[F]_(m,n)) x :
  qf (B *m A *m B^T) x = qf A (x *m B).
Proof. by rewrite /qf trmx_mul !mulmxA. Qed.

Lemma qf0 n (A : 'M[F]_n) : qf A 0 = 0.
Proof. by rewrite /qf !mul0mx mxE. Qed.

Lemma sym_add n (A B : 'M[F]_n) : sym A -> sym B -> sym (A + B).
Proof. by rewrite /sym linearD /= => -> ->. Qed.

Lemma sym_sub n (A B : 'M[F]_n) : sym A -> sym B -> sym (A - B).
Proof. by rewrite /sym linearB /= => -> ->. Qed.

Lemma sym_congr n m (A : 'M[F]_n) (B : 'M[F]_(m,n)) : sym A -> sym (B *m A *m B^T).
Proof. by rewrite /sym => sA; rewrite !trmx_mul trmxK sA mulmxA. Qed.

Lemma sym_inv n (A : 'M[F]_n) : sym A -> sym (invmx A).
Proof. by rewrite /sym trmx_inv => ->. Qed.

Lemma sym1 n : sym (1%:M : 'M[F]_n).
Proof. by rewrite /sym trmx1. Qed.

Lemma spd_psd n (A : 'M[F]_n) : spd A -> psd A.
Proof.
case=> sA pA; split=> // x; case: (eqVneq x 0) => [->|/pA/ltW //].
by rewrite qf0.
Qed.

Lemma spd_unit n (A : 'M[F]_n) : spd A -> A \in unitmx.
Proof.
case=> _ pos; rewrite -row_free_unit -kermx_eq0; apply/rowV0P=> v.
move/sub_kermxP=> vA0; apply/eqP; apply: contraT => vn0.
by have := pos v vn0; rewrite /qf vA0 mul0mx mxE ltxx.
Qed.

Lemma psd_add n (A B : 'M[F]_n) : psd A -> psd B -> psd (A + B).
Proof.
case=> sA pA [sB pB]; split; first exact: sym_add.
by move=> x; rewrite qf_add addr_ge0.
Qed.

Lemma psd_spd_add n (A B : 'M[F]_n) : psd A -> spd B -> spd (A + B).
Proof.
case=> sA pA [sB pB]; split; first exact: sym_add.
move=> x xn0; rewrite qf_add; apply: ltr_paddl; [exact: pA | exact: pB].
Qed.

Lemma psd_congr n m (A : 'M[F]_n) (B : 'M[F]_(m,n)) : psd A -> psd (B *m A *m B^T).
Proof.
case=> sA pA; split; first exact: sym_congr.
by move=> x; rewrite qf_congr.
Qed.

Lemma psd0 n : psd (0 : 'M[F]_n).
Proof. by split; [rewrite /sym trmx0 | move=> x; rewrite /qf mulmx0 mul0mx mxE]. Qed.

Lemma spd1 n : spd (1%:M : 'M[F]_n).
Proof.
split; first exact: sym1.
move=> x /rV0Pn [j xj]; rewrite /qf mulmx1 mxE (bigD1 j) //= mxE -expr2.
apply: ltr_paddr; last by rewrite exprn_even_gt0.
by apply: sumr_ge0 => l _; rewrite mxE -expr2 sqr_ge0.
Qed.

Lemma spd_inv n (A : 'M[F]_n) : spd A -> spd (invmx A).
Proof.
move=> sA; have uA := spd_unit sA; case: sA => symA posA.
split; first exact: sym_inv.
move=> x xn0.
have -> : qf (invmx A) x = qf A (x *m invmx A).
  rewrite /qf trmx_mul trmx_inv symA !mulmxA.
  by rewrite -[x *m invmx A *m A]mulmxA (mulVmx uA) mulmx1.
apply: posA; apply: contra xn0 => /eqP E.
by rewrite -[x]mulmx1 -(mulVmx uA) mulmxA E mul0mx.
Qed.

Lemma mle_refl n (A : 'M[F]_n) : mle A A.
Proof. by rewrite /mle subrr; exact: psd0. Qed.

(* Block matrices.  Schur determinant formula; the leading block and the Schur
   complement of an SPD block matrix are SPD; hence, splitting off the 1 x 1 leading
   block, the determinant of an SPD matrix is positive. *)
Lemma det_schur m n (A : 'M[F]_m) (B : 'M[F]_(m,n)) (C : 'M[F]_(n,m)) (D : 'M[F]_n) :
  A \in unitmx -> \det (block_mx A B C D) = \det A * \det (D - C *m invmx A *m B).
Proof.
move=> uA.
have -> : block_mx A B C D
        = block_mx 1%:M 0 (C *m invmx A) 1%:M *m block_mx A B 0 (D - C *m invmx A *m B).
  by rewrite mulmx_block !mul1mx !mul0mx !addr0 -[_ *m A]mulmxA mulVmx // mulmx1 addrC subrK.
by rewrite det_mulmx det_lblock det_ublock !det1 !mul1r.
Qed.

Lemma qf_block m n (A : 'M[F]_m) (B : 'M[F]_(m,n)) (C : 'M[F]_(n,m)) (D : 'M[F]_n) x y :
  qf (block_mx A B C D) (row_mx x y)
  = ((x *m A + y *m C) *m x^T + (x *m B + y *m D) *m y^T) 0 0.
Proof. by rewrite /qf mul_row_block tr_row_mx mul_row_col. Qed.

Lemma spd_ulsub m n (Aul : 'M[F]_m) (Aur : 'M[F]_(m,n)) (Adl : 'M[F]_(n,m)) (Adr : 'M[F]_n) :
  spd (block_mx Aul Aur Adl Adr) -> spd Aul.
Proof.
case=> sM pM; split; first by move: sM; rewrite /sym tr_block_mx => /eq_block_mx [].
move=> x xn0; have := pM (row_mx x 0); rewrite row_mx_eq0 negb_and xn0 => /(_ isT).
by rewrite qf_block !mul0mx !addr0 trmx0 mulmx0 addr0.
Qed.

Lemma spd_block_diag n1 n2 (A : 'M[F]_n1) (B : 'M[F]_n2) :
  spd A -> spd B -> spd (block_mx A 0 0 B).
Proof.
move=> sA sB; have [[_ nnA] [_ nnB]] := (spd_psd sA, spd_psd sB).
case: sA sB => symA posA [symB posB]; split; first by rewrite /sym tr_block_mx !trmx0 symA symB.
move=> x; rewrite -[x]hsubmxK row_mx_eq0 negb_and qf_block !mulmx0 addr0 add0r mxE.
by case/orP => [/posA|/posB] pos; [exact: ltr_paddr (nnB _) pos | exact: ltr_paddl (nnA _) pos].
Qed.

Lemma spd_schur m n (A : 'M[F]_m) (B : 'M[F]_(m,n)) (C : 'M[F]_(n,m)) (D : 'M[F]_n) :
  spd (block_mx A B C D) -> spd (D - C *m invmx A *m B).
Proof.
move=> sM; have uA := spd_unit (spd_ulsub sM); case: sM => sM pM.
have [tA tC _ tD] : [/\ A^T = A, C^T = B, B^T = C & D^T = D].
  by move: sM; rewrite /sym tr_block_mx => /eq_block_mx [].
split; first by rewrite -tC; apply: sym_sub => //; apply: sym_congr; exact: sym_inv.
(* the row (s, y) with s = - y C A^-1 kills the first block column *)
move=> y yn0; pose s := - (y *m C *m invmx A).
have s0 : s *m A + y *m C = 0.
  by rewrite mulNmx -[_ *m invmx A *m A]mulmxA mulVmx // mulmx1 addNr.
have := pM (row_mx s y); rewrite row_mx_eq0 negb_and yn0 orbT qf_block s0 mul0mx add0r => /(_ isT).
by rewrite mulNmx addrC /qf mulmxBr !mulmxA.
Qed.

Lemma spd_det_gt0 n (A : 'M[F]_n) : spd A -> 0 < \det A.
Proof.
elim: n A => [|n IH]; first by move=> A; rewrite det_mx00 ltr01.
rewrite -[n.+1]/(1 + n)%N => A; rewrite -[A]submxK => sA; have sa := spd_ulsub sA.
rewrite (det_schur _ _ _ (spd_unit sa)); apply: mulr_gt0; last exact: IH (spd_schur sA).
by case: sa => _ /(_ 1%:M (oner_neq0 _)); rewrite det_mx11 /qf mul1mx trmx1 mulmx1.
Qed.

End SPD.
