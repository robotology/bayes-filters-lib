(* Properties_C09.v — property C09: filter lifecycle (ordered epochs, honoured
   commands, guaranteed termination) under ALL interleavings of the controller
   commands with the filtering thread, all command sequences of any length and
   all run_condition() answers.  The invariants over [reachable] and the lemmas about
   single moves are in C09_Proofs; here each statement is derived from them
   (from C09_Regress for the regression witnesses; C09_Progress holds the
   definitions C09_reset_reaches_new_epoch is stated with).

   Traces are newest-first: in  c_trace c = post ++ e :: suf  the events of
   [post] happened AFTER e, those of [suf] BEFORE.  [reachable], [step],
   [run_word], [finish], [all_good] are the definitions of C09_Model.v that are
   extracted and run against the library. *)
Require Import List Bool Arith Lia.
Require Import BFL.C09_Model BFL.C09_Proofs BFL.C09_Progress BFL.C09_Regress.
Import ListNotations.

(* no filtering step executes before run is first requested *)
Theorem C09_no_step_before_run c post k suf :
  reachable c -> c_trace c = post ++ EStep k :: suf -> In (ECmd Run) suf.
Proof.
  intros R E. pose proof (good_head _ _ (reachable_suffix _ _ _ R E)) as G. simpl in G.
  apply runreq_In. destruct k; apply andb_true_iff in G; tauto.
Qed.

(* every epoch is EInit, EStep 0, EStep 1, ...: each thread event is preceded (among
   the thread events) by the one the grammar (EInit (EStep 0)(EStep 1)...)* [EExit] prescribes;
   the step number is the value of filtering_step_ when the step starts *)
Theorem C09_epochs c post e suf :
  reachable c -> c_trace c = post ++ e :: suf -> pred_ok e (last_thr suf).
Proof.
  intros R E. pose proof (good_head _ _ (reachable_suffix _ _ _ R E)) as G.
  destruct e as [|k| | | | |]; simpl in *; auto.
  - intros X. rewrite X in G. discriminate.
  - destruct k; apply andb_true_iff in G; destruct G as [G _]; apply opt_is_eq in G; auto.
  - destruct (last_thr suf) as [[]|]; simpl in G; try discriminate; eauto.
Qed.

(* after reset or reboot at most one further filtering step precedes the next
   initialisation or the exit: any stretch [seg] of the trace after the command that
   contains no EInit / EExit contains at most one EStep *)
Theorem C09_reset_honoured c post seg k suf :
  reachable c -> c_trace c = post ++ seg ++ ECmd k :: suf -> (k = Reset \/ k = Reboot) ->
  no_init_exit seg -> count_steps seg <= 1.
Proof.
  intros R E K N. destruct (good_le1 _ (reachable_suffix _ _ _ R E)) as (G & _).
  destruct (pend_seg seg k suf K N) as (n & P & L). exact (le1_bound _ _ _ P L G).
Qed.

(* the events that [l] carries in front of [tr] *)
Local Ltac strip l tr :=
  match l with
  | tr => constr:(@nil event)
  | ?e :: ?l' => let r := strip l' tr in constr:(e :: r)
  end.

(* ... and it IS honoured by a new epoch: with reset_ up (which is what a pending reset/reboot
   means inside an epoch: next theorem), teardown not requested, the thread left alone with
   run_condition() = true enters initialization_step() again - or, if run_ is down (reboot),
   blocks waiting for run - within 17 own moves, starting at most one further step.  [in_loop] is
   every program point except "blocked in the wait" and the exit path *)
Theorem C09_reset_reaches_new_epoch c :
  c_rst c = true -> c_td c = false -> c_mid c = false -> in_loop (c_pc c) = true ->
  exists c' k, run_until_init 20 c 0 = (c', k)
  /\ run_moves c (repeat (MThread true) k) = Some c' /\ k <= honour_bound
  /\ exists post, c_trace c' = post ++ c_trace c /\ count_steps post <= 1
     /\ ((c_pc c' = PInitBody /\ exists post', post = EInit :: post')
         \/ (c_run c = false /\ c_pc c' = PSleep /\ c_woken c' = false /\ count_init_step post <= 1))
     /\ (c_run c = true -> c_pc c' = PInitBody).
Proof.
  intros H1 H2 H3 L. destruct c as [p r s t n w d tr].
  cbv [c_rst c_td c_mid] in H1, H2, H3. subst s t d. cbv [c_pc] in L.
  destruct p; try discriminate L; destruct r.
  all: eexists; eexists; split; [vm_compute; reflexivity|].
  all: split; [vm_compute; reflexivity|].
  all: split; [unfold honour_bound; repeat constructor|].
  all: cbn [c_trace c_run c_pc c_woken].
  all: match goal with |- exists post, ?a = post ++ ?b /\ _ => let r := strip a b in exists r end.
  all: split; [reflexivity|]; split; [cbn; repeat constructor|].
  all: split; [|intros X; try discriminate X; reflexivity].
  all: first [ left; repeat split; eauto; fail | right; repeat split; cbn; auto ].
Qed.

(* the premise [c_rst c = true] is what a pending reset/reboot means for a thread inside an epoch *)
Theorem C09_pending_reset_is_visible c :
  reachable c -> pend (c_trace c) <> None -> inep (c_pc c) = true -> c_rst c = true.
Proof.
  intros R P E. pose proof (inv_pend _ (reachable_inv _ R)) as IP.
  destruct c as [p r s t n w d tr]. simpl in *.
  destruct (pend tr) as [[|[|k]]|]; [auto | apply IP; auto | contradiction | congruence].
Qed.

(* after reboot, as long as neither run nor teardown is requested, the thread performs at
   most ONE more initialisation-or-step in total (the one it was already committed to) *)
Theorem C09_reboot_waits_for_run c post seg suf :
  reachable c -> c_trace c = post ++ seg ++ ECmd Reboot :: suf ->
  no_run_teardown seg -> count_init_step seg <= 1.
Proof.
  intros R E N. destruct (good_le1 _ (reachable_suffix _ _ _ R E)) as (_ & G & _).
  destruct (rbm_seg seg suf N) as (n & P & L). exact (le1_bound _ _ _ P L G).
Qed.

(* once teardown has been requested at most one further step starts
   (indeed at most one further initialisation-or-step) *)
Theorem C09_teardown_one_step c post seg suf :
  reachable c -> c_trace c = post ++ seg ++ ECmd Teardown :: suf ->
  count_init_step seg <= 1 /\ count_steps seg <= 1.
Proof.
  intros R E. destruct (good_le1 _ (reachable_suffix _ _ _ R E)) as (_ & _ & G).
  destruct (tdm_seg seg suf) as (n & P & L). pose proof (le1_bound _ _ _ P L G).
  pose proof (count_steps_le seg). lia.
Qed.

(* after the thread's final store (EExit): no thread event; run_ is false unless run was
   requested after it; every is_running() that answered true was preceded by such a run *)
Theorem C09_exited_quiescent c post suf :
  reachable c -> c_trace c = post ++ EExit :: suf ->
  (forall e, In e post -> is_thread_event e = false)
  /\ (c_run c = true -> In (ECmd Run) post)
  /\ (forall post2 post1, post = post2 ++ EQRun true :: post1 -> In (ECmd Run) post1).
Proof.
  intros R E. split; [|split].
  - pose proof (reachable_all_good _ R) as A. rewrite E in A. apply (after_exit_silent _ _ A).
  - intros Hr. destruct (rae_seg post suf) as [X|X]; auto.
    pose proof (inv_exit_clears_run _ (reachable_inv _ R)) as I. destruct c as [p r s t n w d tr]; simpl in *.
    subst tr. rewrite (I X) in Hr. discriminate.
  - intros post2 post1 ->. rewrite <- app_assoc in E. simpl in E.
    pose proof (good_head _ _ (reachable_suffix _ _ _ R E)) as G. simpl in G.
    destruct (rae_seg post1 suf) as [X|X]; auto. rewrite X in G. rewrite andb_false_r in G. discriminate.
Qed.

(* the thread ends only because teardown was requested or run_condition() answered false:
   in particular reset() and reboot() never terminate it *)
Theorem C09_exit_only_by_teardown_or_condition c post suf :
  reachable c -> c_trace c = post ++ EExit :: suf ->
  In (ECmd Teardown) suf \/ last_rc suf = Some false.
Proof.
  intros R E. pose proof (good_head _ _ (reachable_suffix _ _ _ R E)) as G. simpl in G.
  apply andb_true_iff in G. destruct G as (_ & G). unfold exit_cause in G.
  destruct (tdm suf) eqn:T.
  - left. destruct (tdm_some_In _ _ T) as (seg & suf' & ->). apply in_elt.
  - right. destruct (last_rc suf) as [[|]|]; auto; discriminate.
Qed.

(* EExit is in the trace exactly when the final store is done: once there it stays the last thread
   event (monitors), and [epoch_ok] has EExit last at PDone and PExited only *)
Theorem C09_exit_recorded_iff_final_store_done c :
  reachable c -> (In EExit (c_trace c) <-> (c_pc c = PDone \/ c_pc c = PExited)).
Proof.
  intros R. pose proof (reachable_all_good _ R) as A.
  pose proof (inv_epoch _ (reachable_inv _ R)) as E.
  destruct c as [p r s t n w d tr]; simpl in *. split.
  - intros X. apply in_split in X. destruct X as (post & suf & ->).
    apply after_exit_silent in A. destruct A as (L & _). rewrite L in E.
    destruct p; simpl in E; auto; try destruct n; simpl in E; intuition congruence.
  - intros [-> | ->]; apply last_thr_exit_In; exact E.
Qed.

(* bounded exit (a): from ANY reachable configuration in which teardown has been
   requested, under ANY continuation [ms] (controller commands, run_condition answers):
   the thread is never disabled before it has exited (if the controller is between the
   two stores of reboot() it can always finish that call), makes at most dist <= 15 moves
   of its own, has exited once it made that many, and starts at most one step *)
Theorem C09_bounded_exit c ms c' :
  reachable c -> c_td c = true -> run_moves c ms = Some c' ->
  (c_pc c' <> PExited -> forall b,
     (c_mid c' = false -> exists c'', step c' (MThread b) = Some c'')
     /\ (c_mid c' = true -> exists c'', step c' MRebootEnd = Some c'' /\ c_mid c'' = false))
  /\ thread_moves ms <= dist (c_pc c) /\ dist (c_pc c) <= exit_bound
  /\ (dist (c_pc c) <= thread_moves ms -> c_pc c' = PExited)
  /\ (exists post, c_trace c' = post ++ c_trace c /\ count_steps post <= 1).
Proof.
  intros R T H. destruct (td_run _ _ _ T H) as (T' & D).
  pose proof (run_moves_reachable _ _ _ R H) as R'.
  split.
  { intros N b. split; [intros M; apply thread_enabled; auto|].
    destruct c' as [p r s t n w d tr]; simpl. intros ->. eauto. }
  split; [lia|]. split; [apply dist_bound|]. split; [intros; apply dist_0; lia|].
  destruct (run_trace_ext _ _ _ H) as (post & E). exists post. split; auto.
  destruct (td_recorded _ R T) as (seg & suf & Etr).
  assert (E2 : c_trace c' = [] ++ (post ++ seg) ++ ECmd Teardown :: suf).
  { rewrite E, Etr, app_assoc. reflexivity. }
  destruct (C09_teardown_one_step _ _ _ _ R' E2) as (_ & L).
  rewrite count_steps_app in L. lia.
Qed.

(* bounded exit (b): the thread is past the wait (distb defined) and run_condition
   answers false from now on: at most 10 own moves, at most one step, never disabled *)
Theorem C09_bounded_exit_run_condition_false c ms c' d :
  distb (c_pc c) = Some d -> forallb rc_false ms = true -> run_moves c ms = Some c' ->
  (c_pc c' <> PExited -> exists c'', step c' (MThread false) = Some c'')
  /\ thread_moves ms <= d /\ d <= exit_bound_rc
  /\ (d <= thread_moves ms -> c_pc c' = PExited)
  /\ (exists post, c_trace c' = post ++ c_trace c /\ count_steps post <= 1).
Proof.
  intros D F H.
  destruct (rcf_run _ _ _ _ D F H) as ((d' & D' & L) & S). destruct (run_trace_ext _ _ _ H) as (post & E).
  split; [intros N; eapply rcf_enabled; eauto|].
  split; [lia|]. split; [exact (distb_bound _ _ D)|].
  split; [intros X; apply distb_0; rewrite D'; f_equal; lia|].
  exists post. split; auto. rewrite E, count_steps_app in S.
  assert (may_step (c_pc c) <= 1) by (destruct (c_pc c); simpl; lia). lia.
Qed.

(* bounded exit (b'): at ANY program point, if run_ is up and the continuation contains no
   reboot() and only false run_condition answers: exit within dist2 <= 13 own moves, never
   disabled, no step from the points where (b) does not apply, at most one more initialisation *)
Theorem C09_bounded_exit_run_condition_false_running c ms c' :
  reachable c -> c_run c = true -> c_mid c = false ->
  forallb quiet_rc ms = true -> run_moves c ms = Some c' ->
  (c_pc c' <> PExited -> exists c'', step c' (MThread false) = Some c'')
  /\ thread_moves ms <= dist2 (c_pc c) /\ dist2 (c_pc c) <= exit_bound_running
  /\ (dist2 (c_pc c) <= thread_moves ms -> c_pc c' = PExited)
  /\ exists post, c_trace c' = post ++ c_trace c
       /\ count_steps post <= may_step (c_pc c) /\ count_inits post <= may_init (c_pc c).
Proof.
  intros R Hr Hm F H.
  assert (RD : running_or_done c) by (split; [auto | rewrite Hr; destruct (c_pc c); auto]).
  destruct (rcr_run _ _ _ RD F H) as (RD' & L & S & N). destruct (run_trace_ext _ _ _ H) as (post & E).
  rewrite E, count_steps_app in S. rewrite E, count_inits_app in N.
  split.
  { intros X. apply thread_enabled; auto; [eapply run_moves_reachable; eauto | apply RD' |].
    destruct RD' as (_ & Rn). intros P. rewrite P in Rn. auto. }
  split; [lia|]. split; [apply dist2_bound|].
  split; [intros X; apply dist2_0; lia|].
  exists post. repeat split; auto; lia.
Qed.

(* ... and with run_ DOWN the carve-out is genuine: the thread parks in the wait and, without
   run()/reboot()/teardown() (or a spurious wake-up), never moves again; wait() is never enabled *)
Theorem C09_bounded_exit_not_running_refuted :
  reachable init /\ c_run init = false /\ c_td init = false /\ distb (c_pc init) = None
  /\ run_moves init (repeat (MThread false) 4) = Some asleep0
  /\ forall ms c'', forallb no_wake ms = true -> run_moves asleep0 ms = Some c'' ->
       c_pc c'' <> PExited /\ (forall b, step c'' (MThread b) = None) /\ step c'' (MCmd Wait) = None.
Proof.
  split; [constructor|]. repeat (split; [reflexivity|]).
  intros ms c'' F H.
  assert (P : parked c'') by (apply (parked_forever ms asleep0); auto; repeat split).
  split; [destruct P as (X & _); rewrite X; discriminate | apply parked_disabled; auto].
Qed.

(* the answers of step_number() and is_running() against the history *)
Theorem C09_query_answers c post e suf :
  reachable c -> c_trace c = post ++ e :: suf ->
  match e with
  | EQStep k => qstep_ok k suf = true
  | EQRun false => can_be_false suf = true
  | EQRun true => runreq suf = true /\ rae suf <> Some false
  | _ => True
  end.
Proof.
  intros R E. pose proof (good_head _ _ (reachable_suffix _ _ _ R E)) as G.
  destruct e as [| | | |[|]| |]; auto.
  apply andb_true_iff in G. destruct G as (G1 & G2). split; auto.
  intros X. rewrite X in G2. discriminate.
Qed.

(* commands issued before boot(): boot() only creates the thread, so a command issued before it acts
   on the same flags as one issued after it while the thread has not moved yet.  Every valuation of
   (run_, reset_, teardown_) is reachable with the thread still at its first point *)
Theorem C09_preboot_valuations_reachable r s t :
  exists ks c, run_moves init ks = Some c /\ c_pc c = PTop /\ c_mid c = false
               /\ c_run c = r /\ c_rst c = s /\ c_td c = t
               /\ forallb (fun m => match m with MCmd _ | MRebootEnd => true | _ => false end) ks = true.
Proof.
  exists ((if s then [MCmd Reset] else []) ++ (if r then [MCmd Run] else []) ++ (if t then [MCmd Teardown] else [])).
  destruct r, s, t; eexists; vm_compute; repeat split; reflexivity.
Qed.

(* the executable step function generates exactly [reachable] *)
Theorem C09_step_generates_reachable c :
  reachable c <-> exists ms, run_moves init ms = Some c.
Proof.
  split.
  - induction 1 as [|c m c' R (ms & IH) H].
    + exists []. reflexivity.
    + exists (ms ++ [m]). rewrite run_moves_app, IH. cbn [run_moves]. unfold step. rewrite H. reflexivity.
  - intros (ms & H). eapply run_moves_reachable; eauto. constructor.
Qed.

(* ... and agrees, move by move, with the rule-per-action relational presentation *)
Theorem C09_relational_semantics_agree c m c' :
  (sstep c m c' <-> step c m = Some c') /\ (reachable_rel c <-> reachable c).
Proof. exact (conj (sstep_iff_step c m c') (reachable_rel_iff c)). Qed.

(* the word semantics run against the library stays inside [reachable] *)
Theorem C09_schedule_words_reachable w :
  reachable (run_word init w) /\ reachable (finish (run_word init w)).
Proof. split; [|apply finish_reachable]; apply run_word_reachable; constructor. Qed.

(* the end-of-word protocol (teardown wherever the word stopped, thread released with
   run_condition = true, wait) always ends with the thread exited and wait() enabled *)
Theorem C09_every_word_ends_exited w :
  c_pc (finish (run_word init w)) = PExited
  /\ exists tr, c_trace (finish (run_word init w)) = ECmd Wait :: tr.
Proof. apply finish_exits; [apply run_word_reachable; constructor | apply run_word_ws; split; reflexivity]. Qed.

(* the extracted trace monitors hold on every prefix of every reachable history *)
Theorem C09_monitors_hold c : reachable c -> all_good (c_trace c) = true.
Proof. exact (reachable_all_good c). Qed.

(* regression witness for the transcription before commit 5346d85 (plain store,
   no notify): teardown requested, thread blocked for ever, wait never enabled *)
Theorem C09_teardown_hang_refuted :
  exists c, reachable_old c /\ c_td c = true /\ c_pc c <> PExited
    /\ forall ms c', forallb (fun m => negb (wakes m)) ms = true -> run_moves_old c ms = Some c' ->
         c_pc c' <> PExited /\ (forall b, step_old c' (MThread b) = None) /\ step_old c' (MCmd Wait) = None.
Proof. exact teardown_hang. Qed.

(* witness for the order of the two stores of reboot() (checked against the source text by
   props/C09.py): with run_ = false BEFORE reset_ = true the thread can terminate on a reboot
   although teardown was never requested and run_condition() last answered true *)
Theorem C09_reboot_store_order_refuted :
  exists c, run_moves_swapped init swapped_schedule = Some c
    /\ c_trace c = [EExit; ECmd Reboot; ERc true; ERc false; EInit; ECmd Run]
    /\ c_td c = false.
Proof. exact reboot_store_order_matters. Qed.

(* non-vacuity: a concrete schedule — run; two steps; reset inside step 1; the epoch is
   re-initialised; reboot inside the next step; the thread goes back to sleep; teardown *)
Definition ex_word : list token :=
  [KCmd Run; TT; TT; TT; TT; TT; TT; TT; KCmd Reset; TT; TT; TT; TT; TT; TT; TT; TT; TT;
   KCmd IsRunning; KCmd Reboot; TT; TT; TT; TT; TT; TT; KCmd StepNumber].

Example C09_concrete_schedule :
  history (run_word init ex_word) =
    [ECmd Run; EInit; ERc true; EStep 0; ERc true; EStep 1; ECmd Reset; ERc true; ERc true; EInit;
     ERc true; EStep 0; EQRun true; ECmd Reboot; ERc true; ERc true; EQStep 0]
  /\ c_pc (run_word init ex_word) = PSleep
  /\ history (finish (run_word init ex_word)) =
    history (run_word init ex_word) ++ [ECmd Teardown; EInit; ERc true; ERc true; EExit; ECmd Wait]
  /\ all_good (c_trace (finish (run_word init ex_word))) = true.
Proof. vm_compute. repeat split; reflexivity. Qed.

(* reboot() is two stores: the configuration between them is reachable, and a thread that
   evaluates its unlocked loop condition there (run_ still true, reset_ already true) goes on *)
Example C09_reboot_between_stores :
  exists c, run_moves init [MCmd Run; MCmd Reboot] = Some c
            /\ c_mid c = true /\ c_run c = true /\ c_rst c = true
            /\ step c (MCmd Run) = None /\ step c (MCmd Teardown) = None.
Proof. eexists. vm_compute. repeat split; reflexivity. Qed.

(* the premises of the bounded-exit theorems are satisfiable: teardown requested while a
   step is in progress (13 configurations deep), and run_condition turning false there *)
Example C09_bounded_exit_premises :
  let c := run_word init [KCmd Run; TT; TT; TT; TT; TT; KCmd Teardown] in
  reachable c /\ c_td c = true /\ c_pc c = PStepBody /\ dist (c_pc c) = 11 /\ distb (c_pc c) = Some 7.
Proof. split; [apply run_word_reachable; constructor | vm_compute; repeat split; reflexivity]. Qed.

Print Assumptions C09_no_step_before_run.
Print Assumptions C09_epochs.
Print Assumptions C09_reset_honoured.
Print Assumptions C09_reset_reaches_new_epoch.
Print Assumptions C09_pending_reset_is_visible.
Print Assumptions C09_reboot_waits_for_run.
Print Assumptions C09_teardown_one_step.
Print Assumptions C09_exited_quiescent.
Print Assumptions C09_exit_only_by_teardown_or_condition.
Print Assumptions C09_exit_recorded_iff_final_store_done.
Print Assumptions C09_bounded_exit.
Print Assumptions C09_bounded_exit_run_condition_false.
Print Assumptions C09_bounded_exit_run_condition_false_running.
Print Assumptions C09_bounded_exit_not_running_refuted.
Print Assumptions C09_query_answers.
Print Assumptions C09_preboot_valuations_reachable.
Print Assumptions C09_step_generates_reachable.
Print Assumptions C09_relational_semantics_agree.
Print Assumptions C09_schedule_words_reachable.
Print Assumptions C09_every_word_ends_exited.
Print Assumptions C09_monitors_hold.
Print Assumptions C09_teardown_hang_refuted.
Print Assumptions C09_reboot_store_order_refuted.
