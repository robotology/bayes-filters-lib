(* Properties_C07.v — property C07: resampling is a faithful low-variance
   selection with uniform output weights.  The selection theorems instantiate
   C07_Proofs.parent_interval / count_bound (any cumulative list the loop
   `tracks`) at the exact weights or at a clamped rounded list.  `ROpsE e` is
   the real-number instance of the scalar interface whose exponential is an
   arbitrary non-negative function e (so that weights that are exactly zero,
   i.e. log-weights of -infinity, are covered); `ROps = ROpsE exp`.  The
   selection statements hold for every N >= 1, every weight vector
   w_i = e(lw_i) >= 0 of sum 1 and every offset 0 < u1 < 1/N.  The statements
   with `(S : SOps)` (lengths, copies, order and range of the parents) hold at
   every arithmetic; C07_neff_* and C07_lse_* are about the utilities neff and
   log_sum_exp; C07p_* are about ResamplingWithPrior. *)
Require Import Reals ZArith QArith List Permutation Lra Lia.
Require Import BFL.Ops BFL.ListOps BFL.C07_Model BFL.C07_ROps BFL.C07_Proofs BFL.C07_Partition BFL.C07_Rounding.
Import ListNotations.
Local Open Scope R_scope.

(* the structure of the carried-pointer loop, at every arithmetic (also IEEE doubles): the six
   theorems with (S : SOps) that follow *)

(* the inner while loop always ends because its guard fails; fuel N is never exhausted *)
Theorem C07_advance_fuel (S : SOps) c N u idx :
  keep_going S c N u (advance S N c N u idx) = false /\
  forall k, advance S (N + k) c N u idx = advance S N c N u idx.
Proof. split; [apply advance_fuel | intro k; apply advance_more_fuel; lia]. Qed.

(* as many outputs, weights and parents as inputs *)
Theorem C07_length (S : SOps) {P} (ps : list P) lw u1 : ps <> [] ->
  let '(out, w, par) := @resample S P ps lw u1 in
  length out = length lw /\ length w = length lw /\ length par = length lw.
Proof. exact (resample_lengths S ps lw u1). Qed.

(* every output is an exact copy (state, mean, covariance = the payload) of the parent it reports *)
Theorem C07_copy (S : SOps) {P} (ps : list P) lw u1 d j :
  ps <> [] -> (j < length lw)%nat -> length ps = length lw ->
  let '(out, w, par) := @resample S P ps lw u1 in
  nth j out d = nth (nth j par 0%nat) ps d.
Proof. exact (resample_copy S ps lw u1 d j). Qed.

(* the same per member, for the loop body written as the three assignments of Resampling.cpp:88-90
   (resample3 is what the correspondence check runs for the plain variant; it equals resample on particle records) *)
Theorem C07_copy_members (S : SOps) {A B C} (ps : list (particle A B C)) lw u1 d j :
  ps <> [] -> (j < length lw)%nat -> length ps = length lw ->
  let '(out, w, par) := @resample3 S A B C ps lw u1 in
  p_state (nth j out d) = p_state (nth (nth j par 0%nat) ps d) /\
  p_mean (nth j out d) = p_mean (nth (nth j par 0%nat) ps d) /\
  p_cov (nth j out d) = p_cov (nth (nth j par 0%nat) ps d).
Proof.
  intros H1 H2 H3. rewrite (resample3_eq S ps lw u1). pose proof (resample_copy S ps lw u1 d j H1 H2 H3) as C0.
  destruct (@resample S _ ps lw u1) as [[out w] par]. rewrite C0. auto.
Qed.

Theorem C07_parents_sorted (S : SOps) lw u1 a b : (a <= b < length lw)%nat ->
  (nth a (res_parents S lw u1) 0 <= nth b (res_parents S lw u1) 0)%nat.
Proof. apply res_loop_mono. Qed.

Theorem C07_parents_in_range (S : SOps) lw u1 j : (j < length lw)%nat ->
  (nth j (res_parents S lw u1) 0 < length lw)%nat.
Proof. apply res_parents_lt. Qed.

Theorem C07_uniform_weights {P} (ps : list P) (lw : list R) u1 :
  snd (fst (@resample ROps P ps lw u1)) = repeat (- ln (INR (length lw))) (length lw).
Proof. rewrite resample_uniform, (log_uniform_R exp). reflexivity. Qed.

(* the parent of output t is the index p with c_{p-1} < u_t <= c_p (c = cumulative weights) *)
Theorem C07_selection_interval (e : R -> R) (lw : list R) (u1 : R) :
  (forall x, 0 <= e x) -> (0 < length lw)%nat -> sumR (map e lw) = 1 -> 0 < u1 -> u1 * INR (length lw) < 1 ->
  forall t, (t < length lw)%nat ->
  let p := nth t (res_parents (ROpsE e) lw u1) 0%nat in
  (p < length lw)%nat /\
  psum (map e lw) p < u1 + INR t / INR (length lw) <= psum (map e lw) (Datatypes.S p).
Proof.
  intros He HN Hs H0 H1. exact (parent_interval e lw (csw (ROpsE e) lw) u1 _ HN H0 H1 (tracks_csw e lw He Hs)).
Qed.

(* every particle is replicated a number of times that differs from N w_i by less than one *)
Theorem C07_count_bound (e : R -> R) (lw : list R) (u1 : R) :
  (forall x, 0 <= e x) -> (0 < length lw)%nat -> sumR (map e lw) = 1 -> 0 < u1 -> u1 * INR (length lw) < 1 ->
  forall i, (i < length lw)%nat ->
  Rabs (INR (count_occ Nat.eq_dec (res_parents (ROpsE e) lw u1) i) - INR (length lw) * e (nth i lw 0)) < 1.
Proof.
  intros He HN Hs H0 H1 i Hi.
  replace (e (nth i lw 0)) with (psum (map e lw) (Datatypes.S i) - psum (map e lw) i)
    by (rewrite psum_map_step by exact Hi; ring).
  exact (count_bound e lw (csw (ROpsE e) lw) u1 _ HN H0 H1 (tracks_csw e lw He Hs) i Hi).
Qed.

(* the same for the library's weights w_i = exp(lw_i) *)
Corollary C07_count_bound_exp (lw : list R) (u1 : R) :
  (0 < length lw)%nat -> sumR (map exp lw) = 1 -> 0 < u1 -> u1 * INR (length lw) < 1 ->
  forall i, (i < length lw)%nat ->
  Rabs (INR (count_occ Nat.eq_dec (res_parents ROps lw u1) i) - INR (length lw) * exp (nth i lw 0)) < 1.
Proof. exact (C07_count_bound exp lw u1 (fun x => Rlt_le 0 (exp x) (exp_pos x))). Qed.

Theorem C07_zero_weight_not_selected (e : R -> R) (lw : list R) (u1 : R) :
  (forall x, 0 <= e x) -> (0 < length lw)%nat -> sumR (map e lw) = 1 -> 0 < u1 -> u1 * INR (length lw) < 1 ->
  forall i, (i < length lw)%nat -> e (nth i lw 0) = 0 -> ~ In i (res_parents (ROpsE e) lw u1).
Proof.
  intros He HN Hs H0 H1 i Hi Hz.
  apply (empty_not_selected e lw (csw (ROpsE e) lw) u1 _ HN H0 H1 (tracks_csw e lw He Hs) i).
  rewrite psum_map_step, Hz by exact Hi. apply Rplus_0_r.
Qed.

Theorem C07_heavy_selected (e : R -> R) (lw : list R) (u1 : R) :
  (forall x, 0 <= e x) -> (0 < length lw)%nat -> sumR (map e lw) = 1 -> 0 < u1 -> u1 * INR (length lw) < 1 ->
  forall i, (i < length lw)%nat -> / INR (length lw) <= e (nth i lw 0) -> In i (res_parents (ROpsE e) lw u1).
Proof.
  intros He HN Hs H0 H1 i Hi Hw.
  apply (wide_selected e lw (csw (ROpsE e) lw) u1 _ HN H0 H1 (tracks_csw e lw He Hs) i Hi).
  rewrite psum_map_step by exact Hi. lra.
Qed.

(* boundary of the premise 0 < u1: the draw range is [0, 1/N) but the comparison u_j > csw pairs
   with intervals (a, b]; for u1 = 0, N = 2, w = (1/2, 1/2) the counts are (2, 0) *)
Theorem C07_u1_zero_boundary_refuted :
  exists (lw : list R) (u1 : R),
    length lw = 2%nat /\ sumR (map exp lw) = 1 /\ u1 = 0 /\ u1 * INR (length lw) < 1 /\
    res_parents ROps lw u1 = [0; 0]%nat /\
    ~ Rabs (INR (count_occ Nat.eq_dec (res_parents ROps lw u1) 0%nat) - INR (length lw) * exp (nth 0 lw 0)) < 1.
Proof.
  exists [ln (/ 2); ln (/ 2)], 0.
  assert (E : exp (ln (/ 2)) = / 2) by (apply exp_ln; lra).
  assert (P : res_parents ROps [ln (/ 2); ln (/ 2)] 0 = [0; 0]%nat).
  { unfold res_parents. change (length [ln (/ 2); ln (/ 2)]) with 2%nat.
    change (csw ROps [ln (/ 2); ln (/ 2)]) with [exp (ln (/ 2)); exp (ln (/ 2)) + exp (ln (/ 2))].
    rewrite E. cbn [res_loop].
    (* both comb points, 0 and 1/2, are <= the first cumulative weight 1/2 *)
    rewrite (advance_stay ROps 2 _ 2 (comb ROps 2 0 0) 0), (advance_stay ROps 2 _ 2 (comb ROps 2 0 1) 0)
      by (apply Rltb_false; rewrite (comb_R exp); simpl; lra).
    reflexivity. }
  split; [reflexivity|]. split; [simpl; rewrite E; lra|]. split; [reflexivity|]. split; [simpl; lra|].
  split; [exact P|]. rewrite P. simpl. rewrite E. replace (1 + 1 - (1 + 1) * / 2) with 1 by lra. rewrite Rabs_R1. lra.
Qed.

Theorem C07_neff_formula (e : R -> R) (lw : list R) :
  neff (ROpsE e) lw = 1 / sumR (map (fun x => e x * e x) lw).
Proof. exact (neff_formula e lw). Qed.

Theorem C07_neff_range (e : R -> R) (lw : list R) :
  (forall x, 0 <= e x) -> lw <> [] -> sumR (map e lw) = 1 -> 1 <= neff (ROpsE e) lw <= INR (length lw).
Proof.
  intros e_nonneg Hne Hs. rewrite neff_formula.
  replace (map (fun x => e x * e x) lw) with (map (fun x => x * x) (map e lw)) by (rewrite map_map; reflexivity).
  set (w := map e lw) in *.
  assert (Hw : w <> []) by (unfold w; destruct lw; simpl; congruence).
  pose proof (sumsq_ge_inv w Hw Hs) as H1. rewrite (map_length e lw : length w = length lw) in H1.
  pose proof (sumsq_le_sq w (map_all e (fun y => 0 <= y) lw e_nonneg)) as H2. rewrite Hs, Rmult_1_r in H2.
  assert (HN : 0 < INR (length lw)) by (apply lt_0_INR; destruct lw; [congruence | simpl; lia]).
  pose proof (Rinv_0_lt_compat _ HN).
  (* 1/N <= Q <= 1 gives 1 <= 1/Q <= N *)
  unfold Rdiv. rewrite Rmult_1_l. split.
  - rewrite <- Rinv_1. apply Rinv_le_contravar; lra.
  - rewrite <- (Rinv_inv (INR (length lw))). apply Rinv_le_contravar; lra.
Qed.

(* utils::log_sum_exp = ln sum exp; subtracting it normalises *)
Theorem C07_lse_spec (l : list R) : l <> [] -> lse ROps l = ln (sumR (map exp l)).
Proof. exact (lse_spec l). Qed.

Theorem C07_lse_normalises (l : list R) : l <> [] ->
  sumR (map exp (lse_normalise ROps l)) = 1 /\ lse ROps (lse_normalise ROps l) = 0.
Proof. exact (fun H => conj (lse_normalise_sum l H) (lse_normalised_zero l H)). Qed.

(* ---- "up to rounding of the cumulative weights" ----
   The loop of Resampling::resample run on ANY list c of cumulative weights (in particular the doubles the running sum
   csw(i) = csw(i-1) + exp(w(i)) produces, read as reals), only required to be non-negative and non-decreasing.
   Its last entry is free: it may fall short of the last comb point (then only the guard idx < N-1 stops the pointer
   and the surplus goes to the last particle) or exceed 1.  clamp c = c with every entry cut at 1 and the last set to 1.
   Particle i is selected a number of times that differs from N (clamp c_i - clamp c_{i-1}) by less than one. *)
Theorem C07_count_bound_cumulative (e : R -> R) (c : list R) (u1 : R) :
  let N := length c in
  (0 < N)%nat -> chain 0 c -> 0 < u1 -> u1 * INR N < 1 ->
  forall i, (i < N)%nat ->
  Rabs (INR (count_occ Nat.eq_dec (res_loop (ROpsE e) c N u1 N 0 0) i)
        - INR N * (nth i (clamp c) 0 - match i with O => 0 | Datatypes.S i' => nth i' (clamp c) 0 end)) < 1.
Proof.
  intros N Npos Hch Hu0 Hu1. exact (count_bound e c c u1 _ Npos Hu0 Hu1 (tracks_clamp c Npos Hch)).
Qed.

(* hence: if every computed cumulative weight is within delta of the exact one (weights w >= 0 of sum 1), every
   particle is replicated a number of times within 1 + 2 N delta of N w_i  (delta = 0: C07_count_bound) *)
Theorem C07_count_bound_rounded (e : R -> R) (w c : list R) (u1 delta : R) :
  let N := length c in
  (0 < N)%nat -> length w = N -> (forall x, In x w -> 0 <= x) -> sumR w = 1 ->
  chain 0 c -> 0 < u1 -> u1 * INR N < 1 ->
  (forall i, (i < N)%nat -> Rabs (nth i c 0 - psum w (Datatypes.S i)) <= delta) ->
  forall i, (i < N)%nat ->
  Rabs (INR (count_occ Nat.eq_dec (res_loop (ROpsE e) c N u1 N 0 0) i) - INR N * nth i w 0) < 1 + 2 * INR N * delta.
Proof.
  intros N Npos Lw Wn Ws Hch Hu0 Hu1 Hd i Hi.
  (* the bounds 0, clamp c are within delta of the exact partial sums psum w 0 .. psum w N *)
  assert (Hcl : forall t, (t <= N)%nat ->
            Rabs (match t with O => 0 | Datatypes.S t' => nth t' (clamp c) 0 end - psum w t) <= delta).
  { intros [|t] Ht.
    - rewrite Rminus_diag_eq, Rabs_R0 by reflexivity. eapply Rle_trans; [apply Rabs_pos | exact (Hd 0%nat Npos)].
    - apply (clamp_close c (fun t => psum w (Datatypes.S t))); [exact Ht | | | exact (Hd t Ht)].
      + rewrite <- Ws, <- (psum_all w (length w)) by lia. apply psum_mono; [exact Wn | lia].
      + fold N. replace (Datatypes.S (N - 1)) with (length w) by lia. rewrite psum_all by lia. exact Ws. }
  replace (nth i w 0) with (psum w (Datatypes.S i) - psum w i) by (rewrite psum_step; ring).
  exact (count_bound_near e c c u1 _ Npos Hu0 Hu1 (tracks_clamp c Npos Hch) (psum w) delta i Hi
           (Hcl i ltac:(lia)) (Hcl (Datatypes.S i) Hi)).
Qed.

(* num_prior_particles = floor(N ratio); at least one particle is resampled.  This is the floor of the REAL product;
   the library (and the extracted model run on doubles) floors the rounded DOUBLE product: N = 10, ratio = 0.7 gives
   10 * 0.7 = 7.000000000000001 -> 7 in doubles although the double nearest to 0.7 is below 7/10 (exact floor 6).
   Both sides of the correspondence agree on 7 (generated case class ratio 0.7, N 10). *)
Theorem C07p_num_prior (e : R -> R) N (ratio : R) : (0 < N)%nat -> 0 <= ratio < 1 ->
  INR (num_prior (ROpsE e) N ratio) <= INR N * ratio < INR (num_prior (ROpsE e) N ratio) + 1
  /\ (num_prior (ROpsE e) N ratio < N)%nat.
Proof. exact (num_prior_spec e N ratio). Qed.

(* the sorted indices are a permutation of 0..N-1 and the floor(ratio N) discarded particles
   (the first ones) all have weight <= every kept one *)
Theorem C07p_partition (e : R -> R) (lw : list R) (ratio : R) :
  let N := length lw in
  let np := num_prior (ROpsE e) N ratio in
  let srt := sort_idx (ROpsE e) (map e lw) in
  Permutation srt (seq 0 N) /\
  forall a b, (a < np)%nat -> (np <= b < N)%nat ->
    e (nth (nth a srt 0%nat) lw 0) <= e (nth (nth b srt 0%nat) lw 0).
Proof.
  intros N np srt. split.
  - unfold srt, N. rewrite <- (map_length e lw). apply sort_idx_perm.
  - intros a b Ha Hb. apply Rleb_true. apply (srt_le (ROpsE e) (Rleb_total e) (Rleb_trans e) lw).
    change (a <= b < N)%nat. lia.
Qed.

(* parents: -1 on the left; on the right the original index of a kept particle *)
Theorem C07p_parents (e : R -> R) {P} (init : nat -> list P) (ratio : R) (ps : list P) (lw : list R) (u1 : R) :
  length lw = length ps -> (0 < length ps)%nat ->
  length (init (num_prior (ROpsE e) (length ps) ratio)) = num_prior (ROpsE e) (length ps) ratio ->
  let N := length ps in
  let np := num_prior (ROpsE e) N ratio in
  let srt := sort_idx (ROpsE e) (map e lw) in
  let par := snd (@resample_prior (ROpsE e) P init ratio ps lw u1) in
  length par = N /\
  (forall j, (j < np)%nat -> nth j par 0%Z = (-1)%Z) /\
  (forall j, (np <= j < N)%nat ->
     exists b, (np <= b < N)%nat /\ nth j par 0%Z = Z.of_nat (nth b srt 0%nat) /\ (nth b srt 0 < N)%nat).
Proof.
  intros Hlen Npos Hinit. cbv zeta. split; [|split].
  - apply (prior_reports_N (ROpsE e) init ratio ps lw u1 Hlen Npos Hinit).
  - intros j Hj. apply prior_parents_left; auto.
  - intros j Hj.
    destruct (prior_parents_right (ROpsE e) init ratio ps lw u1 Hlen (j - num_prior (ROpsE e) (length ps) ratio)) as [E [R1 R2]]; [lia|].
    replace (num_prior (ROpsE e) (length ps) ratio + (j - num_prior (ROpsE e) (length ps) ratio))%nat with j in E by lia.
    eexists. split; [|split; [exact E | exact R2]]. lia.
Qed.

(* every resampled particle is an exact copy of the input particle its parent names
   (false before /repo commit d9796b9: C07_Regress.C07p_old_parent_is_source_refuted) *)
Theorem C07p_copy (S : SOps) {P} (init : nat -> list P) ratio (ps : list P) lw u1 :
  length lw = length ps -> (0 < length ps)%nat ->
  length (init (num_prior S (length ps) ratio)) = num_prior S (length ps) ratio ->
  forall j d, (j < length ps - num_prior S (length ps) ratio)%nat ->
  nth (num_prior S (length ps) ratio + j) (pparts (fst (@resample_prior S P init ratio ps lw u1))) d
  = nth (Z.to_nat (nth (num_prior S (length ps) ratio + j) (snd (@resample_prior S P init ratio ps lw u1)) 0%Z)) ps d.
Proof. exact (prior_copy S init ratio ps lw u1). Qed.

(* ... member by member when the particles are (state, mean, covariance) records *)
Theorem C07p_copy_members (S : SOps) {A B C} (init : nat -> list (particle A B C)) ratio (ps : list (particle A B C)) lw u1 :
  length lw = length ps -> (0 < length ps)%nat ->
  length (init (num_prior S (length ps) ratio)) = num_prior S (length ps) ratio ->
  forall j d, (j < length ps - num_prior S (length ps) ratio)%nat ->
  let o := nth (num_prior S (length ps) ratio + j) (pparts (fst (@resample_prior S _ init ratio ps lw u1))) d in
  let p := nth (Z.to_nat (nth (num_prior S (length ps) ratio + j) (snd (@resample_prior S _ init ratio ps lw u1)) 0%Z)) ps d in
  p_state o = p_state p /\ p_mean o = p_mean p /\ p_cov o = p_cov p.
Proof.
  intros H1 H2 H3 j d Hj o p. unfold o, p. rewrite (prior_copy S init ratio ps lw u1 H1 H2 H3 j d Hj). auto.
Qed.

(* the reported parent of resampled particle j, exactly: the original index found at position
   num_prior + (position selected among the kept ones) of the sorted order *)
Theorem C07p_parent_exact (S : SOps) {P} (init : nat -> list P) ratio (ps : list P) lw u1 :
  length lw = length ps -> (0 < length ps)%nat ->
  length (init (num_prior S (length ps) ratio)) = num_prior S (length ps) ratio ->
  forall j, (j < length ps - num_prior S (length ps) ratio)%nat ->
  nth (num_prior S (length ps) ratio + j) (snd (@resample_prior S P init ratio ps lw u1)) 0%Z
  = Z.of_nat (nth (num_prior S (length ps) ratio + nth j (rpar S ratio ps lw u1) 0%nat) (sort_idx S (map (sexp S) lw)) 0%nat)
  /\ (num_prior S (length ps) ratio + nth j (rpar S ratio ps lw u1) 0 < length ps)%nat
  /\ (nth (num_prior S (length ps) ratio + nth j (rpar S ratio ps lw u1) 0%nat) (sort_idx S (map (sexp S) lw)) 0 < length ps)%nat.
Proof. intros Hlen _ _. exact (prior_parents_right S init ratio ps lw u1 Hlen). Qed.

(* the first num_prior particles of the returned set are exactly what the initialiser produced *)
Theorem C07p_fresh_left (S : SOps) {P} (init : nat -> list P) ratio (ps : list P) lw u1 :
  length (init (num_prior S (length ps) ratio)) = num_prior S (length ps) ratio ->
  firstn (num_prior S (length ps) ratio) (pparts (fst (@resample_prior S P init ratio ps lw u1)))
  = init (num_prior S (length ps) ratio).
Proof.
  intro Hinit. rewrite resample_prior_eq. cbn [fst pparts].
  rewrite firstn_app, Hinit, Nat.sub_diag, firstn_all2 by (rewrite Hinit; lia). apply app_nil_r.
Qed.

Theorem C07p_uniform (S : SOps) {P} (init : nat -> list P) ratio (ps : list P) lw u1 :
  length lw = length ps -> (0 < length ps)%nat ->
  length (init (num_prior S (length ps) ratio)) = num_prior S (length ps) ratio ->
  plw (fst (@resample_prior S P init ratio ps lw u1)) = repeat (log_uniform S (length ps)) (length ps).
Proof.
  intros Hlen Npos Hinit. rewrite resample_prior_eq. cbn [fst snd pcount pparts plw]. rewrite map_const_repeat. f_equal.
  rewrite app_length, repeat_length, map_length, (rpar_length S ratio ps lw u1 Hlen). pose proof (num_prior_le S (length ps) ratio). lia.
Qed.

(* the returned set reports N components and stores N particles, N weights, N parents
   (false before /repo commit 7c71916, where operator+= left the component count of the left operand) *)
Theorem C07p_reports_N (S : SOps) {P} (init : nat -> list P) ratio (ps : list P) lw u1 :
  length lw = length ps -> (0 < length ps)%nat ->
  length (init (num_prior S (length ps) ratio)) = num_prior S (length ps) ratio ->
  let r := fst (@resample_prior S P init ratio ps lw u1) in
  pcount r = length ps /\ length (pparts r) = length ps /\ length (plw r) = length ps /\
  length (snd (@resample_prior S P init ratio ps lw u1)) = length ps.
Proof. exact (prior_reports_N S init ratio ps lw u1). Qed.

(* the resampled part obeys the count bound with respect to the renormalised kept weights
   (tmp_lw = kept log-weights minus their log-sum-exp; rpar = positions selected among the kept ones) *)
Theorem C07p_count_bound {P} (ratio : R) (ps : list P) (lw : list R) (u1 : R) :
  let tl : list R := tmp_lw ROps ratio ps lw in
  (0 < length tl)%nat -> 0 < u1 -> u1 * INR (length tl) < 1 ->
  (sumR (map exp tl) = 1) /\
  (forall i, (i < length tl)%nat ->
   Rabs (INR (count_occ Nat.eq_dec (rpar ROps ratio ps lw u1) i) - INR (length tl) * exp (nth i tl 0)) < 1).
Proof.
  intros tl Hpos Hu0 Hu1.
  assert (Hs : sumR (map exp tl) = 1).
  { apply lse_normalise_sum, pos_length_nonempty. unfold tl, tmp_lw, lse_normalise in Hpos. rewrite map_length in Hpos. exact Hpos. }
  split; [exact Hs|]. exact (C07_count_bound_exp tl u1 Hpos Hs Hu0 Hu1).
Qed.

(* ---- the partition of the prior variant as a relation (exact ties at the split included) ----
   replaced_set = the first floor(ratio N) indices of the model's sorted order (never copied: replaced by prior draws),
   survivor_set = the remaining ones (tmp_particles, resampled); both are built from the functions the extracted
   model runs (sort_idx, num_prior). *)

(* for EVERY input: floor(ratio N) particles are replaced; replaced + survivors enumerate 0..N-1 without duplicates;
   every replaced particle's weight is <= every survivor's weight; hence a particle strictly heavier than some
   survivor is a survivor, and one strictly lighter than some replaced particle is replaced *)
Theorem C07p_partition_relational (e : R -> R) (lw : list R) (ratio : R) :
  (0 < length lw)%nat -> 0 <= ratio < 1 ->
  let N := length lw in
  let k := num_prior (ROpsE e) N ratio in
  let Rs := replaced_set (ROpsE e) ratio lw in
  let Ks := survivor_set (ROpsE e) ratio lw in
  let w := fun i => e (nth i lw 0) in
  (INR k <= INR N * ratio < INR k + 1) /\ (k < N)%nat /\
  length Rs = k /\ length Ks = (N - k)%nat /\
  Permutation (Rs ++ Ks) (seq 0 N) /\ NoDup (Rs ++ Ks) /\
  (forall r s, In r Rs -> In s Ks -> w r <= w s) /\
  (forall i, (i < N)%nat -> (exists s, In s Ks /\ w s < w i) -> In i Ks /\ ~ In i Rs) /\
  (forall i, (i < N)%nat -> (exists r, In r Rs /\ w i < w r) -> In i Rs /\ ~ In i Ks).
Proof.
  intros Npos Hr N k Rs Ks w.
  destruct (num_prior_spec e N ratio Npos Hr) as [F1 F2].
  destruct (partition_g (ROpsE e) (Rleb_total e) (Rleb_trans e) ratio lw) as [L1 [L2 [Pm [Nd Cr]]]].
  repeat (split; [assumption|]). split; [|split].
  - intros r s Hr' Hs. apply Rleb_true, Cr; assumption.
  - intros i Hi [s [Hs Hlt]]. apply (forced_g (ROpsE e) (Rleb_total e) (Rleb_trans e) ratio lw i Hi).
    exists s. split; [exact Hs | apply Rleb_false, Hlt].
  - intros i Hi [r [Hr' Hlt]]. apply (forced_g (ROpsE e) (Rleb_total e) (Rleb_trans e) ratio lw i Hi).
    exists r. split; [exact Hr' | apply Rleb_false, Hlt].
Qed.

(* the same at every arithmetic whose <= is total and transitive (what std::sort requires of its comparison;
   true of the reals and of doubles without NaN): the structural part does not depend on the reals *)
Theorem C07p_partition_total_order (S : SOps) (ratio : T S) (lw : list (T S)) :
  (forall a b : T S, sleb S a b = true \/ sleb S b a = true) ->
  (forall a b c : T S, sleb S a b = true -> sleb S b c = true -> sleb S a c = true) ->
  let N := length lw in
  let k := num_prior S N ratio in
  let Rs := replaced_set S ratio lw in
  let Ks := survivor_set S ratio lw in
  length Rs = k /\ length Ks = (N - k)%nat /\
  Permutation (Rs ++ Ks) (seq 0 N) /\ NoDup (Rs ++ Ks) /\
  (forall r s, In r Rs -> In s Ks -> sleb S (wt S lw r) (wt S lw s) = true).
Proof. intros H1 H2. exact (partition_g S H1 H2 ratio lw). Qed.

(* ANY admissible choice among exact ties (R', K': a duplicate-free split of 0..N-1 with floor(ratio N) replaced
   particles, none heavier than a survivor) replaces every particle lighter than the (k+1)-th smallest weight t and
   keeps every particle heavier than t: only the particles tied at t are free.  This is the clause the oracle of
   props/C07.py decides on the implementation's output (partition_clause). *)
Theorem C07p_ties_any_choice (e : R -> R) (lw : list R) (ratio : R) (R' K' : list nat) :
  (0 < length lw)%nat -> 0 <= ratio < 1 ->
  let N := length lw in
  let k := num_prior (ROpsE e) N ratio in
  let w := fun i => e (nth i lw 0) in
  let t := w (nth k (sort_idx (ROpsE e) (map e lw)) 0%nat) in
  Permutation (R' ++ K') (seq 0 N) -> length R' = k ->
  (forall r s, In r R' -> In s K' -> w r <= w s) ->
  forall i, (i < N)%nat ->
    (w i < t -> In i R' /\ ~ In i K') /\ (t < w i -> In i K' /\ ~ In i R').
Proof.
  intros Npos Hr N k w t Hp Hl Hc i Hi.
  destruct (num_prior_spec e N ratio Npos Hr) as [_ F2].
  assert (Adm : admissible (ROpsE e) ratio lw R' K').
  { split; [exact Hp|]. split; [exact Hl|]. intros r s H1 H2. apply Rleb_true. exact (Hc r s H1 H2). }
  destruct (admissible_forced (ROpsE e) (Rleb_total e) (Rleb_trans e) ratio lw R' K' i F2 Adm Hi) as [A B].
  split; intro Hlt.
  - apply A. apply Rleb_false. exact Hlt.
  - apply B. apply Rleb_false. exact Hlt.
Qed.

(* every parent the prior variant reports for a resampled particle is a survivor, never a replaced particle *)
Theorem C07p_parents_survive (S : SOps) {P} (init : nat -> list P) ratio (ps : list P) lw u1 :
  length lw = length ps -> (0 < length ps)%nat ->
  length (init (num_prior S (length ps) ratio)) = num_prior S (length ps) ratio ->
  forall j, (j < length ps - num_prior S (length ps) ratio)%nat ->
  exists p, nth (num_prior S (length ps) ratio + j) (snd (@resample_prior S P init ratio ps lw u1)) 0%Z = Z.of_nat p
            /\ In p (survivor_set S ratio lw) /\ ~ In p (replaced_set S ratio lw).
Proof.
  intros Hlen Npos Hinit j Hj.
  destruct (prior_parents_right S init ratio ps lw u1 Hlen j Hj) as [E [R1 R2]].
  eexists. split; [exact E|]. rewrite <- Hlen in R1 |- *.
  pose proof (survivor_at S ratio lw _ (conj (Nat.le_add_r _ _) R1)) as HK.
  split; [exact HK|]. intro HR. exact (sets_disjoint S ratio lw _ HR HK).
Qed.

(* ---- the hypotheses are satisfiable; the executable model on exact rationals ---- *)

Example C07_hypotheses_satisfiable :
  let lw := [ln (3 / 4); ln (/ 4)] in let u1 := / 4 in
  (0 < length lw)%nat /\ sumR (map exp lw) = 1 /\ 0 < u1 /\ u1 * INR (length lw) < 1 /\
  exp (nth 0 lw 0) <> exp (nth 1 lw 0).
Proof.
  simpl. rewrite !exp_ln by lra. repeat split; try lra; auto.
Qed.

(* QOps has sexp = identity: the lists below are the weight vectors themselves.
   "up to rounding of the cumulative weights": when the weights sum to less than the last comb point the guard
   idx < N-1 hands the surplus to the LAST particle, even if its weight is zero (sum 99/100, u1 = 33/100, u_2 = 299/300),
   and at the excluded boundary u1 = 0 a zero-weight FIRST particle is selected *)
Example C07_rounding_surplus_Q :
  res_parents QOps [1#2; 49#100; 0]%Q (33#100)%Q = [0; 1; 2]%nat /\
  res_parents QOps [0; 1]%Q 0%Q = [0; 1]%nat.
Proof. vm_compute. split; reflexivity. Qed.

(* N = 4, w = (1/2, 0, 1/8, 3/8), u1 = 1/5: comb 1/5, 9/20, 7/10, 19/20 -> parents 0 0 3 3;
   and the u1 = 0 boundary witness w = (1/2, 1/2): parents 0 0 *)
Example C07_concrete_Q :
  res_parents QOps [1#2; 0; 1#8; 3#8]%Q (1#5)%Q = [0; 0; 3; 3]%nat /\
  res_parents QOps [1#2; 1#2]%Q 0%Q = [0; 0]%nat /\
  fst (fst (resample [10; 11; 12; 13]%nat ([1#2; 0; 1#8; 3#8]%Q : list (T QOps)) (1#5)%Q)) = [10; 10; 13; 13]%nat.
Proof. vm_compute. repeat split. Qed.

(* cumulative weights that fall short of the last comb point (sum 99/100, last weight 0: the situation of
   C07_rounding_surplus_Q): the hypotheses of C07_count_bound_cumulative hold, the clamped list ends in 1 *)
Example C07_cumulative_hypotheses_satisfiable :
  let c := [/ 2; 99 / 100; 99 / 100] in let u1 := 33 / 100 in
  chain 0 c /\ clamp c = [/ 2; 99 / 100; 1] /\ 0 < u1 /\ u1 * INR (length c) < 1.
Proof.
  simpl. repeat split; try lra.
  unfold Rmin. destruct (Rle_dec (/ 2) 1); [|lra]. destruct (Rle_dec (99 / 100) 1); [reflexivity | lra].
Qed.

(* exact ties STRADDLING the split (QOps: sexp = identity, the lists are the weights; N = 8, ratio 1/4: 2 replaced).
   a) six particles tied at 1/10 followed by two heavier ones: two of the tied are replaced, both heavy ones survive;
   b) four exact zeros first, the heavy particles at the highest indices: two zeros replaced, all heavy ones survive,
      and resampling the survivors (weights 0 0 1/10 2/10 3/10 4/10, u1 = 1/12) selects 4 5 6 6 7 7;
   c) the same weights with the heavy ones first. *)
Example C07p_ties_straddle_Q :
  let r := (1#4)%Q in
  let a := [1#10; 1#10; 1#10; 1#10; 1#10; 1#10; 2#10; 2#10]%Q in
  let b := [0; 0; 0; 0; 1#10; 2#10; 3#10; 4#10]%Q in
  let c := [4#10; 3#10; 2#10; 1#10; 0; 0; 0; 0]%Q in
  num_prior QOps 8 r = 2%nat /\
  replaced_set QOps r a = [0; 1]%nat /\ survivor_set QOps r a = [2; 3; 4; 5; 6; 7]%nat /\
  replaced_set QOps r b = [0; 1]%nat /\ survivor_set QOps r b = [2; 3; 4; 5; 6; 7]%nat /\
  map (fun p => nth p (survivor_set QOps r b) 0%nat)
      (res_parents QOps (map (fun i => nth i b 0%Q) (survivor_set QOps r b)) (1#12)%Q) = [4; 5; 6; 6; 7; 7]%nat /\
  replaced_set QOps r c = [4; 5]%nat /\ survivor_set QOps r c = [6; 7; 3; 2; 1; 0]%nat.
Proof. vm_compute. repeat split; reflexivity. Qed.

Print Assumptions C07_advance_fuel.
Print Assumptions C07_length.
Print Assumptions C07_copy.
Print Assumptions C07_copy_members.
Print Assumptions C07_parents_sorted.
Print Assumptions C07_parents_in_range.
Print Assumptions C07_uniform_weights.
Print Assumptions C07_selection_interval.
Print Assumptions C07_count_bound.
Print Assumptions C07_count_bound_exp.
Print Assumptions C07_zero_weight_not_selected.
Print Assumptions C07_heavy_selected.
Print Assumptions C07_u1_zero_boundary_refuted.
Print Assumptions C07_neff_formula.
Print Assumptions C07_neff_range.
Print Assumptions C07_lse_spec.
Print Assumptions C07_lse_normalises.
Print Assumptions C07_count_bound_cumulative.
Print Assumptions C07_count_bound_rounded.
Print Assumptions C07p_num_prior.
Print Assumptions C07p_partition.
Print Assumptions C07p_parents.
Print Assumptions C07p_copy.
Print Assumptions C07p_copy_members.
Print Assumptions C07p_parent_exact.
Print Assumptions C07p_fresh_left.
Print Assumptions C07p_uniform.
Print Assumptions C07p_reports_N.
Print Assumptions C07p_count_bound.
Print Assumptions C07p_partition_relational.
Print Assumptions C07p_partition_total_order.
Print Assumptions C07p_ties_any_choice.
Print Assumptions C07p_parents_survive.
