(* C19_Proofs.v — lemmas about the C19 model at the Coq-reals instance ROps. *)
Require Import ZArith Reals Lra Lia List.
Require Import BFL.Ops BFL.ListFacts BFL.C19_ROps BFL.C19_Model.
Import ListNotations.
Local Open Scope R_scope.

Definition in_range (x : R) : Prop := - PI < x <= PI.
(* y is x plus an integer number of full turns *)
Definition cong2pi (x y : R) : Prop := exists k : Z, y = x + 2 * IZR k * PI.

Lemma cong2pi_refl x : cong2pi x x.
Proof. exists 0%Z. simpl. lra. Qed.
Lemma cong2pi_sym x y : cong2pi x y -> cong2pi y x.
Proof. intros [k ->]. exists (- k)%Z. rewrite opp_IZR. lra. Qed.
Lemma cong2pi_trans x y z : cong2pi x y -> cong2pi y z -> cong2pi x z.
Proof. intros [k ->] [l ->]. exists (k + l)%Z. rewrite plus_IZR. lra. Qed.
Lemma cong2pi_plus x y u v : cong2pi x y -> cong2pi u v -> cong2pi (x + u) (y + v).
Proof. intros [k ->] [l ->]. exists (k + l)%Z. rewrite plus_IZR. lra. Qed.
Lemma cong2pi_opp x y : cong2pi x y -> cong2pi (- x) (- y).
Proof. intros [k ->]. exists (- k)%Z. rewrite opp_IZR. lra. Qed.
Lemma cong2pi_cos x y : cong2pi x y -> cos y = cos x.
Proof. intros [k ->]. apply cos_period_Z. Qed.
Lemma cong2pi_sin x y : cong2pi x y -> sin y = sin x.
Proof. intros [k ->]. apply sin_period_Z. Qed.

Lemma principal_exists x : exists k : Z, in_range (x + 2 * IZR k * PI).
Proof.
  pose proof PI_RGT_0 as Hpi. set (u := (PI - x) / (2 * PI)).
  destruct (archimed u) as [H1 H2]. exists (up u - 1)%Z. rewrite minus_IZR.
  assert (Hu : u * (2 * PI) = PI - x) by (unfold u; field; lra).
  unfold in_range. split; nra.
Qed.

Lemma in_range_cong_eq x y : in_range x -> in_range y -> cong2pi x y -> x = y.
Proof.
  intros Hx Hy Hc. symmetry. apply (polar_unique 1); try assumption; try lra.
  - now rewrite (cong2pi_cos _ _ Hc).
  - now rewrite (cong2pi_sin _ _ Hc).
Qed.

Lemma wrap_R x : wrap ROps x = atan2 (sin x) (cos x).
Proof. unfold wrap, carg, cexp, cj_times. simpl. rewrite exp_0, !Rmult_1_l. reflexivity. Qed.

Local Arguments wrap : simpl never.

(* atan2 (sin x) (cos x) is the representative of x in (-PI, PI] *)
Lemma atan2_sin_cos x : in_range (atan2 (sin x) (cos x)) /\ cong2pi x (atan2 (sin x) (cos x)).
Proof.
  destruct (principal_exists x) as [k Hk].
  assert (E : atan2 (sin x) (cos x) = x + 2 * IZR k * PI).
  { rewrite <- (sin_period_Z x k), <- (cos_period_Z x k).
    rewrite <- (Rmult_1_l (sin _)), <- (Rmult_1_l (cos _)). apply atan2_of_polar; [lra | exact Hk]. }
  rewrite E. split; [exact Hk | now exists k].
Qed.

Lemma wrap_range x : in_range (wrap ROps x).
Proof. rewrite wrap_R. apply atan2_sin_cos. Qed.
Lemma wrap_congruent x : cong2pi x (wrap ROps x).
Proof. rewrite wrap_R. apply atan2_sin_cos. Qed.
Lemma wrap_cong x y : cong2pi x y -> wrap ROps y = wrap ROps x.
Proof. intros H. rewrite !wrap_R, (cong2pi_cos _ _ H), (cong2pi_sin _ _ H). reflexivity. Qed.
Lemma wrap_shift x (k : Z) : wrap ROps (x + 2 * IZR k * PI) = wrap ROps x.
Proof. apply wrap_cong. now exists k. Qed.
Lemma wrap_id x : in_range x -> wrap ROps x = x.
Proof. intros H. symmetry. apply in_range_cong_eq; [exact H | apply wrap_range | apply wrap_congruent]. Qed.
Lemma wrap_idem x : wrap ROps (wrap ROps x) = wrap ROps x.
Proof. apply wrap_id, wrap_range. Qed.
(* the boundary convention: the half turn is represented by +PI, never by -PI *)
Lemma wrap_PI : wrap ROps PI = PI.
Proof. apply wrap_id. unfold in_range. pose proof PI_RGT_0. lra. Qed.
Lemma wrap_mPI : wrap ROps (- PI) = PI.
Proof.
  replace (- PI) with (PI + 2 * IZR (-1) * PI) by (simpl; lra). rewrite wrap_shift. apply wrap_PI.
Qed.

Definition plain_add (a : list (list R)) (b : list R) : list (list R) :=
  map (fun rb => map (fun x => x + snd rb) (fst rb)) (combine a b).
Definition plain_sub (a : list (list R)) (b : list R) : list (list R) :=
  map (fun rb => map (fun x => x - snd rb) (fst rb)) (combine a b).

Lemma dir_add_R a b : dir_add ROps a b = map (map (wrap ROps)) (plain_add a b).
Proof.
  unfold dir_add, plain_add. rewrite map_map. apply map_ext. intros [r y]. simpl.
  rewrite map_map. reflexivity.
Qed.

Lemma plain_sub_add a b : plain_sub a b = plain_add a (map Ropp b).
Proof.
  unfold plain_sub, plain_add. revert b. induction a as [|r a IH]; intros [|y b]; simpl; try reflexivity.
  rewrite IH. reflexivity.
Qed.

Lemma dir_sub_R a b : dir_sub ROps a b = map (map (wrap ROps)) (plain_sub a b).
Proof. unfold dir_sub. rewrite dir_add_R, plain_sub_add. reflexivity. Qed.

(* pointwise facts lifted over map *)
Lemma Forall_map_all {A B} (P : B -> Prop) (f : A -> B) : (forall x, P (f x)) -> forall l, Forall P (map f l).
Proof. intros H l. induction l; simpl; constructor; [apply H | assumption]. Qed.
Lemma Forall2_map_self {A B} (R : A -> B -> Prop) (f : A -> B) : (forall x, R x (f x)) -> forall l, Forall2 R l (map f l).
Proof. intros H l. induction l; simpl; constructor; [apply H | assumption]. Qed.
Lemma Forall2_map_both {A B} (R : A -> A -> Prop) (R' : B -> B -> Prop) (f g : A -> B) :
  (forall x y, R x y -> R' (f x) (g y)) -> forall l l', Forall2 R l l' -> Forall2 R' (map f l) (map g l').
Proof. intros H l l'. induction 1; simpl; constructor; [now apply H | assumption]. Qed.
Lemma map_eq_Forall2 {A B} (R : A -> A -> Prop) (f : A -> B) :
  (forall x y, R x y -> f y = f x) -> forall l l', Forall2 R l l' -> map f l' = map f l.
Proof. intros H l l'. induction 1; simpl; [reflexivity|]. f_equal; [now apply H | assumption]. Qed.

Lemma mmap_wrap_congruent m : Forall2 (Forall2 cong2pi) m (map (map (wrap ROps)) m).
Proof. apply Forall2_map_self. intros r. apply Forall2_map_self, wrap_congruent. Qed.

Lemma plain_add_cong a a' b b' : Forall2 (Forall2 cong2pi) a a' -> Forall2 cong2pi b b' ->
  Forall2 (Forall2 cong2pi) (plain_add a b) (plain_add a' b').
Proof.
  intros Ha. revert b b'. induction Ha as [|r r' a a' Hr Ha IH]; intros b b' Hb.
  - constructor.
  - destruct Hb as [|y y' b b' Hy Hb]; [constructor|]. unfold plain_add. simpl. constructor; [|apply IH, Hb].
    apply (Forall2_map_both cong2pi); [|exact Hr]. intros x x' Hx. now apply cong2pi_plus.
Qed.

Lemma nth_mmap {A B} (f : A -> B) M i : nth i (map (map f) M) [] = map f (nth i M []).
Proof. exact (map_nth (map f) M [] i). Qed.

Lemma plain_add_row a b i : (i < length a)%nat -> (i < length b)%nat ->
  nth i (plain_add a b) [] = map (fun x => x + nth i b 0) (nth i a []).
Proof.
  unfold plain_add. revert b i. induction a as [|r a IH]; intros [|y b] i Ha Hb; simpl in *; try lia.
  destruct i; [reflexivity | apply IH; lia].
Qed.

Fixpoint wsumf (f : R -> R) (row w : list R) : R :=
  match row, w with
  | a :: row', x :: w' => f a * x + wsumf f row' w'
  | _, _ => 0
  end.

(* the weighted sum of a combination of cos and sin is that combination of the two components of the resultant *)
Lemma wsumf_lincomb f p q row w : (forall a, f a = p * cos a + q * sin a) ->
  wsumf f row w = p * wsumf cos row w + q * wsumf sin row w.
Proof. intros H. revert w. induction row as [|a row IH]; intros [|x w]; simpl; try lra. rewrite H, IH. lra. Qed.
Lemma wsumf_map f g row w : wsumf f (map g row) w = wsumf (fun a => f (g a)) row w.
Proof. revert w. induction row as [|a row IH]; intros [|x w]; simpl; try reflexivity. now rewrite IH. Qed.

Lemma resultant_acc row w (acc : R * R) :
  fold_left (fun acc aw => cadd ROps acc (cscale ROps (cexp ROps (cj_times ROps (fst aw))) (snd aw)))
            (combine row w) acc = (fst acc + wsumf cos row w, snd acc + wsumf sin row w).
Proof.
  revert w acc. induction row as [|a row IH]; intros [|x w] [c s]; cbn [combine fold_left wsumf fst snd];
    try (f_equal; lra).
  rewrite IH. unfold cadd, cscale, cexp, cj_times. simpl. rewrite exp_0. f_equal; lra.
Qed.

Lemma resultant_R row w : resultant ROps row w = (wsumf cos row w, wsumf sin row w).
Proof. unfold resultant. rewrite resultant_acc. simpl. f_equal; lra. Qed.

Lemma mean_row_R row w : mean_row ROps row w = atan2 (wsumf sin row w) (wsumf cos row w).
Proof. unfold mean_row, carg. rewrite resultant_R. reflexivity. Qed.

Lemma mean_general cols a w : cols <> 1%nat -> dir_mean ROps cols a w = map (fun row => mean_row ROps row w) a.
Proof. intros Hc. unfold dir_mean. destruct (Nat.eqb_spec cols 1); [contradiction | reflexivity]. Qed.

(* the one-column branch: the column, wrapped, whatever the weights *)
Lemma mean_single_column a w : dir_mean ROps 1 a w = map (fun row => wrap ROps (nth 0 row 0)) a.
Proof.
  unfold dir_mean. cbn [Nat.eqb]. apply map_ext. intros row. f_equal. cbn [sadd s0 ROps]. apply Rplus_0_r.
Qed.

Lemma mean_length cols a w : length (dir_mean ROps cols a w) = length a.
Proof. unfold dir_mean. destruct (Nat.eqb cols 1); now rewrite map_length. Qed.

Lemma wsumf_cong f row row' w : (forall x y, cong2pi x y -> f y = f x) ->
  Forall2 cong2pi row row' -> wsumf f row' w = wsumf f row w.
Proof.
  intros Hf H. revert w. induction H as [|a a' row row' Ha Hr IH]; intros [|x w]; simpl; try reflexivity.
  rewrite (Hf _ _ Ha), IH. reflexivity.
Qed.

Lemma mean_row_shift row row' w : Forall2 cong2pi row row' -> mean_row ROps row' w = mean_row ROps row w.
Proof.
  intros H. rewrite !mean_row_R.
  rewrite (wsumf_cong sin row row' w cong2pi_sin H), (wsumf_cong cos row row' w cong2pi_cos H). reflexivity.
Qed.

Lemma wsumf_cos_rot d row w :
  wsumf cos (map (fun x => x + d) row) w = wsumf cos row w * cos d - wsumf sin row w * sin d.
Proof.
  rewrite wsumf_map, (wsumf_lincomb _ (cos d) (- sin d)) by (intros; rewrite cos_plus; lra). lra.
Qed.
Lemma wsumf_sin_rot d row w :
  wsumf sin (map (fun x => x + d) row) w = wsumf sin row w * cos d + wsumf cos row w * sin d.
Proof.
  rewrite wsumf_map, (wsumf_lincomb _ (sin d) (cos d)) by (intros; rewrite sin_plus; lra). lra.
Qed.

Lemma atan2_rot y x d : (x <> 0 \/ y <> 0) ->
  cong2pi (atan2 y x + d) (atan2 (y * cos d + x * sin d) (x * cos d - y * sin d)).
Proof.
  intros Hnz. destruct (atan2_polar_pos y x Hnz) as [r [Hr [_ [Hx Hy]]]]. set (th := atan2 y x) in *. clearbody th.
  replace (y * cos d + x * sin d) with (r * sin (th + d)) by (rewrite sin_plus, Hx, Hy; lra).
  replace (x * cos d - y * sin d) with (r * cos (th + d)) by (rewrite cos_plus, Hx, Hy; lra).
  rewrite atan2_scale by assumption. apply atan2_sin_cos.
Qed.

(* the weighted resultant of the row is not the origin *)
Definition row_nonzero (w row : list R) : Prop := wsumf cos row w <> 0 \/ wsumf sin row w <> 0.

Lemma mean_row_rotation row w d : row_nonzero w row ->
  cong2pi (mean_row ROps row w + d) (mean_row ROps (map (fun x => x + d) row) w).
Proof.
  intros Hnz. rewrite !mean_row_R, wsumf_cos_rot, wsumf_sin_rot. now apply atan2_rot.
Qed.

Fixpoint wtot (n : nat) (w : list R) : R :=
  match n, w with
  | S n', x :: w' => x + wtot n' w'
  | _, _ => 0
  end.

Lemma wsumf_repeat f a n w : wsumf f (repeat a n) w = f a * wtot n w.
Proof.
  revert w. induction n as [|n IH]; intros [|x w]; simpl; try lra. rewrite IH. lra.
Qed.

Lemma mean_row_all_equal a n w : 0 < wtot n w -> mean_row ROps (repeat a n) w = wrap ROps a.
Proof.
  intros Hw. rewrite mean_row_R, !wsumf_repeat, wrap_R.
  rewrite (Rmult_comm (sin a)), (Rmult_comm (cos a)). now apply atan2_scale.
Qed.

Lemma wsumf_nonneg f row w : Forall (fun x => 0 < x) w -> Forall (fun a => 0 <= f a) row -> 0 <= wsumf f row w.
Proof.
  intros Hw. revert row. induction Hw as [|x w Hx Hw IH]; intros [|a row] Hr; simpl; try lra.
  inversion Hr; subst. specialize (IH row H2). nra.
Qed.
Lemma wsumf_pos f row w : row <> [] -> w <> [] -> Forall (fun x => 0 < x) w -> Forall (fun a => 0 < f a) row ->
  0 < wsumf f row w.
Proof.
  intros Hr Hw Hpw Hpr. destruct row as [|a row]; [contradiction|]. destruct w as [|x w]; [contradiction|].
  simpl. inversion Hpw; subst. inversion Hpr; subst.
  assert (0 <= wsumf f row w).
  { apply wsumf_nonneg; [assumption|]. eapply Forall_impl; [|eassumption]. simpl. intros; lra. }
  nra.
Qed.

(* the resultant in polar form r (cos th, sin th): its components along and across any direction m *)
Lemma wsumf_polar row w r th m : wsumf cos row w = r * cos th -> wsumf sin row w = r * sin th ->
  wsumf (fun a => cos (a - m)) row w = r * cos (th - m) /\
  wsumf (fun a => sin (a - m)) row w = r * sin (th - m) /\
  wsumf (fun a => sin (m - a)) row w = r * sin (m - th).
Proof.
  intros HC HS.
  rewrite (wsumf_lincomb _ (cos m) (sin m)) by (intros; rewrite cos_minus; lra).
  rewrite (wsumf_lincomb (fun a => sin (a - m)) (- sin m) (cos m)) by (intros; rewrite sin_minus; lra).
  rewrite (wsumf_lincomb (fun a => sin (m - a)) (sin m) (- cos m)) by (intros; rewrite sin_minus; lra).
  rewrite HC, HS, cos_minus, !sin_minus. repeat split; lra.
Qed.

Lemma cos_pos_range p : in_range p -> 0 < cos p -> - (PI / 2) < p < PI / 2.
Proof.
  intros [H1 H2] Hc. pose proof PI_RGT_0 as Hpi.
  destruct (Rle_dec (PI / 2) p) as [Hge|Hlt].
  - exfalso. assert (cos p <= 0) by (apply cos_le_0; lra). lra.
  - destruct (Rle_dec p (- (PI / 2))) as [Hle|Hgt]; [|lra].
    exfalso. assert (cos (- p) <= 0) by (apply cos_le_0; lra). rewrite cos_neg in H. lra.
Qed.

Lemma sin_nonneg_range q : - PI < q < PI -> 0 <= sin q -> 0 <= q.
Proof.
  intros [H1 H2] Hs. destruct (Rle_dec 0 q) as [|Hn]; [assumption|].
  exfalso. assert (sin q < 0) by (apply sin_lt_0_var; lra). lra.
Qed.

(* th lies in the arc [lo, hi], shorter than a half turn, up to full turns, as soon as it is on the inner side
   of both ends and on the side of the middle *)
Lemma arc_of_signs th lo hi : lo <= hi -> hi - lo < PI ->
  0 < cos (th - (lo + hi) / 2) -> 0 <= sin (th - lo) -> 0 <= sin (hi - th) ->
  exists k : Z, lo <= th + 2 * IZR k * PI <= hi.
Proof.
  intros Hle Harc Hm Hlo Hhi. pose proof PI_RGT_0 as Hpi.
  set (m := (lo + hi) / 2) in *. set (h := (hi - lo) / 2).
  destruct (principal_exists (th - m)) as [k Hk]. exists k.
  set (p := th - m + 2 * IZR k * PI) in *.
  assert (Hcp : 0 < cos p) by (unfold p; now rewrite cos_period_Z).
  destruct (cos_pos_range p Hk Hcp) as [Hp1 Hp2].
  assert (Hlo' : 0 <= sin (p + h)).
  { replace (p + h) with (th - lo + 2 * IZR k * PI) by (unfold p, m, h; lra). now rewrite sin_period_Z. }
  assert (Hhi' : 0 <= sin (h - p)).
  { replace (h - p) with (hi - th + 2 * IZR (- k) * PI) by (rewrite opp_IZR; unfold p, m, h; lra). now rewrite sin_period_Z. }
  apply sin_nonneg_range in Hlo'; [|unfold h; lra]. apply sin_nonneg_range in Hhi'; [|unfold h; lra].
  unfold p, m, h in *. lra.
Qed.

(* so does the argument of a resultant with these three signs: its length r cancels *)
Lemma mean_row_arc row w lo hi : lo <= hi -> hi - lo < PI ->
  0 < wsumf (fun a => cos (a - (lo + hi) / 2)) row w ->
  0 <= wsumf (fun a => sin (a - lo)) row w -> 0 <= wsumf (fun a => sin (hi - a)) row w ->
  exists k : Z, lo <= mean_row ROps row w + 2 * IZR k * PI <= hi.
Proof.
  intros Hle Harc Hmid Hlo Hhi.
  assert (Hnz : row_nonzero w row).
  { (* a zero resultant, 0 (cos 0, sin 0), would have no component along the middle *)
    destruct (Req_dec (wsumf cos row w) 0) as [HC|]; [|now left]. right. intros HS.
    destruct (wsumf_polar row w 0 0 ((lo + hi) / 2)) as [E _]; [rewrite HC; lra | rewrite HS; lra |].
    rewrite E in Hmid. lra. }
  rewrite mean_row_R. destruct (atan2_polar_pos _ _ Hnz) as [r [Hr [_ [HC HS]]]].
  destruct (wsumf_polar row w r _ ((lo + hi) / 2) HC HS) as [Em _]. rewrite Em in Hmid.
  destruct (wsumf_polar row w r _ lo HC HS) as [_ [El _]]. rewrite El in Hlo.
  destruct (wsumf_polar row w r _ hi HC HS) as [_ [_ Eh]]. rewrite Eh in Hhi.
  apply arc_of_signs; try assumption; nra.
Qed.

Lemma wrap_concrete : wrap ROps (3 * PI) = PI /\ wrap ROps (PI / 2 + 2 * IZR (-5) * PI) = PI / 2.
Proof.
  pose proof PI_RGT_0. split.
  - replace (3 * PI) with (PI + 2 * IZR 1 * PI) by lra. rewrite wrap_shift. exact wrap_PI.
  - rewrite wrap_shift. apply wrap_id. unfold in_range. lra.
Qed.

Definition arc_ok (cols : nat) (row : list R) (lh : R * R) : Prop :=
  length row = cols /\ row <> [] /\ Forall (fun x => fst lh <= x <= snd lh) row /\ snd lh - fst lh < PI.

Lemma not_cong_half_turn : ~ cong2pi PI 0.
Proof.
  intros [k Hk]. pose proof PI_RGT_0.
  assert (E : IZR (2 * k + 1) = 0) by (rewrite plus_IZR, mult_IZR; simpl; nra).
  apply eq_IZR in E. lia.
Qed.

(* weight -1 on the angle 0: the resultant is (-1, 0), a half turn away *)
Lemma mean_row_neg_weight : mean_row ROps [0] [-1] = PI.
Proof.
  pose proof PI_RGT_0. rewrite mean_row_R. cbn [wsumf]. rewrite sin_0, cos_0.
  transitivity (atan2 (1 * sin PI) (1 * cos PI)); [rewrite sin_PI, cos_PI; f_equal; lra | apply atan2_of_polar; lra].
Qed.

