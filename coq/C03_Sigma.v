(* C03_Sigma.v — the part of the unscented transform at the real matrix instance RF (C03_RFun.v) that is
   the same for every layout: the weights UTWeight computes, the rows of the layout-driven model functions
   add_mean / offsets / out_mean (plain on the linear rows), the symmetric sigma set of one component
   (the mean, then the mean (+) / (-) the scaled columns of the factor the oracle returned) with its first
   and second moments, and the mixture around the components (chunks, the five overloads, additive noise).
   C03_Euler.v and C03_Quat.v add what their block rows do.
   Axioms: the four standard axioms of Coq's Reals. *)
Require Import ZArith Reals Lra Lia List Bool Arith.
Require Import BFL.Ops BFL.ListFacts BFL.C03_Model BFL.C19_ROps BFL.C03_RFun.
Import ListNotations.
Local Open Scope R_scope.

Lemma nth_0_repeat_2n (x d : R) n : (0 < n)%nat -> nth 0 (repeat x (2 * n)) d = x.
Proof. intros H. destruct n; [lia | reflexivity]. Qed.

Section WeightsR.
Variables sq eg : nat -> fmx -> fmx.
Notation O := (RF sq eg).
Variables (n : nat) (alpha beta kappa : R).
Let lam := alpha * alpha * (INR n + kappa) - INR n.
Let c := INR n + lam.

Lemma sofnat_R k : sofnat ROps k = INR k.
Proof. unfold sofnat. simpl. symmetry. apply INR_IZR_INZ. Qed.

Lemma ut_weights_R :
  ut_weights (O:=O) n alpha beta kappa =
  mkUtw (O:=O) (lam / c :: repeat (1 / (2 * c)) (2 * n))
        (lam / c + (1 - alpha * alpha + beta) :: repeat (1 / (2 * c)) (2 * n)) c.
Proof.
  unfold ut_weights, ut_lambda. change (sc O) with ROps. rewrite !sofnat_R. unfold s2. simpl.
  replace (1 + 1) with 2 by lra. reflexivity.
Qed.

Lemma ut_weights_R_c : w_c (ut_weights (O:=O) n alpha beta kappa) = alpha * alpha * (INR n + kappa).
Proof. rewrite ut_weights_R. simpl. unfold c, lam. lra. Qed.

Lemma ut_weights_R_form : (0 < n)%nat ->
  let w := ut_weights (O:=O) n alpha beta kappa in
  w = mkUtw (O:=O) (nth 0 (w_mean w) 0 :: repeat (nth 1 (w_mean w) 0) (2 * n))
            (nth 0 (w_cov w) 0 :: repeat (nth 1 (w_mean w) 0) (2 * n)) (w_c w).
Proof.
  intros Hn. cbv zeta. rewrite ut_weights_R. cbn [w_mean w_cov w_c nth].
  change (T (sc O)) with R. rewrite (nth_0_repeat_2n _ _ n Hn). reflexivity.
Qed.

(* the mean weights sum to one and 2 wi (n + lambda) = 1 *)
Lemma ut_weights_R_sums : (0 < n)%nat ->
  let w := ut_weights (O:=O) n alpha beta kappa in
  w_c w <> 0 ->
  nth 0 (w_mean w) 0 + 2 * INR n * nth 1 (w_mean w) 0 = 1 /\ 2 * nth 1 (w_mean w) 0 * w_c w = 1.
Proof.
  intros Hn. cbv zeta. rewrite ut_weights_R. cbn [w_mean w_cov w_c nth].
  change (T (sc O)) with R. rewrite (nth_0_repeat_2n _ _ n Hn).
  intros Hc. split; [unfold c at 1 2; field; exact Hc | field; exact Hc].
Qed.
End WeightsR.

(* rows of the layout-driven model functions, any layout: entry i is the row function at i; on the linear rows all three are plain *)
Section Rows.
Variables sq eg : nat -> fmx -> fmx.
Notation O := (RF sq eg).
Variable L : layout.

Lemma add_mean_entry d dc central (m pt : fmx) i : (i < d)%nat ->
  add_mean (O:=O) L d dc central m pt i 0%nat = add_mean_row (O:=O) L d dc central m pt i.
Proof. intros Hi. unfold add_mean. now rewrite build_entry by lia. Qed.

Lemma add_mean_lin d dc central (m pt : fmx) j : (j < l_lin L)%nat -> (j < d)%nat -> (j < dc)%nat ->
  add_mean (O:=O) L d dc central m pt j 0%nat = pt j 0%nat + m j 0%nat.
Proof.
  intros Hj Hd Hdc. rewrite add_mean_entry by assumption. unfold add_mean_row.
  rewrite (proj2 (Nat.ltb_lt _ _) Hj), !colget_entry by assumption. reflexivity.
Qed.

(* the appended noise rows: the tangent vector is d - dc rows shorter than storage *)
Lemma add_mean_noise d dc central (m pt : fmx) i :
  (l_lin L + l_circ L * l_cw L <= i)%nat -> (d - l_noise L <= i < d)%nat -> (i - (d - dc) < dc)%nat ->
  add_mean (O:=O) L d dc central m pt i 0%nat = pt (i - (d - dc))%nat 0%nat + m i 0%nat.
Proof.
  intros H1 H2 H3. rewrite add_mean_entry by lia. unfold add_mean_row.
  rewrite (proj2 (Nat.ltb_ge i (l_lin L))), (proj2 (Nat.ltb_ge i (l_lin L + l_circ L * l_cw L))),
          (proj2 (Nat.leb_le (d - l_noise L) i)), !colget_entry by lia.
  reflexivity.
Qed.

Lemma offsets_entry rows pc (y ref : fmx) i : (i < pc)%nat ->
  offsets (O:=O) L (p:=rows) pc y ref i 0%nat = offset_row (O:=O) L (p:=rows) y ref i.
Proof. intros Hi. unfold offsets. now rewrite build_entry by lia. Qed.

Lemma offsets_lin rows pc (y ref : fmx) i : (i < l_lin L)%nat -> (i < pc)%nat -> (i < rows)%nat ->
  offsets (O:=O) L (p:=rows) pc y ref i 0%nat = y i 0%nat - ref i 0%nat.
Proof.
  intros Hi Hp Hr. rewrite offsets_entry by assumption. unfold offset_row.
  rewrite (proj2 (Nat.ltb_lt _ _) Hi), !colget_entry by assumption. reflexivity.
Qed.

Lemma out_mean_entry p wm (Ys : list fmx) i : (i < p)%nat ->
  out_mean (O:=O) L p wm Ys i 0%nat =
  if (i <? l_lin L)%nat then colget (O:=O) (wsum (O:=O) (r:=p) wm Ys) i
  else if (i <? l_lin L + l_circ L * l_cw L)%nat then
    if l_quat L
    then colget (O:=O) (mean_quaternion (O:=O) wm (map (fun y => quat_at (O:=O) (r:=p) y (l_lin L + (i - l_lin L) / 4 * 4)) Ys))
                ((i - l_lin L) mod 4)
    else C03_Model.dir_mean (O:=O) wm (map (fun y => colget (O:=O) (r:=p) y i) Ys)
  else 0.
Proof. intros Hi. unfold out_mean. now rewrite build_entry by lia. Qed.
End Rows.


(* the symmetric sigma set: one central element, n "plus" elements, n "minus" elements, weights
   w0, wi ... wi *)
Lemma sym_sum {B} (G : R * B -> R) (w0 wi : R) (x0 : B) (g1 g2 : nat -> B) n :
  lsumR G (combine (w0 :: repeat wi (2 * n)) (x0 :: (map g1 (seq 0 n) ++ map g2 (seq 0 n)))) =
  G (w0, x0) + rsum n (fun k => G (wi, g1 k)) + rsum n (fun k => G (wi, g2 k)).
Proof.
  simpl combine. simpl lsumR.
  replace (n + (n + 0))%nat with (n + n)%nat by lia.
  rewrite repeat_app, combine_app by (now rewrite repeat_length, map_length, seq_length).
  rewrite !combine_repeat_map, lsumR_app, !lsumR_seq. lra.
Qed.

(* moments of a symmetric set over the reals: weights w0 (w0c), wi ... wi on values whose distances from a are 0, s u_k, - s u_k
   with s^2 = c, 2 wi c = 1 *)
Section SymSums.
Variables (dc : nat) (c w0 wi : R).
Hypothesis c_pos : 0 < c.
Hypothesis w_sum : w0 + 2 * INR dc * wi = 1.
Hypothesis w_i : 2 * wi * c = 1.

Lemma sym_moment1 a x0 (fp fm u : nat -> R) : x0 - a = 0 ->
  (forall k, (k < dc)%nat -> fp k - a = sqrt c * u k /\ fm k - a = - (sqrt c * u k)) ->
  w0 * x0 + rsum dc (fun k => wi * fp k) + rsum dc (fun k => wi * fm k) = a.
Proof using w_sum.
  intros H0 H. rewrite Rplus_assoc, !rsum_scal, <- Rmult_plus_distr_l, <- rsum_plus.
  rewrite (rsum_ext dc _ (fun _ => 2 * a)) by (intros k Hk; destruct (H k Hk); lra).
  rewrite rsum_const. replace x0 with a by lra.
  transitivity ((w0 + 2 * INR dc * wi) * a); [lra | rewrite w_sum; lra].
Qed.

Lemma sym_moment2 w0c x0 y0 (fp fm gp gm u v : nat -> R) : x0 = 0 -> y0 = 0 ->
  (forall k, (k < dc)%nat -> fp k = sqrt c * u k /\ fm k = - (sqrt c * u k)) ->
  (forall k, (k < dc)%nat -> gp k = sqrt c * v k /\ gm k = - (sqrt c * v k)) ->
  w0c * (x0 * y0) + rsum dc (fun k => wi * (fp k * gp k)) + rsum dc (fun k => wi * (fm k * gm k)) = rsum dc (fun k => u k * v k).
Proof using c_pos w_i.
  intros -> -> Hf Hg.
  rewrite Rplus_assoc, <- rsum_plus, (rsum_ext dc _ (fun k => 2 * wi * (sqrt c * sqrt c) * (u k * v k))).
  - rewrite rsum_scal, sqrt_sqrt, w_i by lra. lra.
  - intros k Hk. destruct (Hf k Hk) as [-> ->], (Hg k Hk) as [-> ->]. lra.
Qed.
End SymSums.

(* the symmetric sigma set of one component, any layout: the mean, then the mean (+) / (-) the scaled columns of the factor *)
Section SigmaSet.
Variables sq eg : nat -> fmx -> fmx.
Notation O := (RF sq eg).
Variables (L : layout) (d dc : nat) (c : R) (m P : fmx).
Let s := sqrt c.
Let A := sq dc P.

Definition sig0 : fmx := add_mean (O:=O) L d dc true m (@mzero O dc 1).
Definition pert_plus (k : nat) : fmx := @mcol O dc dc k (@mscale O dc dc (ssqrt ROps c) (@msqrt O dc P)).
Definition pert_minus (k : nat) : fmx := @mcol O dc dc k (@mscale O dc dc (sopp ROps (ssqrt ROps c)) (@msqrt O dc P)).
Definition sig_plus (k : nat) : fmx := add_mean (O:=O) L d dc false m (pert_plus k).
Definition sig_minus (k : nat) : fmx := add_mean (O:=O) L d dc false m (pert_minus k).

Lemma sigma_comp_eq :
  sigma_comp (O:=O) L d dc c m P = sig0 :: (map sig_plus (seq 0 dc) ++ map sig_minus (seq 0 dc)).
Proof. unfold sigma_comp, perturbations. rewrite map_app, !map_map. reflexivity. Qed.

Lemma sigma_comp_len : length (sigma_comp (O:=O) L d dc c m P) = (2 * dc + 1)%nat.
Proof. rewrite sigma_comp_eq. simpl. rewrite app_length, !map_length, !seq_length. lia. Qed.

Lemma pert_plus_get k j : (j < dc)%nat -> (k < dc)%nat -> pert_plus k j 0%nat = s * A j k.
Proof. intros Hj Hk. apply pert_get; assumption. Qed.

Lemma pert_minus_get k j : (j < dc)%nat -> (k < dc)%nat -> pert_minus k j 0%nat = - (s * A j k).
Proof. intros Hj Hk. unfold pert_minus. rewrite pert_get by assumption. apply Ropp_mult_distr_l_reverse. Qed.

(* sums over the set *)
Variables (w0 w0c wi : R).
Hypothesis c_pos : 0 < c.
Hypothesis w_sum : w0 + 2 * INR dc * wi = 1.
Hypothesis w_i : 2 * wi * c = 1.
Let Xs := sigma_comp (O:=O) L d dc c m P.

(* F reads the k-th tangent coordinate u k off the k-th pair of sigma points *)
Definition sym_reads (F : fmx -> R) (u : nat -> R) : Prop :=
  F sig0 = 0 /\ forall k, (k < dc)%nat -> F (sig_plus k) = s * u k /\ F (sig_minus k) = - (s * u k).

(* on a linear row the difference operator reads the factor's column *)
Lemma lin_reads dx i : (i < l_lin L)%nat -> (i < dx)%nat -> (dx <= d)%nat -> (dx <= dc)%nat ->
  sym_reads (fun x => offsets (O:=O) L (p:=d) dx x m i 0%nat) (A i).
Proof using Type.
  intros Hl Hi Hd Hdc.
  split; [|intros k Hk; split]; rewrite offsets_lin by lia; unfold sig0, sig_plus, sig_minus; rewrite add_mean_lin by lia.
  - simpl. lra.
  - rewrite pert_plus_get by lia. lra.
  - rewrite pert_minus_get by lia. lra.
Qed.

Lemma sym_first_moment (F : fmx -> R) (a : R) u : sym_reads (fun x => F x - a) u ->
  lsumR (fun p => fst p * F (snd p)) (combine (w0 :: repeat wi (2 * dc)) Xs) = a.
Proof using w_sum.
  intros [F0 Fk]. unfold Xs. rewrite sigma_comp_eq, sym_sum. cbn [fst snd].
  exact (sym_moment1 dc c w0 wi w_sum a _ _ _ u F0 Fk).
Qed.

Lemma sym_second_moment (F G : fmx -> R) u v : sym_reads F u -> sym_reads G v ->
  lsumR (fun p => fst p * (F (snd p) * G (snd p))) (combine (w0c :: repeat wi (2 * dc)) Xs) = rsum dc (fun k => u k * v k).
Proof using c_pos w_i.
  intros [F0 Fk] [G0 Gk]. unfold Xs. rewrite sigma_comp_eq, sym_sum. cbn [fst snd].
  exact (sym_moment2 dc c wi c_pos w_i w0c _ _ _ _ _ _ u v F0 G0 Fk Gk).
Qed.
End SigmaSet.

Section CoreGeneric.
Variables sq eg : nat -> fmx -> fmx.
Notation O := (RF sq eg).
Variables (Lin Lout : layout) (d dc dx p pc : nat) (w : utw O) (Am b : fmx) (comps : list (fmx * fmx)).
Let k := length comps.
Let X := sigma_points (O:=O) Lin d dc (w_c w) comps.
Let r := ut_core (O:=O) Lin Lout (d:=d) (dc:=dc) (p:=p) pc dx w comps X (affine_cols (O:=O) (d:=d) (p:=p) Am b X).

Lemma core_chunk i mc0 : (i < k)%nat ->
  chunk (2 * dc + 1) i X = sigma_comp (O:=O) Lin d dc (w_c w) (fst (nth i comps mc0)) (snd (nth i comps mc0)).
Proof.
  intros Hi. unfold X, sigma_points. rewrite chunk_concatR.
  - exact (nth_map_in (fun mc => sigma_comp (O:=O) Lin d dc (w_c w) (fst mc) (snd mc)) _ _ _ mc0 Hi).
  - intros l Hl. apply in_map_iff in Hl. destruct Hl as [mc [<- _]]. apply sigma_comp_len.
  - now rewrite map_length.
Qed.

(* component i is the transform of the i-th input component alone *)
Lemma core_comp i u0 mc0 : (i < k)%nat ->
  nth i (ur_comps r) u0 =
  ut_component (O:=O) Lin Lout (d:=d) (p:=p) pc dx w (fst (nth i comps mc0))
    (sigma_comp (O:=O) Lin d dc (w_c w) (fst (nth i comps mc0)) (snd (nth i comps mc0)))
    (affine_cols (O:=O) (d:=d) (p:=p) Am b (sigma_comp (O:=O) Lin d dc (w_c w) (fst (nth i comps mc0)) (snd (nth i comps mc0)))).
Proof.
  intros Hi. unfold r, ut_core. cbn [ur_comps].
  pose (h := fun (i : nat) (mc : fmx * fmx) => ut_component (O:=O) Lin Lout (d:=d) (p:=p) pc dx w (fst mc)
             (chunk (2 * dc + 1) i X) (chunk (2 * dc + 1) i (affine_cols (O:=O) (d:=d) (p:=p) Am b X))).
  etransitivity; [exact (map_indexedR h comps mc0 u0 i Hi)|]. unfold h.
  unfold affine_cols at 1. rewrite chunk_mapR, (core_chunk i mc0 Hi). reflexivity.
Qed.

Lemma core_length : length (ur_comps r) = k.
Proof. unfold r, ut_core. cbn [ur_comps]. rewrite map_length, combine_length, seq_length. apply Nat.min_id. Qed.

Lemma core_weights : ur_weights r = repeat (1 / INR k) k.
Proof. unfold r, ut_core. cbn [ur_weights]. change (sc O) with ROps. rewrite sofnat_R. reflexivity. Qed.

(* the additive overloads add N to every covariance and leave means and cross-covariances alone *)
Lemma core_noise N i u0 : (i < k)%nat ->
  let u := nth i (ur_comps r) u0 in
  let uN := nth i (ur_comps (add_noise_cov (O:=O) N r)) u0 in
  uc_mean uN = uc_mean u /\ uc_cross uN = uc_cross u /\
  forall a b', (a < pc)%nat -> (b' < pc)%nat -> @mget O pc pc (uc_cov uN) a b' = @mget O pc pc (uc_cov u) a b' + N a b'.
Proof.
  intros Hi u uN. unfold uN, add_noise_cov. cbn [ur_comps].
  set (f := fun u : ut_comp O p pc dx => mkUtComp (O:=O) (uc_mean u) (@madd O pc pc (uc_cov u) N) (uc_cross u)).
  rewrite (nth_map_in f _ _ _ u0) by (rewrite core_length; exact Hi). fold u. split; [reflexivity|]. split; [reflexivity|].
  intros a b' Ha Hb. cbn [f uc_cov]. change (@mget O pc pc) with (fget pc pc). rewrite fget_add.
  unfold fget at 2. rewrite inb_true by assumption. reflexivity.
Qed.

(* all five overloads return r (the two with additive noise: r with N added), with uniform weights *)
Definition core_statement (images : Prop) : Prop :=
  ut_generic (O:=O) Lin Lout (d:=d) (dc:=dc) (p:=p) pc dx w comps
             (fun X => Some (affine_cols (O:=O) (d:=d) (p:=p) Am b X)) = Some r /\
  ut_meas (O:=O) Lin Lout (d:=d) (dc:=dc) (p:=p) pc dx w comps
          (fun X => Some (affine_cols (O:=O) (d:=d) (p:=p) Am b X)) = Some r /\
  ut_state (O:=O) Lin Lout (d:=d) (dc:=dc) (p:=p) pc dx w comps (affine_cols (O:=O) (d:=d) (p:=p) Am b) = r /\
  (forall N, ut_additive_state (O:=O) Lin Lout (d:=d) (dc:=dc) (p:=p) pc dx w comps
               (affine_cols (O:=O) (d:=d) (p:=p) Am b) N = add_noise_cov (O:=O) N r /\
             ut_additive_meas (O:=O) Lin Lout (d:=d) (dc:=dc) (p:=p) pc dx w comps
               (fun X => Some (affine_cols (O:=O) (d:=d) (p:=p) Am b X)) N = Some (add_noise_cov (O:=O) N r)) /\
  ur_weights r = repeat (1 / INR k) k /\ length (ur_comps r) = k /\
  (forall N, ur_weights (add_noise_cov (O:=O) N r) = repeat (1 / INR k) k /\
             length (ur_comps (add_noise_cov (O:=O) N r)) = k) /\
  images.

Lemma core_exact (images : Prop) : images -> core_statement images.
Proof.
  intros H. split; [reflexivity|]. split; [reflexivity|]. split; [reflexivity|].
  split; [intros N; split; reflexivity|].
  split; [exact core_weights|]. split; [exact core_length|].
  split; [intros N; split; [exact core_weights | unfold add_noise_cov; cbn [ur_comps]; rewrite map_length; exact core_length]|].
  exact H.
Qed.
End CoreGeneric.

