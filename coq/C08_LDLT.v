(* C08_LDLT.v — the contract of C08_Model.ldlt_sqrt (the pivoted LDL^T square root used by
   GPFCorrection::sampleFromProposal) PROVED: over any realFieldType with a square-root function
   such that 0 <= x -> sq x * sq x = x, for a symmetric positive definite P the result A of
   ldlt_sqrt satisfies A *m A^T = P
     - at the MathComp instance (MxMat), which discharges the premise "L L^T = P" of the
       Mahalanobis theorems of Properties_C08.v, and
     - at the executed list instance (ListMat at the scalars of the field), for P represented by a
       well-formed list matrix (toM / wf of ListOpsCorrect.v).
   The pivoting (ldlt_perm: first largest |diagonal entry| of the ORIGINAL matrix at every step)
   is the executed one; nothing is assumed about it - it is proved to produce a permutation, and
   the factorisation is proved for every permutation.   Axiom-free. *)
Require Import ZArith List.
Require Import BFL.Ops BFL.ListOps BFL.C08_Model BFL.C08_LDLTDef.
From mathcomp Require Import ssreflect ssrfun ssrbool eqtype ssrnat seq choice fintype bigop order ssralg ssrnum zmodp matrix mxalgebra.
From mathcomp Require Import ring.
Require Import BFL.MxOps BFL.LinAlg BFL.ListOpsCorrect.
Set Implicit Arguments.
Unset Strict Implicit.
Unset Printing Implicit Defensive.
Import Order.Theory GRing.Theory Num.Theory.
Local Open Scope ring_scope.

(* The mathematics: the recurrences of the (unpivoted) LDL^T factorisation of a symmetric
   positive definite B have positive d_j and satisfy sum_k l_ik l_ck d_k = B_ic.
   Proof by induction over the Schur complements S^(j)_ic = B_ic - sum_{k<j} l_ik l_ck d_k,
   which stay positive definite on the vectors supported on the indices >= j. *)
Section Core.
Variable F : realFieldType.
Variable n : nat.
Variables (B l : nat -> nat -> F) (d : nat -> F).

Definition bfn (S : nat -> nat -> F) (x y : nat -> F) : F :=
  \sum_(i < n) \sum_(c < n) x i * S i c * y c.
Definition qfn (S : nat -> nat -> F) (x : nat -> F) : F := bfn S x x.
Definition schur (j i c : nat) : F := B i c - \sum_(k < j) l i k * l c k * d k.

Lemma schurS j i c : schur j.+1 i c = schur j i c - l i j * l c j * d j.
Proof. by rewrite /schur big_ord_recr /= opprD addrA. Qed.

Lemma qfn_rank1 (S : nat -> nat -> F) (u x : nat -> F) (e : F) :
  qfn (fun i c => S i c - u i * u c * e) x = qfn S x - e * (\sum_(c < n) u c * x c) ^+ 2.
Proof.
rewrite /qfn /bfn expr2 big_distrlr /= mulr_sumr -sumrB; apply: eq_bigr => i _.
rewrite mulr_sumr -sumrB; apply: eq_bigr => c _; ring.
Qed.

Lemma sum_delta (j : nat) (g : nat -> F) : (j < n)%N ->
  \sum_(i < n) (i == j :> nat)%:R * g i = g j.
Proof.
move=> jn; rewrite (bigD1 (Ordinal jn)) //= eqxx mul1r big1 ?addr0 // => i ij.
have -> : (i == j :> nat) = false by apply/negbTE; move: ij; rewrite -(inj_eq val_inj).
by rewrite mul0r.
Qed.

(* completing the square: shifting x along any direction e ... *)
Lemma qfn_shift (S : nat -> nat -> F) (x e : nat -> F) (t : F) :
  qfn S (fun i => x i - t * e i) = qfn S x - t * bfn S e x - t * bfn S x e + t ^+ 2 * qfn S e.
Proof.
rewrite /qfn /bfn !mulr_sumr -!sumrB -big_split /=; apply: eq_bigr => i _.
rewrite !mulr_sumr -!sumrB -big_split /=; apply: eq_bigr => c _; ring.
Qed.

(* ... and what the three forms are for e = e_j *)
Lemma bfn_deltal S x j : (j < n)%N ->
  bfn S (fun i => (i == j :> nat)%:R) x = \sum_(c < n) S j c * x c.
Proof.
move=> jn; rewrite -(sum_delta (fun i => \sum_(c < n) S i c * x c) jn).
by apply: eq_bigr => i _; rewrite mulr_sumr; apply: eq_bigr => c _; rewrite mulrA.
Qed.

Lemma bfn_deltar S x j : (j < n)%N ->
  bfn S x (fun i => (i == j :> nat)%:R) = \sum_(i < n) x i * S i j.
Proof.
move=> jn; apply: eq_bigr => i _; rewrite -(sum_delta (fun c => x i * S i c) jn).
by apply: eq_bigr => c _; rewrite mulrC.
Qed.

Lemma qfn_delta S j : (j < n)%N -> qfn S (fun i => (i == j :> nat)%:R) = S j j.
Proof.
move=> jn; rewrite /qfn bfn_deltal // -[RHS](sum_delta (S j) jn).
by apply: eq_bigr => c _; rewrite mulrC.
Qed.

Hypothesis Bsym : forall i c, (i < n)%N -> (c < n)%N -> B i c = B c i.
Hypothesis Bpd : forall x : nat -> F, (exists2 i, (i < n)%N & x i != 0) -> 0 < qfn B x.
Hypothesis Hd : forall j, (j < n)%N -> d j = schur j j j.
Hypothesis Hl : forall i j, (j < i)%N -> (i < n)%N -> d j != 0 -> l i j = schur j i j / d j.
Hypothesis Hl1 : forall j, (j < n)%N -> l j j = 1.
Hypothesis Hl0 : forall i j, (i < j)%N -> (j < n)%N -> l i j = 0.

Lemma schur_sym j i c : (i < n)%N -> (c < n)%N -> schur j i c = schur j c i.
Proof.
move=> ii cn; rewrite /schur (Bsym ii cn); congr (_ - _).
by apply: eq_bigr => k _; rewrite [l i k * _]mulrC.
Qed.

Definition ld_inv (j : nat) : Prop :=
  (forall k, (k < j)%N -> 0 < d k) /\
  (forall x : nat -> F, (forall i, (i < j)%N -> x i = 0) ->
     (exists2 i, (j <= i < n)%N & x i != 0) -> 0 < qfn (schur j) x).

Lemma ld_inv0 : ld_inv 0.
Proof.
split=> // x _ [i /andP[_ ii] xi].
have -> : qfn (schur 0) x = qfn B x.
  by apply: eq_bigr => a _; apply: eq_bigr => c _; rewrite /schur big_ord0 subr0.
by apply: Bpd; exists i.
Qed.

Lemma ld_inv_dpos j : (j < n)%N -> ld_inv j -> 0 < d j.
Proof.
move=> jn [_ pd]; rewrite (Hd jn) -(qfn_delta (schur j) jn); apply: pd.
- by move=> i ij; rewrite ltn_eqF.
- by exists j; rewrite ?leqnn ?jn // eqxx oner_eq0.
Qed.

Lemma ld_inv_step j : (j < n)%N -> ld_inv j -> ld_inv j.+1.
Proof.
move=> jn inv; have dj := ld_inv_dpos jn inv.
have dj0 : d j != 0 by rewrite gt_eqF.
case: inv => dpos pd; split.
  by move=> k; rewrite ltnS leq_eqVlt => /orP[/eqP -> //|]; apply: dpos.
move=> x x0 [i0 /andP[ji0 i0n] xi0].
set t := \sum_(c < n) l c j * x c.
pose y := fun i => x i - t * (i == j :> nat)%:R.
have xj : x j = 0 by apply: x0.
(* column j of the Schur complement, on the support of x *)
have colj c : (c < n)%N -> schur j c j * x c = d j * (l c j * x c).
  move=> cn; case: (ltngtP c j) => [cj|jc|->].
  - by rewrite (x0 _ (ltnW cj)) !mulr0.
  - by rewrite (Hl jc cn dj0) mulrA [d j * _]mulrC divfK.
  - by rewrite xj !mulr0.
have s1 : \sum_(c < n) schur j j c * x c = d j * t.
  rewrite /t mulr_sumr; apply: eq_bigr => c _.
  by rewrite (schur_sym _ jn (ltn_ord c)) colj.
have s2 : \sum_(i < n) x i * schur j i j = d j * t.
  rewrite /t mulr_sumr; apply: eq_bigr => c _.
  by rewrite mulrC colj.
have E : qfn (schur j.+1) x = qfn (schur j) y.
  have -> : qfn (schur j.+1) x = qfn (fun i c => schur j i c - l i j * l c j * d j) x.
    by apply: eq_bigr => a _; apply: eq_bigr => c _; rewrite schurS.
  rewrite qfn_rank1 -/t /y qfn_shift bfn_deltal // bfn_deltar // qfn_delta // s1 s2 -(Hd jn); ring.
rewrite E; apply: pd.
- by move=> i ij; rewrite /y (x0 _ (ltnW ij)) (ltn_eqF ij) mulr0 subr0.
- exists i0; first by rewrite (ltnW ji0).
  by rewrite /y gtn_eqF // mulr0 subr0.
Qed.

Lemma ld_inv_all j : (j <= n)%N -> ld_inv j.
Proof.
elim: j => [_|j IH jn]; first exact: ld_inv0.
by apply: ld_inv_step => //; apply: IH; apply: ltnW.
Qed.

Theorem ld_dpos j : (j < n)%N -> 0 < d j.
Proof. by move=> jn; apply: ld_inv_dpos => //; apply: ld_inv_all; apply: ltnW. Qed.

(* L D L^T = B, entry by entry *)
Lemma ld_prod_le i c : (c <= i)%N -> (i < n)%N ->
  \sum_(k < n) l i k * l c k * d k = B i c.
Proof.
move=> ci ii; have cn : (c < n)%N by apply: leq_ltn_trans ii.
have dc0 : d c != 0 by rewrite gt_eqF // ld_dpos.
rewrite -(big_mkord xpredT (fun k => l i k * l c k * d k)).
rewrite (big_cat_nat _ _ _ (leq0n c.+1) cn) /=.
rewrite [X in _ + X]big_nat_cond [X in _ + X]big1 ?addr0; last first.
  by move=> k /andP[/andP[ck kn] _]; rewrite (Hl0 ck kn) mulr0 mul0r.
rewrite big_nat_recr //= big_mkord (Hl1 cn) mulr1.
move: ci; rewrite leq_eqVlt => /orP[/eqP E|ci].
  by rewrite -E (Hl1 cn) mul1r (Hd cn) /schur addrC subrK.
by rewrite (Hl ci ii dc0) divfK // /schur addrC subrK.
Qed.

Theorem ld_prod i c : (i < n)%N -> (c < n)%N ->
  \sum_(k < n) l i k * l c k * d k = B i c.
Proof.
move=> ii cn; case: (leqP c i) => [ci|/ltnW ic]; first exact: ld_prod_le.
rewrite (Bsym ii cn) -(ld_prod_le ic cn); apply: eq_bigr => k _.
by rewrite [l i k * _]mulrC.
Qed.

End Core.

Section ListLevel.
Variable F : realFieldType.

Lemma nat_lebE a b : Nat.leb a b = (a <= b)%N.
Proof. exact: MxOps.nat_lebE. Qed.

Lemma lnth_nth (A : Type) (s : list A) i d : List.nth i s d = nth d s i.
Proof. by elim: s i => [|x s IH] [|i] //=. Qed.

Lemma fold_sub (A : Type) (f : A -> F) (s : list A) (b : F) :
  List.fold_left (fun a k => a - f k) s b = b - \sum_(k <- s) f k.
Proof.
elim: s b => [|x s IH] b /=; first by rewrite big_nil subr0.
by rewrite IH big_cons opprD addrA.
Qed.

Lemma sum_seq (f : nat -> F) j : \sum_(k <- List.seq 0 j) f k = \sum_(k < j) f k.
Proof. by rewrite seq_iota -[j in iota 0 j]subn0 -/(index_iota 0 j) big_mkord. Qed.

(* a list grown by one entry per step keeps what was written at step k *)
Lemma snoc_seq_nth (A : Type) (s : nat -> list A) (g : nat -> A) d :
  s 0%N = nil -> (forall j, s j.+1 = (s j ++ [:: g j])%list) ->
  forall k j, (k < j)%N -> List.nth k (s j) d = g k.
Proof.
move=> s0 sS k j.
have len i : length (s i) = i.
  by elim: i => [|i IH]; rewrite ?s0 // sS List.app_length IH /= Nat.add_1_r.
elim: j => // j IH; rewrite ltnS leq_eqVlt sS => /orP[/eqP ->|kj].
  by rewrite List.app_nth2 len // Nat.sub_diag.
by rewrite List.app_nth1 ?IH // len; exact/ssrnat.ltP.
Qed.

End ListLevel.

(* The list code: the columns / pivots accumulated by the fold satisfy the recurrences. *)
Section Factor.
Variable F : realFieldType.
Variable tr : Transc F.
Notation S := (FOps tr).
Variable n : nat.
Variable B : nat -> nat -> F.

Notation st j := (ld_state S n B j).

Lemma ld_stateS j : st j.+1 = ld_step S n B (st j) j.
Proof. by rewrite /ld_state List.seq_S List.fold_left_app. Qed.

Lemma ld_state_fst j :
  fst (st j.+1) = (fst (st j) ++ [:: ld_col S n B (fst (st j)) (snd (st j)) j])%list.
Proof. by rewrite ld_stateS /ld_step; case: (st j). Qed.

Lemma ld_state_snd j :
  snd (st j.+1) = (snd (st j) ++ [:: ld_acc S B (fst (st j)) (snd (st j)) j j])%list.
Proof. by rewrite ld_stateS /ld_step; case: (st j). Qed.

Lemma ld_col_stable k j : (k < j)%N ->
  List.nth k (fst (st j)) nil = ld_col S n B (fst (st k)) (snd (st k)) k.
Proof. exact: (@snoc_seq_nth _ (fun j => fst (st j)) _ nil (erefl _) ld_state_fst). Qed.

Lemma ld_d_stable k j : (k < j)%N ->
  List.nth k (snd (st j)) 0 = ld_acc S B (fst (st k)) (snd (st k)) k k.
Proof. exact: (@snoc_seq_nth _ (fun j => snd (st j)) _ 0 (erefl _) ld_state_snd). Qed.

(* the final factor *)
Definition ldl (i k : nat) : F := ld_lij S (fst (st n)) i k.
Definition ldd (k : nat) : F := List.nth k (snd (st n)) 0.

Lemma lij_stable i k j : (k < j)%N -> (j <= n)%N -> ld_lij S (fst (st j)) i k = ldl i k.
Proof.
move=> kj jn; rewrite /ldl /ld_lij ld_col_stable // ld_col_stable //.
exact: leq_trans jn.
Qed.

Lemma dd_stable k j : (k < j)%N -> (j <= n)%N -> List.nth k (snd (st j)) 0 = ldd k.
Proof.
move=> kj jn; rewrite /ldd ld_d_stable // ld_d_stable //.
exact: leq_trans jn.
Qed.

Lemma ld_accE j i : (j <= n)%N ->
  ld_acc S B (fst (st j)) (snd (st j)) j i = schur B ldl ldd j i j.
Proof.
move=> jn; rewrite /ld_acc /schur.
rewrite (fold_sub (fun k => ld_lij S (fst (st j)) i k * ld_lij S (fst (st j)) j k * List.nth k (snd (st j)) 0)).
rewrite sum_seq; congr (_ - _); apply: eq_bigr => k _.
by rewrite !lij_stable // dd_stable.
Qed.

Lemma lddE j : (j < n)%N -> ldd j = schur B ldl ldd j j j.
Proof. by move=> jn; rewrite /ldd ld_d_stable // ld_accE // ltnW. Qed.

(* the pivot test of the code, 0 < |d_j|, is d_j != 0 *)
Lemma ldlE i j : (i < n)%N -> (j < n)%N ->
  ldl i j = if (i < j)%N then 0 else if i == j then 1
            else if ldd j != 0 then schur B ldl ldd j i j / ldd j else schur B ldl ldd j i j.
Proof.
move=> ii jn; rewrite /ldl /ld_lij ld_col_stable // /ld_col nth_map_seqN //.
have nz (x : F) : sltb S (s0 S) (if sltb S x (s0 S) then sopp S x else x) = (x != 0).
  by rewrite /=; case: (ltrgt0P x) => [//|x0|->]; rewrite ?oppr_gt0 ?ltxx.
by rewrite !ld_accE ?(ltnW jn) // -lddE // nat_ltbE nat_eqbE nz.
Qed.

Lemma ldl_below i j : (j < i)%N -> (i < n)%N -> ldd j != 0 -> ldl i j = schur B ldl ldd j i j / ldd j.
Proof.
move=> ji ii dj; have jn := ltn_trans ji ii.
by rewrite ldlE // ltnNge (ltnW ji) /= gtn_eqF // dj.
Qed.

Lemma ldl_diag j : (j < n)%N -> ldl j j = 1.
Proof. by move=> jn; rewrite ldlE // ltnn eqxx. Qed.

Lemma ldl_above i j : (i < j)%N -> (j < n)%N -> ldl i j = 0.
Proof. by move=> ij jn; rewrite ldlE ?ij // (ltn_trans ij jn). Qed.

(* so, for symmetric positive definite B, the fold computes an L D L^T factorisation of B *)
Hypothesis Bsym : forall i c, (i < n)%N -> (c < n)%N -> B i c = B c i.
Hypothesis Bpd : forall x : nat -> F, (exists2 i, (i < n)%N & x i != 0) -> 0 < qfn n B x.

Theorem ldd_pos j : (j < n)%N -> 0 < ldd j.
Proof. exact: (ld_dpos Bsym Bpd lddE ldl_below). Qed.

Theorem ldl_prod i c : (i < n)%N -> (c < n)%N -> \sum_(k < n) ldl i k * ldl c k * ldd k = B i c.
Proof. exact: (ld_prod Bsym Bpd lddE ldl_below ldl_diag ldl_above). Qed.

End Factor.

(* The pivoting produces a permutation (whatever the comparisons say). *)
Section Pivoting.
Variable O : MatOps.

(* the transposition of k and b: swap_pos k b p reads p at tau k b i *)
Definition tau (k b i : nat) : nat := if i == k then b else if i == b then k else i.

Lemma tauK k b : involutive (tau k b).
Proof.
move=> i; rewrite /tau.
case: (eqVneq i k) => [->|ik].
  by case: (eqVneq b k) => [->|bk] //; rewrite eqxx.
case: (eqVneq i b) => [->|ib]; first by rewrite eqxx.
by rewrite (negbTE ik) (negbTE ib).
Qed.

Lemma tau_lt k b m i : (k < m)%N -> (b < m)%N -> (i < m)%N -> (tau k b i < m)%N.
Proof. by move=> km bm im; rewrite /tau; case: eqP => // _; case: eqP. Qed.

Lemma map_tau_perm k b m : (k < m)%N -> (b < m)%N -> perm_eq [seq tau k b i | i <- iota 0 m] (iota 0 m).
Proof.
move=> km bm; apply: uniq_perm.
- by rewrite map_inj_uniq ?iota_uniq //; apply: (can_inj (tauK k b)).
- exact: iota_uniq.
- move=> x; rewrite mem_iota /= add0n; apply/mapP/idP => [[y]|xm].
    by rewrite mem_iota /= add0n => ym ->; apply: tau_lt.
  by exists (tau k b x); rewrite ?tauK // mem_iota /= add0n tau_lt.
Qed.

Lemma swap_posE k b (p : seq nat) : swap_pos k b p = [seq nth 0%N p (tau k b i) | i <- iota 0 (size p)].
Proof.
rewrite /swap_pos -seq_iota; apply: eq_map => i.
by rewrite lnth_nth /tau !nat_eqbE.
Qed.

Lemma swap_pos_perm k b (p : seq nat) : (k < size p)%N -> (b < size p)%N -> perm_eq (swap_pos k b p) p.
Proof.
move=> kp bp; rewrite swap_posE.
have -> : [seq nth 0%N p (tau k b i) | i <- iota 0 (size p)] = [seq nth 0%N p i | i <- [seq tau k b i | i <- iota 0 (size p)]].
  by rewrite -map_comp.
have E : p = [seq nth 0%N p i | i <- iota 0 (size p)] by rewrite -/(mkseq _ _) mkseq_nth.
rewrite [X in perm_eq _ X]E.
by apply: perm_map; apply: map_tau_perm.
Qed.

Lemma argmax_from_lt d rest j best bestv m :
  (best < m)%N -> (j + size rest <= m)%N -> (argmax_from O d rest j best bestv < m)%N.
Proof.
elim: rest j best bestv => [|p rest IH] j best bestv bm jm //=.
have jlt : (j < m)%N by apply: leq_trans jm; rewrite -addn1 leq_add2l.
have jm' : (j.+1 + size rest <= m)%N by rewrite addSnnS.
by case: ifP => _; apply: IH.
Qed.

Lemma ldlt_perm_fold n d (s p : seq nat) :
  all (fun k => k < n)%N s -> perm_eq p (iota 0 n) ->
  perm_eq (List.fold_left (fun perm k =>
             swap_pos k (argmax_from O d (List.skipn k.+1 perm) k.+1 k (sabs8 O (d (List.nth k perm 0%N)))) perm) s p)
          (iota 0 n).
Proof.
elim: s p => [|k s IH] p //= /andP[kn sn] pp.
apply: IH => //.
have sp : size p = n by rewrite (perm_size pp) size_iota.
apply: perm_trans pp; apply: swap_pos_perm; rewrite sp //.
apply: argmax_from_lt => //.
have -> : size (List.skipn k.+1 p) = (n - k.+1)%N.
  change (size (List.skipn k.+1 p)) with (length (List.skipn k.+1 p)).
  rewrite List.skipn_length; change (length p) with (size p).
  by rewrite sp minusE.
by rewrite subnKC.
Qed.

Lemma ldlt_perm_perm n d : perm_eq (ldlt_perm O n d) (iota 0 n).
Proof.
rewrite /ldlt_perm seq_iota; apply: ldlt_perm_fold => //.
by apply/allP => k; rewrite mem_iota add0n.
Qed.

Lemma index_ofE r (p : seq nat) i : index_of r p i = (i + index r p)%N.
Proof.
elim: p i => [|x p IH] i /=; first by rewrite addn0.
rewrite nat_eqbE; case: eqP => _; first by rewrite addn0.
by rewrite IH addSnnS.
Qed.

End Pivoting.

(* Assembly: the entries of ldlt_sqrt, for any pivot order that is a permutation of 0..n-1. *)
Section Assemble.
Variable F : realFieldType.
Variable tr : Transc F.
Notation S := (FOps tr).
Hypothesis sqrt_ok : forall x : F, 0 <= x -> t_sqrt tr x * t_sqrt tr x = x.
Variable n : nat.
Variable a : nat -> nat -> F.
Hypothesis asym : forall i j, (i < n)%N -> (j < n)%N -> a i j = a j i.
Hypothesis apd : forall x : nat -> F, (exists2 i, (i < n)%N & x i != 0) -> 0 < qfn n a x.
Variable perm : seq nat.
Hypothesis pperm : perm_eq perm (iota 0 n).

Let pi_ (i : nat) : nat := nth 0%N perm i.
Let sg (r : nat) : nat := index r perm.
Let B := ld_B S a perm.

Let psize : size perm = n. Proof. by rewrite (perm_size pperm) size_iota. Qed.
Let puniq : uniq perm. Proof. by rewrite (perm_uniq pperm) iota_uniq. Qed.
Let pmem r : (r \in perm) = (r < n)%N. Proof. by rewrite (perm_mem pperm) mem_iota add0n. Qed.

Let pi_lt i : (i < n)%N -> (pi_ i < n)%N.
Proof. by move=> ii; rewrite -pmem mem_nth // psize. Qed.
Let sg_lt r : (r < n)%N -> (sg r < n)%N.
Proof. by move=> rn; rewrite -psize index_mem pmem. Qed.
Let pi_sg r : (r < n)%N -> pi_ (sg r) = r.
Proof. by move=> rn; rewrite /pi_ /sg nth_index // pmem. Qed.
Let sg_pi i : (i < n)%N -> sg (pi_ i) = i.
Proof. by move=> ii; rewrite /sg /pi_ index_uniq // psize. Qed.

Lemma ld_BE i j : (i < n)%N -> (j < n)%N -> B i j = a (pi_ i) (pi_ j).
Proof.
move=> ii jn; rewrite /B /ld_B !lnth_nth -/(pi_ i) -/(pi_ j).
by case: ifP => // _; apply: asym; apply: pi_lt.
Qed.

(* sums over the pivoted order *)
Lemma sum_pi (f : nat -> F) : \sum_(i < n) f (pi_ i) = \sum_(r < n) f r.
Proof.
transitivity (\sum_(r <- perm) f r).
  by rewrite (big_nth 0%N) psize big_mkord.
by rewrite (perm_big _ pperm) /= -seq_iota sum_seq.
Qed.

Lemma B_sym i j : (i < n)%N -> (j < n)%N -> B i j = B j i.
Proof. by move=> ii jn; rewrite !ld_BE // asym // pi_lt. Qed.

Lemma B_pd (x : nat -> F) : (exists2 i, (i < n)%N & x i != 0) -> 0 < qfn n B x.
Proof.
case=> i0 i0n xi0.
pose x' r := x (sg r).
have -> : qfn n B x = qfn n a x'.
  rewrite /qfn /bfn -(sum_pi (fun r => \sum_(c < n) x' r * a r c * x' c)).
  apply: eq_bigr => i _.
  rewrite -(sum_pi (fun c => x' (pi_ i) * a (pi_ i) c * x' c)).
  apply: eq_bigr => c _.
  by rewrite ld_BE // /x' !sg_pi.
apply: apd; exists (pi_ i0); first exact: pi_lt.
by rewrite /x' sg_pi.
Qed.

Notation l := (ldl tr n B).
Notation d := (ldd tr n B).

Lemma ld_entriesE r c : ld_entries S n a perm r c = l (sg r) c * t_sqrt tr (d c).
Proof. by rewrite /ld_entries /ldl /ldd /sg index_ofE add0n. Qed.

Theorem ld_entries_contract r s : (r < n)%N -> (s < n)%N ->
  \sum_(c < n) ld_entries S n a perm r c * ld_entries S n a perm s c = a r s.
Proof.
move=> rn sn.
have -> : \sum_(c < n) ld_entries S n a perm r c * ld_entries S n a perm s c
        = \sum_(c < n) l (sg r) c * l (sg s) c * d c.
  apply: eq_bigr => c _; rewrite !ld_entriesE.
  by rewrite mulrACA sqrt_ok // ltW // (ldd_pos tr B_sym B_pd).
by rewrite (ldl_prod tr B_sym B_pd) ?sg_lt // ld_BE ?sg_lt // !pi_sg.
Qed.

End Assemble.

Section Contract.
Variable F : realFieldType.
Variable tr : Transc F.
Notation S := (FOps tr).
Hypothesis sqrt_ok : forall x : F, 0 <= x -> t_sqrt tr x * t_sqrt tr x = x.
Variable n : nat.

(* quadratic forms: LinAlg.qf on row vectors vs. the double sum over an entry function *)
Lemma qf_qfn (A : 'M[F]_n) (a : nat -> nat -> F) (x : nat -> F) :
  (forall i j : 'I_n, a i j = A i j) -> qf A (\row_i x i) = qfn n a x.
Proof.
move=> aA; rewrite /qf /qfn /bfn mxE exchange_big /=.
apply: eq_bigr => c _; rewrite !mxE mulr_suml; apply: eq_bigr => i _.
by rewrite !mxE aA.
Qed.

Lemma spd_entries (A : 'M[F]_n) (a : nat -> nat -> F) :
  (forall i j : 'I_n, a i j = A i j) -> spd A ->
  (forall i j, (i < n)%N -> (j < n)%N -> a i j = a j i) /\
  (forall x : nat -> F, (exists2 i, (i < n)%N & x i != 0) -> 0 < qfn n a x).
Proof.
move=> aA [sA pA]; split.
  move=> i j ii jn; rewrite (aA (Ordinal ii) (Ordinal jn)) (aA (Ordinal jn) (Ordinal ii)).
  by rewrite -[in LHS]sA mxE.
move=> x [i ii xi]; rewrite -(qf_qfn x aA); apply: pA.
apply/eqP => /rowP /(_ (Ordinal ii)); rewrite !mxE /= => x0.
by rewrite x0 eqxx in xi.
Qed.

(* the matrix of the entries is a square-root factor of A, whatever the pivot order *)
Lemma ld_entries_mx (A : 'M[F]_n) (a : nat -> nat -> F) (perm : seq nat) :
  (forall i j : 'I_n, a i j = A i j) -> spd A -> perm_eq perm (iota 0 n) ->
  mx_build n n (ld_entries S n a perm) *m (mx_build n n (ld_entries S n a perm))^T = A.
Proof.
move=> aA sA pp; case: (spd_entries aA sA) => asym apd.
apply/matrixP => r s; rewrite mxE -aA -(ld_entries_contract sqrt_ok asym apd pp) //.
by apply: eq_bigr => c _; rewrite !mxE.
Qed.

(* the executed list instance *)
Section ListInstance.
Variables (sq eg : nat -> lmx S -> lmx S).
Let O := ListMat S sq eg.

Theorem ldlt_sqrt_list_wf (lP : lmx S) : wf n n (@ldlt_sqrt O n lP).
Proof. by rewrite ldlt_sqrtE; apply: lbuild_wf. Qed.

Theorem ldlt_sqrt_list_correct (lP : lmx S) :
  spd (toM n n lP) ->
  toM n n (@ldlt_sqrt O n lP) *m (toM n n (@ldlt_sqrt O n lP))^T = toM n n lP.
Proof.
move=> sP; rewrite ldlt_sqrtE.
change (@mbuild O n n) with (lbuild S n n); rewrite toM_lbuild.
by apply: ld_entries_mx _ sP (ldlt_perm_perm _ _) => i j; rewrite (toM_lget tr).
Qed.

End ListInstance.

(* the MathComp instance (the one the Mahalanobis theorems are stated at) *)
Section MxInstance.
Variable sqm : forall n, 'M[F]_n -> 'M[F]_n.
Variable egm : forall n, 'M[F]_n -> 'M[F]_(n,1).
Let OM := MxMat tr sqm egm.

Theorem ldlt_sqrt_mx_correct (P : 'M[F]_n) :
  spd P -> (ldlt_sqrt (O:=OM) P : 'M[F]_n) *m (ldlt_sqrt (O:=OM) P : 'M[F]_n)^T = P.
Proof.
move=> sP; rewrite ldlt_sqrtE.
change (@mbuild OM n n) with (@mx_build F n n).
by apply: ld_entries_mx _ sP (ldlt_perm_perm _ _) => i j; rewrite /= mx_get_ord.
Qed.

End MxInstance.
End Contract.

Print Assumptions ldlt_sqrt_list_correct.
Print Assumptions ldlt_sqrt_mx_correct.

(* Non-vacuity: the premises hold together on a concrete matrix that needs the pivot swap
   (the larger diagonal entry is the second one), over any real closed field with sqrt := Num.sqrt. *)
Section Example.
Variable K : rcfType.
Definition ex_tr : Transc K := @mkTransc K Num.sqrt id id id id id (fun a _ => a) 0 0.
Definition ex_P : lmxF K := [:: [:: 1; 1]; [:: 1; 1 + 1 + 1]].

Lemma ex_sqrt_ok : forall x : K, 0 <= x -> t_sqrt ex_tr x * t_sqrt ex_tr x = x.
Proof. by move=> x x0; rewrite /= -expr2 sqr_sqrtr. Qed.

Lemma ex_wf : wf 2 2 ex_P.
Proof. by split=> //; repeat constructor. Qed.

Lemma ex_spd : spd (toM 2 2 ex_P).
Proof.
split.
  apply/matrixP => i j; rewrite !mxE.
  by case: i => [[|[|i]] //= _]; case: j => [[|[|j]] //= _].
move=> x x0.
set a := x 0 0; set b := x 0 1.
have -> : qf (toM 2 2 ex_P) x = (a + b) ^+ 2 + (1 + 1) * b ^+ 2.
  rewrite /qf mxE !big_ord_recl big_ord0 !mxE !big_ord_recl !big_ord0 !mxE /=.
  have -> : lift ord0 ord0 = 1 :> 'I_2 by apply: val_inj.
  rewrite -/a -/b; ring.
have [b0|b0] := eqVneq b 0.
  have a0 : a != 0.
    apply: contra_neq x0 => a0; apply/rowP => j; rewrite mxE.
    by case: j => [[|[|j]] //= jj]; [rewrite -[RHS]a0 | rewrite -[RHS]b0]; congr (x _ _); apply: val_inj.
  by rewrite b0 addr0 expr0n mulr0 addr0 exprn_even_gt0.
apply: ltr_paddl; first exact: sqr_ge0.
by rewrite mulr_gt0 ?addr_gt0 ?ltr01 // exprn_even_gt0.
Qed.

End Example.
