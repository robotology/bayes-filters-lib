(* C11_Regress.v — regression specifications: the transcriptions of the five
   operations as they were BEFORE the repairs 7c71916 (ParticleSet::operator+=),
   eeaa10f (ParticleSet::resize), a255301 (GaussianMixture::resize), 9b0609f
   (augmentWithNoise applied twice) and 28573a1 (augmentWithNoise on a
   ParticleSet), and one seeded defect (a move assignment that forgets dim_noise),
   each with a witness over Z, checked by vm_compute, that the invariant of C11
   fails for it.  Not part of any property theorem: they record what a
   reintroduction of the defect looks like. *)
Require Import ZArith List Bool Arith Lia.
Require Import BFL.Ops BFL.ListOps BFL.C11_Model BFL.C11_Proofs.
Import ListNotations.

Section Old.
Variable S : SOps.
Variable junk : T S.
Local Notation mx := (mx S).
Local Notation gm := (gm S).
Local Notation pset := (pset S).

(* 7c71916^: operator+= never updated `components` *)
Definition ps_concat_old (rhs p : pset) : pset :=
  let r := ps_concat S junk rhs p in
  let g := base S r in
  mkPs S (mkGm S (components S (base S p)) (use_quat S g) (dcc S g) (dim S g) (dl S g) (dc S g) (dn S g) (dcov S g)
                 (mean_ S g) (cov_ S g) (weight_ S g)) (state_ S r).

(* eeaa10f^: `(this->dim_circular = dim_circular)` in the early-return test: an assignment,
   evaluated only when dim_linear matches, true iff the new value is non-zero *)
Definition ps_resize_old (c l ci : nat) (p : pset) : pset :=
  let g0 := base S p in
  let new_dim := l + ci * dcc S g0 in
  let g := if dl S g0 =? l
           then mkGm S (components S g0) (use_quat S g0) (dcc S g0) (dim S g0) (dl S g0) ci (dn S g0) (dcov S g0)
                     (mean_ S g0) (cov_ S g0) (weight_ S g0)
           else g0 in
  if (dl S g0 =? l) && negb (ci =? 0) && (components S g0 =? c) then mkPs S g (state_ S p)
  else
    let st := if (dim S g =? new_dim) && negb (components S g =? c)
              then e_cresize_cols S junk (state_ S p) c
              else e_resize S (state_ S p) new_dim c in
    mkPs S (gm_resize S junk c l ci g) st.

(* a255301^: the conservative branch did not compare dim_covariance, dim_noise was not reset *)
Definition gm_resize_old (c l ci : nat) (g : gm) : gm :=
  let new_dim := l + ci * dcc S g in
  let new_dcov := if use_quat S g then l + ci * (dcc S g - 1) else new_dim in
  if (dl S g =? l) && (dc S g =? ci) && (components S g =? c) then g
  else if (dim S g =? new_dim) && negb (components S g =? c) then
    mkGm S c (use_quat S g) (dcc S g) new_dim l ci (dn S g) new_dcov
         (e_cresize_cols S junk (mean_ S g) c) (e_cresize_cols S junk (cov_ S g) (dcov S g * c))
         (e_cresize_vec S junk (weight_ S g) c)
  else
    mkGm S c (use_quat S g) (dcc S g) new_dim l ci (dn S g) new_dcov
         (e_resize S (mean_ S g) new_dim c) (e_resize S (cov_ S g) new_dcov (new_dcov * c))
         (e_resize S (weight_ S g) c 1).

(* 9b0609f^: dim_noise overwritten, old block size = size without any noise *)
Definition gm_augment_old (q : mx) (g : gm) : bool * gm :=
  if negb (mrows S q =? mcols S q) then (false, g)
  else
    let dn' := mrows S q in
    let dim' := dim S g + dn' in
    let dcov' := dcov S g + dn' in
    let m1 := e_cresize_rows S (mean_ S g) dim' in
    let m2 := e_set_block S m1 (mrows S m1 - dn') 0 (e_zero S dn' (components S g)) in
    let c1 := e_cresize_like S (cov_ S g) (e_zero S dcov' (dcov' * components S g)) in
    let dim_old := if use_quat S g then dl S g + dc S g * (dcc S g - 1) else dl S g + dc S g in
    let c2 := relocate S (components S g) dim_old dcov' c1 in
    let c3 := place_noise S (components S g) dim_old dn' dcov' q c2 in
    (true, mkGm S (components S g) (use_quat S g) (dcc S g) dim' (dl S g) (dc S g) dn' dcov' m2 c3 (weight_ S g)).

(* seeded C11-r5 (not a repair of /repo: a recorded breaking change): a hand-written move assignment
   that takes every descriptor and the storage of the source but forgets dim_noise *)
Definition gm_move_assign_without_dn (tgt src : gm) : gm :=
  mkGm S (components S src) (use_quat S src) (dcc S src) (dim S src) (dl S src) (dc S src) (dn S tgt) (dcov S src)
       (mean_ S src) (cov_ S src) (weight_ S src).

(* 28573a1^: augmentWithNoise was not virtual; a ParticleSet kept its state_ *)
Definition ps_augment_old (q : mx) (p : pset) : bool * pset :=
  let r := gm_augment S q (base S p) in (fst r, mkPs S (snd r) (state_ S p)).
End Old.

Local Notation Z0j := (0%Z : T ZOps).
Definition q11 : C11_Model.mx ZOps := mk ZOps 1 1 (fun _ _ => 9%Z).
Definition q22 : C11_Model.mx ZOps := mk ZOps 2 2 (fun i j => (20 + Z.of_nat (2 * j + i))%Z).

(* the invariant is executable (iff: gm_consistentb_iff or ps_consistentb_iff): it fails of a concrete object if its test evaluates to false *)
Ltac refute_by iff := let H := fresh "H" in intro H; apply iff in H; vm_compute in H; discriminate H.

(* a(3;2) += b(2;2): 3 components reported, 5 stored *)
Lemma ps_concat_old_refuted :
  exists a b : C11_Model.pset ZOps,
    Consistent_ps ZOps a /\ concat_ok ZOps b a /\ ~ Consistent_ps ZOps (ps_concat_old ZOps Z0j b a).
Proof.
  exists (ps_ctor ZOps 3 2 0 false), (ps_ctor ZOps 2 2 0 false).
  split; [apply ps_ctor_consistent|]. split; [split; [apply ps_ctor_consistent|split; reflexivity]|]. refute_by ps_consistentb_iff.
Qed.

(* (3;2,1) -> resize(3;2,0): dim = 3 with a 2-row state *)
Lemma ps_resize_old_refuted :
  exists (p : C11_Model.pset ZOps) c l ci,
    Consistent_ps ZOps p /\ ~ Consistent_ps ZOps (ps_resize_old ZOps Z0j c l ci p).
Proof.
  exists (ps_ctor ZOps 3 2 1 false), 3, 2, 0. split; [apply ps_ctor_consistent|]. refute_by ps_consistentb_iff.
Qed.

(* dim_noise survives a resize *)
Lemma gm_resize_old_noise_refuted :
  exists (g : C11_Model.gm ZOps) c l ci,
    Consistent ZOps g /\ ~ Consistent ZOps (gm_resize_old ZOps Z0j c l ci g).
Proof.
  exists (snd (gm_augment ZOps q11 (gm_ctor ZOps 2 2 0 false))), 3, 2, 0.
  split; [apply gm_augment_consistent; apply gm_ctor_consistent|]. refute_by gm_consistentb_iff.
Qed.

(* (2;4,0,quat) -> (3;0,1): same dim, other covariance size, conservative branch *)
Lemma gm_resize_old_quat_refuted :
  exists (g : C11_Model.gm ZOps) c l ci,
    Consistent ZOps g /\ ~ Consistent ZOps (gm_resize_old ZOps Z0j c l ci g).
Proof.
  exists (gm_ctor ZOps 2 4 0 true), 3, 0, 1. split; [apply gm_ctor_consistent|]. refute_by gm_consistentb_iff.
Qed.

(* second augmentation: descriptors wrong, and the covariance of component 1 scrambled *)
Lemma gm_augment_old_twice_refuted :
  exists (g : C11_Model.gm ZOps) q1 q2,
    Consistent ZOps g /\ 1 <= components ZOps g /\ mrows ZOps q1 = mcols ZOps q1 /\ mrows ZOps q2 = mcols ZOps q2
    /\ let g1 := snd (gm_augment_old ZOps q1 g) in
       let g2 := snd (gm_augment_old ZOps q2 g1) in
       Consistent ZOps g1 /\ ~ Consistent ZOps g2
       /\ gm_cov ZOps g2 1 <> blockdiag ZOps (blockdiag ZOps (gm_cov ZOps g 1) q1) q2.
Proof.
  exists (gm_fill ZOps 1%Z (gm_ctor ZOps 2 2 0 false)), q11, q22.
  split; [apply gm_fill_consistent; apply gm_ctor_consistent|]. split; [vm_compute; lia|].
  split; [reflexivity|]. split; [reflexivity|].
  split; [apply gm_consistentb_iff; vm_compute; reflexivity|]. split; [refute_by gm_consistentb_iff|].
  (* one cell decides; comparing the evaluated matrices drags the evaluated scalar record along *)
  intro H. apply (f_equal (fun m => get ZOps m 0 0)) in H. vm_compute in H. discriminate H.
Qed.

(* PS(2;2) + Q(1x1): dim = 3 with a 2-row state; a later resize(3;3) keeps it short *)
Lemma ps_augment_old_refuted :
  exists (p : C11_Model.pset ZOps) q,
    Consistent_ps ZOps p /\ mrows ZOps q = mcols ZOps q
    /\ ~ Consistent_ps ZOps (snd (ps_augment_old ZOps q p))
    /\ ~ Consistent_ps ZOps (ps_resize ZOps Z0j 3 3 0 (snd (ps_augment_old ZOps q p))).
Proof.
  exists (ps_ctor ZOps 2 2 0 false), q11. split; [apply ps_ctor_consistent|]. split; [reflexivity|].
  split; refute_by ps_consistentb_iff.
Qed.

(* g augmented, then g = GaussianMixture(3, 2, 1, true): the target keeps its own dim_noise = 1 with the
   un-augmented storage of the temporary; and h = augmented(belief): dim_noise = 0 with augmented storage *)
Lemma gm_move_assign_without_dn_refuted :
  exists tgt src : C11_Model.gm ZOps,
    Consistent ZOps tgt /\ Consistent ZOps src
    /\ ~ Consistent ZOps (gm_move_assign_without_dn ZOps tgt src)
    /\ ~ Consistent ZOps (gm_move_assign_without_dn ZOps src tgt).
Proof.
  exists (snd (gm_augment ZOps q11 (gm_ctor ZOps 2 1 1 false))), (gm_ctor ZOps 3 2 1 true).
  split; [apply gm_augment_consistent; apply gm_ctor_consistent|]. split; [apply gm_ctor_consistent|].
  split; refute_by gm_consistentb_iff.
Qed.
