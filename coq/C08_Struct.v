(* C08_Struct.v — structural theorems about the C08 model that hold at EVERY
   arithmetic instance (any MatOps: MathComp matrices, Coq reals, and the
   float instance that is executed), and the invariant of its lifetime model
   (rs_run).  Plain Coq lists; no axioms. *)
Require Import ZArith List Bool Lia.
Require Import BFL.Ops BFL.ListFacts BFL.Density BFL.C01_Model BFL.C08_Model.
Import ListNotations.

(* reading a list entry by entry over its index range is mapping over it *)
Lemma map_seq_nth {A B} (f : A -> B) (l : list A) (d : A) :
  map (fun i => f (nth i l d)) (seq 0 (length l)) = map f l.
Proof.
  apply (nth_ext _ _ (f d) (f d)); rewrite !map_length, seq_length; [reflexivity|].
  intros i Hi. rewrite nth_map_seq by exact Hi. symmetry. apply map_nth.
Qed.

Lemma map_nth_seq {A} (l : list A) (d : A) : map (fun i => nth i l d) (seq 0 (length l)) = l.
Proof. rewrite (map_seq_nth (fun x => x)). apply map_id. Qed.

Lemma map_seq_ext {A} (f g : nat -> A) (N : nat) :
  (forall i, i < N -> f i = g i) -> map f (seq 0 N) = map g (seq 0 N).
Proof. exact (ListFacts.map_seq_ext f g N). Qed.

Lemma combine_length_eq {A B} (a : list A) (b : list B) :
  length a = length b -> length (combine a b) = length a.
Proof. intros H. rewrite combine_length. lia. Qed.

Lemma last_cons_default {A} (a : A) (l : list A) (d : A) : last (a :: l) d = last l a.
Proof.
  revert a d. induction l as [|b l IH]; intros a d; [reflexivity|].
  change (last (a :: b :: l) d) with (last (b :: l) d). rewrite !IH. reflexivity.
Qed.

(* the lifetime model (rs_* of C08_Model): HEAD = rs_run true *)
Lemma rs_find_id st id o : rs_find st id = Some o -> rs_id o = id.
Proof. unfold rs_find. intros H. apply find_some in H. destruct H as [_ H]. now apply Nat.eqb_eq in H. Qed.

Lemma rs_find_in st id o : rs_find st id = Some o -> In o st.
Proof. unfold rs_find. intros H. now apply find_some in H. Qed.

Lemma rs_find_upd st id f j : (forall o, rs_id (f o) = rs_id o) ->
  rs_find (rs_upd st id f) j =
  option_map (fun o => if Nat.eqb (rs_id o) id then f o else o) (rs_find st j).
Proof.
  intros Hf. unfold rs_find, rs_upd. induction st as [|a st IH]; cbn; auto.
  assert (E : rs_id (if Nat.eqb (rs_id a) id then f a else a) = rs_id a) by (destruct (Nat.eqb (rs_id a) id); auto).
  rewrite E. destruct (Nat.eqb (rs_id a) j); auto.
Qed.

Lemma rs_find_upd_same st id f : (forall o, rs_id (f o) = rs_id o) ->
  rs_find (rs_upd st id f) id = option_map f (rs_find st id).
Proof.
  intros Hf. rewrite rs_find_upd by exact Hf. destruct (rs_find st id) as [o|] eqn:E; [|reflexivity].
  cbn. now rewrite (rs_find_id _ _ _ E), Nat.eqb_refl.
Qed.

Lemma rs_find_upd_other st id f j : (forall o, rs_id (f o) = rs_id o) -> j <> id ->
  rs_find (rs_upd st id f) j = rs_find st j.
Proof.
  intros Hf Hj. rewrite rs_find_upd by exact Hf. destruct (rs_find st j) as [o|] eqn:E; [|reflexivity].
  cbn. apply Nat.eqb_neq in Hj. now rewrite (rs_find_id _ _ _ E), Hj.
Qed.

(* invariant of HEAD: every closure reads the object it lives in; the flag is always written *)
Definition rs_ok (o : rs_obj) : Prop := rs_target o = rs_id o /\ rs_valid o <> None.

Lemma rs_upd_ok st id f : Forall rs_ok st -> (forall o, rs_ok o -> rs_ok (f o)) -> Forall rs_ok (rs_upd st id f).
Proof.
  intros H Hf. unfold rs_upd. apply Forall_map. eapply Forall_impl; [|exact H].
  intros o Ho. cbn. destruct (Nat.eqb (rs_id o) id); auto.
Qed.

Lemma rs_find_ok st id o : Forall rs_ok st -> rs_find st id = Some o -> rs_ok o.
Proof. intros H E. rewrite Forall_forall in H. apply H. exact (rs_find_in _ _ _ E). Qed.

(* Moving from an object, drawing and destroying rewrite neither rs_target nor rs_valid: for these
   updates f, rs_ok (f o) computes to rs_ok o.  The others write a closure over the object itself
   and a flag that is Some _ (copied from an object that satisfies the invariant, or fresh). *)
Lemma rs_step_ok st op : Forall rs_ok st -> Forall rs_ok (rs_step true st op).
Proof.
  intros H. destruct op as [id seed k|dst src|dst src|id v|id|id]; cbn.
  - constructor; [split; [reflexivity|discriminate]|exact H].
  - destruct (rs_find st src) as [o|] eqn:E; [|exact H].
    constructor; [split; [reflexivity|apply (rs_find_ok _ _ _ H E)]|].
    apply rs_upd_ok; [exact H | exact (fun _ K => K)].
  - destruct (rs_find st src) as [o|] eqn:E; [|exact H].
    apply rs_upd_ok; [apply rs_upd_ok; [exact H|] | exact (fun _ K => K)].
    intros d _. split; [reflexivity|apply (rs_find_ok _ _ _ H E)].
  - apply rs_upd_ok; [exact H|]. intros o [A _]. split; [exact A|discriminate].
  - destruct (rs_find st id); [|exact H]. apply rs_upd_ok; [exact H | exact (fun _ K => K)].
  - apply rs_upd_ok; [exact H | exact (fun _ K => K)].
Qed.

Lemma rs_run_snoc b ops op : rs_run b (ops ++ [op]) = rs_step b (rs_run b ops) op.
Proof. unfold rs_run. now rewrite fold_left_app. Qed.

Lemma rs_run_ok ops : Forall rs_ok (rs_run true ops).
Proof.
  induction ops as [|op ops IH] using rev_ind; [constructor|].
  rewrite rs_run_snoc. now apply rs_step_ok.
Qed.

Section Struct.
Variable O : MatOps.
Notation S := (sc O).
Variable n : nat.

Notation dpart := (dparticle O n).
Notation dgc := (dgcomp O n).

Lemma pbelief_mk (x : M O n 1) (b : gcomp O n) (w : T S) :
  pbelief (mkParticle x (gmean b) (gcov b) w) = b.
Proof. now destruct b. Qed.

Lemma gm_of_length (ps : pset O n) : length (gm_of ps) = length ps.
Proof. apply map_length. Qed.

Lemma map_fst_gm_of (ps : pset O n) : map fst (gm_of ps) = map pbelief ps.
Proof. apply map_map. Qed.

Lemma belief_at_map_fst (g : gmixture O n) :
  map (fun i => belief_at g i) (seq 0 (length g)) = map fst g.
Proof.
  exact (map_seq_nth fst g (dgc, s0 S)).
Qed.

Lemma belief_at_nth (g : gmixture O n) i : belief_at g i = nth i (map fst g) dgc.
Proof. unfold belief_at. now rewrite <- (map_nth fst). Qed.

(* a wrapped step keeps the number of components when the object it reads and
   the object it writes have the same number of components *)
Definition shape_ok (g : gstep O n) : Prop :=
  forall a b, length a = length b -> length (g a b) = length a.

Section Predict.
Variable gp : gstep O n.
Variables prev old : pset O n.

Lemma predict_length : length (gpf_predict gp prev old) = length prev.
Proof. unfold gpf_predict. now rewrite map_length, seq_length. Qed.

Lemma predict_states : map pstate (gpf_predict gp prev old) = map pstate prev.
Proof.
  unfold gpf_predict. rewrite map_map. exact (map_seq_nth pstate prev dpart).
Qed.

Lemma predict_weights : map plw (gpf_predict gp prev old) = map plw prev.
Proof.
  unfold gpf_predict. rewrite map_map. exact (map_seq_nth plw prev dpart).
Qed.

Lemma predict_beliefs :
  length (gp (gm_of prev) (gm_of old)) = length prev ->
  map pbelief (gpf_predict gp prev old) = map fst (gp (gm_of prev) (gm_of old)).
Proof.
  intros Hs. unfold gpf_predict. rewrite map_map.
  rewrite <- belief_at_map_fst, Hs.
  apply map_ext. intros i. apply pbelief_mk.
Qed.

Lemma pf_predict_skip : pf_predict true gp prev old = prev.
Proof. reflexivity. Qed.
Lemma pf_predict_noskip : pf_predict false gp prev old = gpf_predict gp prev old.
Proof. reflexivity. Qed.
End Predict.

Section Correct.
Variable gc : gstep O n.
Variable lik : list (M O n 1) -> bool * list (T S).
Variable trans : list (M O n 1) -> list (M O n 1) -> list (T S).
Variable zs : list (M O n 1).
Variables pred old : pset O n.

Let g := gc (gm_of pred) (gm_of old).
Let N := length pred.
Let xs := gpf_drawn gc zs pred old.
Let r := gpf_correct gc lik trans zs pred old.

Lemma beliefs_length : length (gpf_beliefs gc pred old) = N.
Proof. unfold gpf_beliefs. now rewrite map_length, seq_length. Qed.

Lemma beliefs_nth i d : i < N -> nth i (gpf_beliefs gc pred old) d = belief_at g i.
Proof. intros Hi. unfold gpf_beliefs. now rewrite nth_map_seq. Qed.

Lemma beliefs_wrapped : length g = N -> gpf_beliefs gc pred old = map fst g.
Proof.
  intros Hs. unfold gpf_beliefs. fold g. fold N. rewrite <- Hs. apply belief_at_map_fst.
Qed.

Lemma drawn_length : length xs = N.
Proof. unfold xs, gpf_drawn. now rewrite map_length, seq_length. Qed.

(* x_i = m_i + L_i z_i, L_i the square-root factor of the corrected covariance *)
Lemma drawn_nth i d : i < N ->
  nth i xs d =
  sample_from_proposal (gmean (belief_at g i)) (gcov (belief_at g i)) (nth i zs (mzero n 1)).
Proof.
  intros Hi. unfold xs, gpf_drawn. rewrite nth_map_seq by exact Hi.
  now rewrite beliefs_nth.
Qed.

(* the step in one equation: the verdict of the likelihood model on the drawn positions chooses
   between the predicted set and the re-weighted draws *)
Lemma gpf_correct_eq :
  r = let ls := snd (lik xs) in
      if fst (lik xs)
      then mkCorr (map (fun i => let b := nth i (gpf_beliefs gc pred old) dgc in
                                 let x := nth i xs (mzero n 1) in
                                 mkParticle x (gmean b) (gcov b)
                                   (gpf_weight S (plw (nth i pred dpart)) (nth i ls (s0 S))
                                               (nth i (trans (map pstate pred) xs) (s0 S))
                                               (evaluate_proposal x (gmean b) (gcov b))))
                       (seq 0 N))
                  true ls
      else mkCorr pred false ls.
Proof. unfold r, gpf_correct. fold xs. destruct (lik xs) as [[|] ls]; reflexivity. Qed.

(* the likelihood model is evaluated on the drawn positions; its verdict and its
   values are what the step keeps (valid_likelihood_, likelihood_) *)
Lemma correct_likelihood_on_drawn : (cr_valid r, cr_lik r) = lik xs.
Proof. rewrite gpf_correct_eq. destruct (lik xs) as [[|] ls]; reflexivity. Qed.

Lemma correct_invalid : fst (lik xs) = false ->
  cr_particles r = pred /\ cr_valid r = false.
Proof. intros E. rewrite gpf_correct_eq, E. now split. Qed.

Lemma correct_valid_flag : fst (lik xs) = true -> cr_valid r = true.
Proof. intros E. now rewrite gpf_correct_eq, E. Qed.

Lemma correct_length : length (cr_particles r) = N.
Proof.
  rewrite gpf_correct_eq. destruct (fst (lik xs)); cbn; [|reflexivity].
  now rewrite map_length, seq_length.
Qed.

Section Valid.
Hypothesis Hvalid : fst (lik xs) = true.

Let ls := snd (lik xs).
Let ts := trans (map pstate pred) xs.

Lemma correct_beliefs_list : map pbelief (cr_particles r) = gpf_beliefs gc pred old.
Proof.
  rewrite gpf_correct_eq, Hvalid. cbn. rewrite map_map.
  transitivity (map (fun i => nth i (gpf_beliefs gc pred old) dgc) (seq 0 N)).
  - apply map_ext. intros i. apply pbelief_mk.
  - rewrite <- beliefs_length. apply map_nth_seq.
Qed.

(* beliefs := the wrapped Gaussian correction, for every wrapped step *)
Lemma correct_beliefs : length g = N -> map pbelief (cr_particles r) = map fst g.
Proof. intros Hs. rewrite correct_beliefs_list. now apply beliefs_wrapped. Qed.

(* positions := the draws from the corrected Gaussians *)
Lemma correct_positions : map pstate (cr_particles r) = xs.
Proof.
  rewrite gpf_correct_eq, Hvalid. cbn. rewrite map_map. cbn [pstate].
  rewrite <- drawn_length. apply map_nth_seq.
Qed.

(* the weight update, particle by particle *)
Lemma correct_weight i d : i < N ->
  plw (nth i (cr_particles r) d) =
  let b := belief_at g i in
  let x := nth i xs (mzero n 1) in
  gpf_weight S (plw (nth i pred dpart)) (nth i ls (s0 S)) (nth i ts (s0 S))
             (density x (gmean b) (gcov b)).
Proof.
  intros Hi. rewrite gpf_correct_eq, Hvalid. cbn. rewrite nth_map_seq by exact Hi. cbn.
  now rewrite beliefs_nth.
Qed.

Lemma correct_particle i d : i < N ->
  nth i (cr_particles r) d =
  let b := belief_at g i in
  let x := sample_from_proposal (gmean b) (gcov b) (nth i zs (mzero n 1)) in
  mkParticle x (gmean b) (gcov b)
    (gpf_weight S (plw (nth i pred dpart)) (nth i ls (s0 S)) (nth i ts (s0 S))
                (density x (gmean b) (gcov b))).
Proof.
  intros Hi. rewrite gpf_correct_eq, Hvalid. cbn. rewrite nth_map_seq by exact Hi. cbn.
  rewrite beliefs_nth by exact Hi. rewrite (drawn_nth i _ Hi). reflexivity.
Qed.
End Valid.
End Correct.

(* the models plugged in by the correspondence check *)
Lemma kf_corr_gstep_shape m (H : M O m n) (R : M O m m) (y : M O m 1) v :
  shape_ok (kf_corr_gstep v H R y).
Proof.
  intros a b Hl. unfold kf_corr_gstep, kf_correct. destruct v; [|reflexivity].
  rewrite combine_length_eq; rewrite !map_length; auto.
Qed.

Lemma kf_pred_gstep_shape (F Q : M O n n) : shape_ok (kf_pred_gstep F Q).
Proof.
  intros a b Hl. unfold kf_pred_gstep. rewrite combine_length_eq; rewrite !map_length; auto.
Qed.

Lemma kf_corr_gstep_beliefs m (H : M O m n) (R : M O m m) (y : M O m 1) a b :
  length a = length b ->
  map fst (kf_corr_gstep true H R y a b) = map (fun c => ko_comp (kf_correct_one H R y c)) (map fst a).
Proof.
  intros Hl. unfold kf_corr_gstep, kf_correct.
  rewrite map_fst_combine by (rewrite !map_length; exact Hl). apply map_map.
Qed.

Lemma kf_pred_gstep_beliefs (F Q : M O n n) a b :
  length a = length b ->
  map fst (kf_pred_gstep F Q a b) = map (kf_pred_comp F Q) (map fst a).
Proof.
  intros Hl. unfold kf_pred_gstep. apply map_fst_combine. rewrite !map_length. exact Hl.
Qed.

Lemma combine_map_length {A B C D} (f : A -> B) (g : C -> D) (a : list A) (c : list C) :
  length a = length c -> length (combine (map f a) (map g c)) = length a.
Proof. intros H. rewrite combine_length_eq; rewrite !map_length; auto. Qed.

Lemma ukf_corr_gstep_shape m v w (h : M O n 1 -> M O m 1) (R : M O m m) (y : M O m 1) :
  shape_ok (ukf_corr_gstep v w h R y).
Proof.
  intros a b Hl. unfold ukf_corr_gstep. destruct v; [|reflexivity].
  rewrite combine_length_eq; rewrite !map_length; auto.
Qed.
Lemma sukf_corr_gstep_shape m v w (h : M O n 1 -> M O m 1) (R : M O m m) (y : M O m 1) :
  shape_ok (sukf_corr_gstep v w h R y).
Proof.
  intros a b Hl. unfold sukf_corr_gstep. destruct v; [|reflexivity].
  rewrite combine_length_eq; rewrite !map_length; auto.
Qed.
Lemma copy_gstep_shape : shape_ok (@copy_gstep O n).
Proof. intros a b Hl. reflexivity. Qed.

(* over a usable linear measurement model it always reports valid *)
Lemma gauss_lik_valid m scale (H : M O m n) R y (xs : list (M O n 1)) :
  gauss_lik scale true H R y xs =
  (true, map (fun x => smul S scale (density (lin_innovation (lin_predicted H x) y) (mzero m 1) R)) xs).
Proof. reflexivity. Qed.

Lemma gauss_lik_length m scale (H : M O m n) R y (xs : list (M O n 1)) :
  length (snd (gauss_lik scale true H R y xs)) = length xs.
Proof. rewrite gauss_lik_valid. apply map_length. Qed.

Lemma lin_trans_length (F Q : M O n n) ps cs :
  length ps = length cs -> length (lin_trans F Q ps cs) = length cs.
Proof. intros Hl. unfold lin_trans. rewrite map_length, combine_length. lia. Qed.

Lemma lin_trans_nth (F Q : M O n n) ps cs i d :
  i < length cs -> length ps = length cs ->
  nth i (lin_trans F Q ps cs) d =
  density (msub (nth i cs (mzero n 1)) (mmul F (nth i ps (mzero n 1)))) (mzero n 1) Q.
Proof.
  intros Hi Hl. unfold lin_trans.
  rewrite (nth_map_in _ _ i _ (mzero n 1, mzero n 1)) by (rewrite combine_length; lia).
  rewrite combine_nth by exact Hl. reflexivity.
Qed.

(* what one filtering step establishes between the state before and after it *)
Definition step_formulae (N : nat) (st1 : fstate O n) (s : step_in O n) (st2 : fstate O n) : Prop :=
  let gP := si_gp s (gm_of (fs_corr st1)) (gm_of (fs_pred st1)) in
  let gC := si_gc s (gm_of (fs_pred st2)) (gm_of (fs_corr st1)) in
  let xs := gpf_drawn (si_gc s) (si_zs s) (fs_pred st2) (fs_corr st1) in
  length (fs_pred st2) = N /\ length (fs_corr st2) = N /\
  (* prediction: positions and weights of the previous corrected set, beliefs of the wrapped step *)
  map pstate (fs_pred st2) = map pstate (fs_corr st1) /\
  map plw (fs_pred st2) = map plw (fs_corr st1) /\
  map pbelief (fs_pred st2) = map fst gP /\
  (* correction *)
  (fs_valid st2, fs_lik st2) = si_lik s xs /\
  (fs_valid st2 = false -> fs_corr st2 = fs_pred st2) /\
  (fs_valid st2 = true ->
     map pbelief (fs_corr st2) = map fst gC /\
     map pstate (fs_corr st2) = xs /\
     (* contracts of the likelihood / transition models: one value per position / pair *)
     (length (fs_lik st2) = N -> length (si_trans s (map pstate (fs_pred st2)) xs) = N ->
     forall i, i < N ->
       nth i xs (mzero n 1) =
         sample_from_proposal (gmean (belief_at gC i)) (gcov (belief_at gC i)) (nth i (si_zs s) (mzero n 1)) /\
       plw (nth i (fs_corr st2) dpart) =
         gpf_weight S (plw (nth i (fs_pred st2) dpart)) (nth i (fs_lik st2) (s0 S))
                    (nth i (si_trans s (map pstate (fs_pred st2)) xs) (s0 S))
                    (density (nth i xs (mzero n 1)) (gmean (belief_at gC i)) (gcov (belief_at gC i))))).

Lemma gpf_step_formulae N st s :
  length (fs_pred st) = N -> length (fs_corr st) = N ->
  shape_ok (si_gp s) -> shape_ok (si_gc s) ->
  step_formulae N st s (gpf_step st s).
Proof.
  intros Lp Lc Sp Sc. unfold step_formulae, gpf_step. cbn [fs_pred fs_corr fs_valid fs_lik].
  set (pred := gpf_predict (si_gp s) (fs_corr st) (fs_pred st)).
  assert (LP : length pred = N) by (unfold pred; rewrite predict_length; exact Lc).
  assert (SC : length (si_gc s (gm_of pred) (gm_of (fs_corr st))) = length pred).
  { rewrite Sc; rewrite !gm_of_length; congruence. }
  split; [exact LP|]. split; [rewrite correct_length; exact LP|].
  split; [apply predict_states|]. split; [apply predict_weights|].
  split; [apply predict_beliefs; rewrite Sp; rewrite !gm_of_length; congruence|].
  (* the flag and the values kept are those of the likelihood model on the drawn positions *)
  pose proof (correct_likelihood_on_drawn (si_gc s) (si_lik s) (si_trans s) (si_zs s) pred (fs_corr st)) as HL.
  split; [exact HL|].
  pose proof (f_equal fst HL) as Ev. pose proof (f_equal snd HL) as El. cbn [fst snd] in Ev, El.
  rewrite Ev, El. split; intros Hv.
  - now apply correct_invalid.
  - split; [now apply correct_beliefs|]. split; [now apply correct_positions|].
    intros _ _ i Hi. rewrite <- LP in Hi.
    split; [now apply drawn_nth | exact (correct_weight _ _ _ _ _ _ Hv i dpart Hi)].
Qed.

Lemma gpf_run_app (st : fstate O n) h1 h2 : gpf_run (gpf_run st h1) h2 = gpf_run st (h1 ++ h2).
Proof. unfold gpf_run. now rewrite fold_left_app. Qed.

Lemma gpf_run_firstn_S (st : fstate O n) h k d : k < length h ->
  gpf_run st (firstn (Datatypes.S k) h) = gpf_step (gpf_run st (firstn k h)) (nth k h d).
Proof. intros Hk. rewrite (firstn_S_nth h k d Hk), <- gpf_run_app. reflexivity. Qed.

Lemma gpf_run_lengths N st h :
  length (fs_pred st) = N -> length (fs_corr st) = N ->
  Forall (fun s => shape_ok (si_gp s) /\ shape_ok (si_gc s)) h ->
  length (fs_pred (gpf_run st h)) = N /\ length (fs_corr (gpf_run st h)) = N.
Proof.
  intros Lp Lc HF. revert st Lp Lc. induction HF as [|s h [Sp Sc] HF IH]; intros st Lp Lc; cbn; auto.
  destruct (gpf_step_formulae N st s Lp Lc Sp Sc) as (L1 & L2 & _). apply IH; assumption.
Qed.

(* PF-level skip flags: without them pf_step is gpf_step; a skipped prediction copies the previous set *)
Lemma pf_step_noskip (st : fstate O n) s : pf_step st (s, (false, false)) = gpf_step st s.
Proof. reflexivity. Qed.
Lemma pf_step_skip_prediction (st : fstate O n) s sc : fs_pred (pf_step st (s, (true, sc))) = fs_corr st.
Proof. unfold pf_step. destruct sc; reflexivity. Qed.
Lemma gpf_trace_length (st : fstate O n) h : length (gpf_trace st h) = length h.
Proof. revert st. induction h as [|s h IH]; intros st; cbn; auto. Qed.

End Struct.
