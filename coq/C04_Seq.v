(* C04_Seq.v — several calls on ONE UKFCorrection object: what a call that is not skipped
   returns (output object, per-component outcomes, what getLikelihood reports afterwards)
   does not depend on what earlier calls left in the object, for every arithmetic instance
   and every model (linear or not).  Hence a sequence of non-skipped calls on one object,
   the model changing freely between them, returns call by call what a fresh object returns.
   (UKFPrediction keeps nothing but the weights: its model, ukf_predict_additive /
   ukf_predict_generic, has no state argument at all.) *)
Require Import ZArith List Bool.
Require Import BFL.Ops BFL.Density BFL.C01_Model BFL.C03_Model BFL.C04_Model.
From mathcomp Require Import ssreflect ssrfun ssrbool.
Set Implicit Arguments.
Unset Strict Implicit.
Unset Printing Implicit Defensive.

Section Seq.
Variable O : MatOps.

(* one call of an object, as a transformer of the kept state *)
Definition ccall (n m : nat) : Type :=
  ukf_state O m -> mixture O n n * ukf_state O m * list (kf_out O n m).

(* what the caller sees of a call: the output object and the answer of getLikelihood *)
Definition observed n m (r : mixture O n n * ukf_state O m * list (kf_out O n m)) :=
  (r.1.1, r.2, ukf_likelihood r.1.2).

Fixpoint run_calls n m (calls : list (ccall n m)) (st : ukf_state O m) :=
  match calls with
  | nil => nil
  | c :: cs => observed (c st) :: run_calls cs (c st).1.2
  end.

Definition fresh_call n m (c : ccall n m) := observed (c (mkUkfState nil nil)).

Definition history_independent n m (c : ccall n m) : Prop :=
  forall s s', observed (c s) = observed (c s').

Lemma run_calls_fresh n m (calls : list (ccall n m)) st :
  (forall c, In c calls -> history_independent c) ->
  run_calls calls st = List.map (@fresh_call n m) calls.
Proof.
elim: calls st => [//|c cs IH] st Hc /=.
rewrite (Hc c (or_introl erefl) st (mkUkfState nil nil)) IH // => c' Hc'.
by apply: Hc; right.
Qed.

(* the calls the sequences of the correspondence check are made of *)
Definition additive_call n m (Ld Lm : layout) a b k y f g (R : M O m m) (pred old : mixture O n n) : ccall n m :=
  ukf_correct_additive Ld Lm a b k false y f g R pred old.
Definition generic_call n q m (Ld Lm : layout) a b k y f g (Rv : M O q q) (pred old : mixture O n n) : ccall n m :=
  ukf_correct_generic Ld Lm a b k false y f g Rv pred old.

Lemma additive_call_hi n m Ld Lm a b k y f g R pred old :
  history_independent (@additive_call n m Ld Lm a b k y f g R pred old).
Proof. by move=> s s'; rewrite /observed /additive_call /ukf_correct_additive; case: y. Qed.

Lemma generic_call_hi n q m Ld Lm a b k y f g Rv pred old :
  history_independent (@generic_call n q m Ld Lm a b k y f g Rv pred old).
Proof. by move=> s s'; rewrite /observed /generic_call /ukf_correct_generic; case: y. Qed.

Lemma run_unskipped_calls_fresh n m (calls : list (ccall n m)) st :
  (forall c, In c calls ->
     (exists Ld Lm a b k y f g R pred old, c = @additive_call n m Ld Lm a b k y f g R pred old) \/
     (exists q Ld Lm a b k y f g Rv pred old, c = @generic_call n q m Ld Lm a b k y f g Rv pred old)) ->
  run_calls calls st = List.map (@fresh_call n m) calls.
Proof.
move=> H; apply: run_calls_fresh => c /H [] .
  by move=> [Ld [Lm [a [b [k [y [f [g [R [pred [old ->]]]]]]]]]]]; exact: additive_call_hi.
by move=> [q [Ld [Lm [a [b [k [y [f [g [Rv [pred [old ->]]]]]]]]]]]]; exact: generic_call_hi.
Qed.
End Seq.
