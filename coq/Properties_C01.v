(* Properties_C01.v — property C01: the Kalman correction returns the exact
   linear-Gaussian Bayes posterior.  The matrix algebra (information form, Joseph
   form, conjugate mean) is in C01_Proofs.v.  All hold for every realFieldType F, every state and
   measurement dimension, every mixture, every H (any rank), every SPD R. *)
Require Import ZArith QArith List.
Require Import BFL.Ops BFL.ListFacts BFL.ListOps BFL.Density BFL.C01_Model.
From mathcomp Require Import ssreflect ssrfun ssrbool eqtype ssrnat seq choice fintype bigop order ssralg ssrnum zmodp matrix mxalgebra.
Require Import BFL.MxOps BFL.LinAlg BFL.C01_Proofs.
Import GRing.Theory.
Local Open Scope ring_scope.

Section C01.
Variable F : realFieldType.
Variable tr : Transc F.
Variable sq : forall n, 'M[F]_n -> 'M[F]_n.
Variable eg : forall n, 'M[F]_n -> 'M[F]_(n,1).
Let O := MxMat tr sq eg.
Variables (n m : nat) (H : M O m n) (R : M O m m) (y : M O m 1).
Hypothesis spdR : spd (R : 'M[F]_m).

(* covariance: (P^-1 + H^T R^-1 H)^-1 *)
Theorem C01_cov_information_form (c : gcomp O n) : spd (gcov c : 'M[F]_n) ->
  (gcov (ko_comp (kf_correct_one H R y c)) : 'M[F]_n) =
  invmx (invmx (gcov c) + H^T *m invmx R *m H).
Proof. exact: kf_one_cov. Qed.

(* mean: m + K (y - H m), K = P H^T (H P H^T + R)^-1 *)
Theorem C01_mean_gain_form (c : gcomp O n) :
  (gmean (ko_comp (kf_correct_one H R y c)) : 'cV[F]_n) =
  gmean c + (gcov c *m H^T *m invmx (H *m gcov c *m H^T + R)) *m (y - H *m gmean c).
Proof. by rewrite ko_meanE /= opprB. Qed.

(* mean and covariance together are the conjugate (information-form) posterior *)
Theorem C01_is_conjugate_posterior (c : gcomp O n) : spd (gcov c : 'M[F]_n) ->
  ko_comp (kf_correct_one H R y c) = info_posterior H R y c.
Proof. exact: kf_one_is_info_posterior. Qed.

Theorem C01_cov_sym (c : gcomp O n) : spd (gcov c : 'M[F]_n) ->
  sym (gcov (ko_comp (kf_correct_one H R y c)) : 'M[F]_n).
Proof. by move=> pc; rewrite ko_covE; apply: Pp_sym. Qed.

Theorem C01_cov_psd (c : gcomp O n) : spd (gcov c : 'M[F]_n) ->
  psd (gcov (ko_comp (kf_correct_one H R y c)) : 'M[F]_n).
Proof. by move=> pc; rewrite ko_covE; apply: Pp_psd. Qed.

(* never larger than the prior, in the Loewner order *)
Theorem C01_cov_le_prior (c : gcomp O n) : spd (gcov c : 'M[F]_n) ->
  mle (gcov (ko_comp (kf_correct_one H R y c)) : 'M[F]_n) (gcov c).
Proof. by move=> pc; rewrite ko_covE; apply: Pp_le_prior. Qed.

(* the matrix the step inverts is invertible (no reliance on invmx's totalisation) *)
Theorem C01_innovation_cov_invertible (c : gcomp O n) : spd (gcov c : 'M[F]_n) ->
  (ko_Py (kf_correct_one H R y c) : 'M[F]_m) \in unitmx.
Proof. exact: kf_one_Py_unit. Qed.

(* each component independently, same index, same count *)
Theorem C01_componentwise (cs : list (gcomp O n)) (i : nat) d :
  (i < length cs)%coq_nat ->
  List.nth i (kf_correct H R y cs) d = kf_correct_one H R y (List.nth i cs (ko_comp d)).
Proof.
by move=> lt; rewrite /kf_correct (nth_map_in _ _ _ _ (ko_comp d)).
Qed.

Theorem C01_component_count (cs : list (gcomp O n)) :
  length (kf_correct H R y cs) = length cs.
Proof. exact: List.map_length. Qed.

(* likelihood = N(y; H m, H P H^T + R) *)
Theorem C01_likelihood (c : gcomp O n) :
  kf_likelihood (kf_correct_one H R y c) =
  density (O:=O) y (H *m gmean c) (H *m gcov c *m H^T + R).
Proof.
by rewrite /kf_likelihood ko_innovE ko_PyE /density /log_density /= subr0 opprB.
Qed.

End C01.

(* non-vacuity: the premises are satisfiable in every dimension ... *)
Example C01_premises_satisfiable (F : realFieldType) n m :
  spd (1%:M : 'M[F]_n) /\ spd (1%:M : 'M[F]_m).
Proof. by split; exact: spd1. Qed.

(* ... and the executable instance of the same model, run over exact
   rationals on a 2-state / 1-measurement mixture component, returns the
   information-form posterior the theorem predicts. *)
Definition QM := ListMat QOps (fun _ A => A) (fun _ A => A).
Example C01_concrete_Q :
  let P := [:: [:: 2#1; 1#1]; [:: 1#1; 3#1]]%Q in
  let x := [:: [:: 1#1]; [:: -2#1]]%Q in
  let Hm := [:: [:: 1#1; 2#1]]%Q in
  let Rm := [:: [:: 1#2]]%Q in
  let ym := [:: [:: 3#1]]%Q in
  let c := @mkGcomp QM 2 x P in
  let o := @kf_correct_one QM 2 1 Hm Rm ym c in
  let q := @info_posterior QM 2 1 Hm Rm ym c in
  qmx_eqb (gmean (ko_comp o)) (gmean q) && qmx_eqb (gcov (ko_comp o)) (gcov q)
  && qmx_eqb (gmean (ko_comp o)) [:: [:: 85#37]; [:: 10#37]]%Q = true.
Proof. vm_compute. reflexivity. Qed.

Print Assumptions C01_cov_information_form.
Print Assumptions C01_mean_gain_form.
Print Assumptions C01_is_conjugate_posterior.
Print Assumptions C01_cov_sym.
Print Assumptions C01_cov_psd.
Print Assumptions C01_cov_le_prior.
Print Assumptions C01_innovation_cov_invertible.
Print Assumptions C01_componentwise.
Print Assumptions C01_component_count.
Print Assumptions C01_likelihood.
