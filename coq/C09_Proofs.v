(* C09_Proofs.v — invariants of the lifecycle model over ALL reachable
   configurations (all interleavings, all command sequences, all
   run_condition answers), by induction on the derivation of [reachable]; from
   them, that the trace monitors hold on every history.  Then what one move does
   to the exit distances, and that the harness's word semantics stays inside
   [reachable] and ends exited.  The theorems are in Properties_C09.v. *)
Require Import List Bool Arith Lia.
Require Import BFL.C09_Model.
Import ListNotations.

(* [sstep] is the inversion principle of [step]: one rule per action, the program point left
   abstract in the controller's rules.  Every fact about moves below is proved by cases on it. *)
Lemma sstep_step c m c' : sstep c m c' -> step c m = Some c'.
Proof.
  destruct 1; simpl; try reflexivity;
  try (destruct H as [-> | ->]; simpl; rewrite H0; reflexivity);
  try (rewrite H; reflexivity).
Qed.

(* only the four enabling conditions are split: the rules branch on b, r, s, t exactly as [tstep] does *)
Lemma step_sstep c m c' : step c m = Some c' -> sstep c m c'.
Proof.
  destruct c as [p r s t n w d tr]. destruct m as [b| |k|]; simpl.
  - destruct p; simpl;
      [ | | destruct d | destruct (r || t) eqn:E | destruct w, d | destruct (r || t) eqn:E | idtac .. ];
      intros [= <-]; econstructor; auto.
  - destruct p; try discriminate. destruct d; intros [= <-]; constructor.
  - destruct k; simpl;
      [ destruct (mutex_free p) eqn:M, d | | destruct (mutex_free p) eqn:M, d
      | destruct (mutex_free p) eqn:M, d | destruct p | | ];
      intros [= <-]; constructor; auto.
  - destruct d; intros [= <-]; constructor.
Qed.

Lemma sstep_iff_step c m c' : sstep c m c' <-> step c m = Some c'.
Proof. split; [apply sstep_step | apply step_sstep]. Qed.

Lemma reachable_rel_iff c : reachable_rel c <-> reachable c.
Proof. split; induction 1; econstructor; eauto using sstep_step, step_sstep. Qed.

(* after [destruct] on a derivation of [sstep]: split the two rules that start at either of two points,
   and the seven whose target point depends on a flag *)
Ltac split_rules :=
  try match goal with H : _ = PHeld \/ _ = PRecheck |- _ => destruct H as [-> | ->] end;
  try match goal with |- context [mk (if ?x then _ else _)] => destruct x end.

(* One predicate per fact, each with its preservation lemma over [sstep].  A rule that writes no field
   the predicate reads leaves a goal P -> P, closed by [auto]; what is left are the writers:
     pc       every thread rule
     run_     C_run, C_reboot_end, S_final          reset_   S_top, C_reboot, C_reset
     teardown_  C_teardown                          filtering_step_  S_zero, S_inc
     woken    S_pass, S_block, S_wake, S_spurious and the notifying C_run, C_reboot_end, C_teardown
     mid      C_reboot, C_reboot_end
     trace    S_init, S_rc1, S_step, S_rc2, S_final and every command but C_reboot_end *)

(* run_ is raised only by run(), which is recorded *)
Definition run_recorded '(mk p r s t n w d tr) : Prop := r = true -> runreq tr = true.

Lemma run_recorded_step c m c' : sstep c m c' -> run_recorded c -> run_recorded c'.
Proof. destruct 1; simpl; auto; discriminate. Qed.

(* the final store clears run_, and only run() raises it again *)
Definition exit_clears_run '(mk p r s t n w d tr) : Prop := rae tr = Some false -> r = false.

Lemma exit_clears_run_step c m c' : sstep c m c' -> exit_clears_run c -> exit_clears_run c'.
Proof. destruct 1; simpl; auto. destruct (rae tr); discriminate. Qed.

(* no lost wake-up: a thread blocked in the wait with no notify on its way has a false predicate *)
Definition no_lost_wakeup '(mk p r s t n w d tr) : Prop :=
  p = PSleep -> w = false -> d = false -> r = false /\ t = false.

Lemma no_lost_wakeup_step c m c' : sstep c m c' -> no_lost_wakeup c -> no_lost_wakeup c'.
Proof.
  destruct 1; split_rules; simpl; auto; try discriminate.
  1-2: (* S_block *) intros; apply orb_false_elim; assumption.
  all: (* C_run, C_reboot_end, C_teardown notify *) intros _ -> X; discriminate.
Qed.

(* mutual exclusion on mtx_run_ *)
Definition mutex_excl '(mk p r s t n w d tr) : Prop := d = true -> mutex_free p = true.

Lemma mutex_excl_step c m c' : sstep c m c' -> mutex_excl c -> mutex_excl c'.
Proof. destruct 1; split_rules; simpl; auto; discriminate. Qed.

(* past the wait, before the final store *)
Definition postwait (p : pc) : bool :=
  match p with
  | PInit | PInitBody | PC1a | PC1b | PC1c | PStep | PStepBody | PInc | PAfter | PC2a | PC2b | PC2c | PC2d => true
  | _ => false
  end.

(* inside the loop body one of the three flags is up; between the two stores of reboot() reset_ is *)
Definition flag_up '(mk p r s t n w d tr) : Prop :=
  postwait p = true -> (r = true \/ s = true \/ t = true) /\ (d = true -> s = true).

Lemma flag_up_step c m c' : sstep c m c' -> mutex_excl c -> flag_up c -> flag_up c'.
Proof.
  destruct 1; split_rules; simpl; auto; try discriminate; intros M F P.
  1-2: (* S_pass: the wait predicate holds, and the thread has the mutex *)
    split; [apply orb_prop in H0; tauto | intros ->; discriminate (M eq_refl)].
  all: (* C_run, C_teardown; C_reboot_end clears run_ with reset_ up *)
    destruct (F P) as (_ & X); split; [auto | discriminate].
Qed.

Definition pc2c_flag '(mk p r s t n w d tr) : Prop := p = PC2c -> s = true \/ t = true.

Lemma pc2c_flag_step c m c' : sstep c m c' -> flag_up c -> pc2c_flag c -> pc2c_flag c'.
Proof.
  destruct 1; split_rules; simpl; auto; try discriminate.
  (* S_run2 with run_ down *) intros F _ _. destruct (F eq_refl) as ([X|X] & _); [discriminate | auto].
Qed.

(* the final store is reached only through teardown or a false run_condition *)
Definition final_cause '(mk p r s t n w d tr) : Prop := p = PFinal -> t = true \/ last_rc tr = Some false.

Lemma final_cause_step c m c' : sstep c m c' -> pc2c_flag c -> final_cause c -> final_cause c'.
Proof.
  destruct 1; split_rules; simpl; auto; try discriminate.
  (* S_rs2 with reset_ down *) intros F _ _. destruct (F eq_refl) as [X|X]; [discriminate | auto].
Qed.

Definition cur_ok (n : nat) (lt : option event) : Prop :=
  match n with 0 => lt = Some EInit | S k => lt = Some (EStep k) end.

(* the last thread event and filtering_step_, by program point *)
Definition epoch_ok '(mk p r s t n w d tr) : Prop :=
  let lt := last_thr tr in
  match p with
  | PTop | PZero => lt <> Some EExit
  | PLock | PHeld | PSleep | PRecheck | PInit => n = 0 /\ lt <> Some EExit
  | PInitBody => n = 0 /\ lt = Some EInit
  | PC1a | PC1b | PC1c | PStep => cur_ok n lt
  | PStepBody | PInc => lt = Some (EStep n)
  | PAfter | PC2a | PC2b | PC2c | PC2d | PFinal => is_init_or_step lt = true
  | PDone | PExited => lt = Some EExit
  end.

Lemma cur_ok_init_or_step n lt : cur_ok n lt -> is_init_or_step lt = true.
Proof. destruct n; simpl; intros ->; reflexivity. Qed.

(* controller moves touch none of p, n, last_thr *)
Lemma epoch_ok_step c m c' : sstep c m c' -> epoch_ok c -> epoch_ok c'.
Proof.
  destruct 1; split_rules; simpl; eauto using cur_ok_init_or_step.
  - (* S_init *) intuition.
  - (* S_init_ret *) intros [-> ->]. reflexivity.
  - (* S_td2 back to the top *) intros X E. rewrite E in X. discriminate.
Qed.

(* a run (or, up to the teardown check, a teardown) was requested, by program point *)
Definition req_ok '(mk p r s t n w d tr) : Prop :=
  match p with
  | PC1c | PStep | PStepBody | PInc => runreq tr = true
  | PInit | PInitBody | PC1a | PC1b => runreq tr = true \/ t = true
  | _ => True
  end.

Lemma req_ok_step c m c' : sstep c m c' -> run_recorded c -> req_ok c -> req_ok c'.
Proof.
  destruct 1; split_rules; simpl; auto.
  1-2: (* S_pass *) intros R _; destruct r; auto.
  1: (* S_td1 with teardown_ down *) intros _ [X|X]; [auto | discriminate].
  all: (* C_run, C_teardown: [req_ok] is monotone in both flags *) intros _; destruct p; simpl; auto.
Qed.

Definition late (p : pc) : bool :=
  match p with
  | PInitBody | PC1a | PC1b | PStepBody | PInc | PAfter | PC2a | PC2b | PC2c | PC2d | PFinal | PDone | PExited => true
  | _ => false
  end.

(* teardown_ is up exactly when teardown was requested; an initialisation or step that started
   after the request has brought the thread to a [late] point *)
Definition InvTd (c : config) : Prop :=
  let '(mk p r s t n w d tr) := c in
  match tdm tr with
  | None => t = false
  | Some 0 => t = true
  | Some 1 => t = true /\ late p = true
  | Some _ => False
  end.

(* an initialisation or step starts at a point that is not [late] and leads to one that is;
   the two ways back from a late point (S_td1, S_td2) are taken with teardown_ down *)
Lemma invtd_step c m c' : sstep c m c' -> InvTd c -> InvTd c'.
Proof.
  destruct 1; split_rules; simpl; auto; destruct (tdm tr) as [[|[|k]]|]; simpl; auto;
  try intros [I1 I2]; try split; auto; discriminate.
Qed.

Definition inep (p : pc) : bool :=
  match p with
  | PInitBody | PC1a | PC1b | PC1c | PStep | PStepBody | PInc => true
  | _ => false
  end.

(* while a reset is pending inside an epoch, reset_ is up; a thread about to step has not stepped since the request *)
Definition InvPend (c : config) : Prop :=
  let '(mk p r s t n w d tr) := c in
  match pend tr with
  | None => True
  | Some 0 => inep p = true -> s = true
  | Some 1 => p <> PStep /\ (inep p = true -> s = true)
  | Some _ => False
  end.

(* reset_ stays up until the loop top, where the epoch is over; S_rs1 reaches PStep with reset_ down only *)
Lemma invpend_step c m c' : sstep c m c' -> InvPend c -> InvPend c'.
Proof.
  destruct 1; split_rules; simpl; auto; destruct (pend tr) as [[|[|k]]|]; simpl; auto;
  try intros [I1 I2]; try split; intros; auto; try discriminate.
  (* S_rs1 with reset_ down, one step since the request *) discriminate (I2 eq_refl).
Qed.

(* After reboot(), until run or teardown is requested: run_ is down once reboot() has returned, and the thread can start
   at most [rb_room] further initialisations or steps (2 stands for "no bound") before it blocks in the wait or exits:
   it passes the wait only on teardown_, leaves the inner loop on reset_ or teardown_, and the outer one without them *)
Definition rb_room (p : pc) (s t : bool) : nat :=
  match p with
  | PTop | PZero | PLock | PHeld | PSleep | PRecheck => if t then 1 else 0
  | PInit | PStep => if s || t then 1 else 2
  | PInitBody | PC1a | PC1b | PStepBody | PInc => if s || t then 0 else 2
  | PC1c => if s then 0 else if t then 1 else 2
  | _ => 0
  end.

(* [rbm] counts the initialisations and steps since the request: one at most *)
Definition InvRb (c : config) : Prop :=
  let '(mk p r s t n w d tr) := c in
  match rbm tr with
  | None => True
  | Some k => (d = false -> r = false) /\ rb_room p s t + k <= 1
  end.

(* reset_ up only lowers the room, to one at most *)
Lemma rb_room_reset p s t : rb_room p true t <= rb_room p s t /\ rb_room p true t <= 1.
Proof. destruct p, s, t; simpl; auto. Qed.

Lemma invrb_step c m c' : sstep c m c' -> mutex_excl c -> InvRb c -> InvRb c'.
Proof.
  destruct 1; split_rules; simpl; auto; intros M; destruct (rbm tr) as [k|]; simpl; auto.
  (* S_pass: the thread holds the mutex, so run_ is down and the wait was passed on teardown_ *)
  1-2: intros (A & B); destruct d; [discriminate (M eq_refl)|];
       rewrite A in H0 by reflexivity; simpl in H0; subst t; rewrite orb_true_r; auto.
  (* S_init, S_rc1, S_td1, S_step, S_final: the room falls by what the monitor gains; [lia] for the cases without room *)
  1-6: intros (A & B); split; auto; destruct s; simpl in *; auto; destruct t; simpl in *; auto; lia.
  all: pose proof (rb_room_reset p s t) as (L1 & L2).
  - (* C_reboot *) intros (A & B). split; [discriminate | lia].
  - intros _. split; [discriminate | lia].
  - (* C_reboot_end *) intros (A & B). auto.
  - (* C_reset *) intros (A & B). split; [exact A | lia].
Qed.

(* what step_number() and is_running() can read *)
Definition zeroed (p : pc) : bool :=
  match p with PLock | PHeld | PSleep | PRecheck | PInit => true | _ => false end.
Definition stepping (p : pc) : bool :=
  match p with PStepBody | PInc => true | _ => false end.

Definition InvQ (c : config) : Prop :=
  let '(mk p r s t n w d tr) := c in
  match last_is tr with
  | Some (EStep j) => n = 0 \/ n = j \/ n = S j
  | _ => n = 0
  end
  /\ (zeroed p = true -> n = 0)
  /\ (stepping p = true -> last_is tr = Some (EStep n))
  /\ (r = false -> can_be_false tr = true)
  /\ (d = true -> can_be_false tr = true).

Lemma invq_init : InvQ init.
Proof. simpl. repeat split; auto; discriminate. Qed.

Definition counter_ok '(mk p r s t n w d tr) : Prop :=
  match last_is tr with
  | Some (EStep j) => n = 0 \/ n = j \/ n = S j
  | _ => n = 0
  end.
Definition zeroed_ok '(mk p r s t n w d tr) : Prop := zeroed p = true -> n = 0.
Definition stepping_ok '(mk p r s t n w d tr) : Prop := stepping p = true -> last_is tr = Some (EStep n).
Definition down_ok '(mk p r s t n w d tr) : Prop :=
  (r = false -> can_be_false tr = true) /\ (d = true -> can_be_false tr = true).

Lemma invq_conj c : InvQ c <-> counter_ok c /\ zeroed_ok c /\ stepping_ok c /\ down_ok c.
Proof. destruct c; reflexivity. Qed.

Lemma zeroed_ok_step c m c' : sstep c m c' -> zeroed_ok c -> zeroed_ok c'.
Proof. destruct 1; split_rules; simpl; auto; discriminate. Qed.

Lemma stepping_ok_step c m c' : sstep c m c' -> stepping_ok c -> stepping_ok c'.
Proof. destruct 1; split_rules; simpl; auto; discriminate. Qed.

Lemma counter_ok_step c m c' : sstep c m c' -> zeroed_ok c -> stepping_ok c -> counter_ok c -> counter_ok c'.
Proof.
  destruct 1; split_rules; simpl; auto.
  - (* S_zero *) destruct (last_is tr) as [[]|]; auto.
  - (* S_inc *) intros _ Q _. rewrite Q by reflexivity. auto.
Qed.

(* run_ falls by the final store, which is recorded, or by the second store of reboot() *)
Lemma down_ok_step c m c' : sstep c m c' -> down_ok c -> down_ok c'.
Proof. destruct 1; simpl; auto. tauto. Qed.

Lemma invq_step c m c' : sstep c m c' -> InvQ c -> InvQ c'.
Proof.
  rewrite !invq_conj. intros H (I1 & I2 & I3 & I4).
  repeat apply conj; eauto using counter_ok_step, zeroed_ok_step, stepping_ok_step, down_ok_step.
Qed.

Record Inv (c : config) : Prop := {
  inv_run_recorded : run_recorded c;
  inv_no_lost_wakeup : no_lost_wakeup c;
  inv_exit_clears_run : exit_clears_run c;
  inv_epoch : epoch_ok c;
  inv_req : req_ok c;
  inv_mutex : mutex_excl c;
  inv_flag_up : flag_up c;
  inv_pc2c : pc2c_flag c;
  inv_final : final_cause c;
  inv_td : InvTd c;
  inv_pend : InvPend c;
  inv_rb : InvRb c;
  inv_q : InvQ c }.

Lemma inv_init : Inv init.
Proof. split; try exact invq_init; simpl; auto; discriminate. Qed.

Lemma inv_step c m c' : Inv c -> step c m = Some c' -> Inv c'.
Proof.
  intros [] H. apply step_sstep in H.
  split; eauto using run_recorded_step, no_lost_wakeup_step, exit_clears_run_step, epoch_ok_step, req_ok_step,
    mutex_excl_step, flag_up_step, pc2c_flag_step, final_cause_step, invtd_step, invpend_step, invrb_step, invq_step.
Qed.

Lemma reachable_inv c : reachable c -> Inv c.
Proof. induction 1; eauto using inv_init, inv_step. Qed.

Lemma inv_le1 c : Inv c ->
  le1 (pend (c_trace c)) = true /\ le1 (rbm (c_trace c)) = true /\ le1 (tdm (c_trace c)) = true.
Proof.
  intros I. pose proof (inv_pend _ I) as P. pose proof (inv_rb _ I) as B. pose proof (inv_td _ I) as T.
  destruct c as [p r s t n w d tr]. simpl in *. repeat split.
  - destruct (pend tr) as [[|[|k]]|]; auto.
  - destruct (rbm tr) as [[|[|k]]|]; auto. destruct B as (_ & B). lia.
  - destruct (tdm tr) as [[|[|k]]|]; auto.
Qed.

(* a move appends at most one event, and that event is admissible after the old trace *)
Lemma trace_step c m c' : Inv c -> step c m = Some c' ->
  c_trace c' = c_trace c \/ exists e, c_trace c' = e :: c_trace c /\ head_ok e (c_trace c) = true.
Proof.
  intros I H. apply step_sstep in H.
  destruct H; simpl; auto; right; eexists; (split; [reflexivity|]); simpl; auto.
  - (* EInit *) destruct (inv_epoch _ I) as [_ E]. destruct (last_thr tr) as [[]|]; simpl; auto.
  - (* EStep n *) pose proof (inv_epoch _ I) as E. rewrite (inv_req _ I).
    destruct n; simpl in E; rewrite E; simpl; auto. rewrite Nat.eqb_refl. auto.
  - (* EExit *) rewrite (inv_epoch _ I : is_init_or_step _ = true). simpl. unfold exit_cause.
    pose proof (inv_td _ I) as T. simpl in T. destruct (tdm tr) as [|]; auto.
    destruct (inv_final _ I eq_refl) as [X|X]; [congruence|rewrite X; auto].
  - (* EQRun r *) destruct (inv_q _ I) as (_ & _ & _ & D & _).
    destruct r; [|apply D; reflexivity].
    rewrite (inv_run_recorded _ I) by reflexivity. destruct (rae tr) as [[|]|] eqn:X; auto.
    discriminate (inv_exit_clears_run _ I X).
  - (* EQStep n *) destruct (inv_q _ I) as (Q & _).
    unfold qstep_ok. destruct (last_is tr) as [[| j | | | | |]|]; subst; auto.
    destruct Q as [->|[->| ->]]; simpl; rewrite ?Nat.eqb_refl, ?orb_true_r; auto.
Qed.

Lemma all_good_cons e tr : all_good (e :: tr) = good (e :: tr) && all_good tr.
Proof. reflexivity. Qed.

Lemma reachable_all_good c : reachable c -> all_good (c_trace c) = true.
Proof.
  induction 1 as [|c m c' R IH H]; [reflexivity|].
  pose proof (reachable_inv _ R) as Ic.
  pose proof (inv_step _ _ _ Ic H) as Ic'.
  destruct (trace_step _ _ _ Ic H) as [E|(e & E & Hh)].
  - rewrite E. exact IH.
  - destruct (inv_le1 _ Ic') as (P1 & P2 & P3). rewrite E in *.
    rewrite all_good_cons, IH. unfold good. rewrite P1, P2, P3, Hh. reflexivity.
Qed.

Lemma all_good_app pre suf : all_good (pre ++ suf) = true -> all_good suf = true.
Proof.
  induction pre as [|e pre IH]; simpl; auto.
  intros H. apply andb_true_iff in H. tauto.
Qed.

Lemma all_good_good tr : all_good tr = true -> good tr = true.
Proof. destruct tr; [reflexivity|]. rewrite all_good_cons. intros H; apply andb_true_iff in H; tauto. Qed.

Lemma good_le1 tr : good tr = true -> le1 (pend tr) = true /\ le1 (rbm tr) = true /\ le1 (tdm tr) = true.
Proof. unfold good. destruct (le1 (pend tr)), (le1 (rbm tr)), (le1 (tdm tr)); try discriminate; auto. Qed.

Lemma good_head e t : good (e :: t) = true -> head_ok e t = true.
Proof. intros H. exact (proj2 (andb_prop _ _ H)). Qed.

(* the monitors hold at every earlier moment of a reachable history *)
Lemma reachable_suffix c pre suf : reachable c -> c_trace c = pre ++ suf -> good suf = true.
Proof.
  intros R E. apply all_good_good, (all_good_app pre).
  rewrite <- E. apply reachable_all_good, R.
Qed.

Lemma runreq_In tr : runreq tr = true -> In (ECmd Run) tr.
Proof.
  induction tr as [|e tr IH]; simpl; [discriminate|].
  destruct e as [| | |[]| | |]; auto.
Qed.

Lemma eqb_refl_ev k : ev_eqb (EStep k) (EStep k) = true.
Proof. simpl. apply Nat.eqb_refl. Qed.

Lemma opt_is_eq o e : is_thread_event e = true -> opt_is o e = true -> o = Some e.
Proof.
  destruct o as [x|]; simpl; [|discriminate].
  destruct x, e; simpl; try discriminate; auto.
  intros _ H. apply Nat.eqb_eq in H. congruence.
Qed.

(* the thread event that has to precede each thread event *)
Definition pred_ok (e : event) (before : option event) : Prop :=
  match e with
  | EInit => before <> Some EExit
  | EStep 0 => before = Some EInit
  | EStep (S k) => before = Some (EStep k)
  | EExit => before = Some EInit \/ exists k, before = Some (EStep k)
  | _ => True
  end.

Fixpoint count_steps (l : list event) : nat :=
  match l with [] => 0 | EStep _ :: t => S (count_steps t) | _ :: t => count_steps t end.
Fixpoint count_init_step (l : list event) : nat :=
  match l with [] => 0 | EStep _ :: t | EInit :: t => S (count_init_step t) | _ :: t => count_init_step t end.
Fixpoint no_init_exit (l : list event) : Prop :=
  match l with [] => True | EInit :: _ | EExit :: _ => False | _ :: t => no_init_exit t end.
Fixpoint no_run_teardown (l : list event) : Prop :=
  match l with [] => True | ECmd Run :: _ | ECmd Teardown :: _ => False | _ :: t => no_run_teardown t end.
Fixpoint count_inits (l : list event) : nat :=
  match l with [] => 0 | EInit :: t => S (count_inits t) | _ :: t => count_inits t end.

Lemma count_steps_le l : count_steps l <= count_init_step l.
Proof. induction l as [|[] l IH]; simpl; lia. Qed.

Lemma count_steps_app a b : count_steps (a ++ b) = count_steps a + count_steps b.
Proof. induction a as [|[] a IH]; simpl; lia. Qed.

Lemma count_inits_app a b : count_inits (a ++ b) = count_inits a + count_inits b.
Proof. induction a as [|[] a IH]; simpl; lia. Qed.

(* each monitor counts at least the events of a stretch that does not reset it; [le1] then bounds them *)
Lemma le1_bound o n m : o = Some n -> m <= n -> le1 o = true -> m <= 1.
Proof. intros -> L. destruct n as [|[|n]]; simpl; [lia | lia | discriminate]. Qed.

Lemma pend_seg seg k suf : (k = Reset \/ k = Reboot) -> no_init_exit seg ->
  exists n, pend (seg ++ ECmd k :: suf) = Some n /\ count_steps seg <= n.
Proof.
  intros K. induction seg as [|e seg IH]; simpl.
  - intros _. destruct K; subst; destruct (pend suf); eauto with arith.
  - destruct e as [| | |[]| | |]; simpl; try tauto; intros N;
    destruct (IH N) as (n & -> & L); simpl; eauto with arith.
Qed.

Lemma rbm_seg seg suf : no_run_teardown seg ->
  exists n, rbm (seg ++ ECmd Reboot :: suf) = Some n /\ count_init_step seg <= n.
Proof.
  induction seg as [|e seg IH]; simpl.
  - intros _. destruct (rbm suf); eauto with arith.
  - destruct e as [| | |[]| | |]; simpl; try tauto; intros N;
    destruct (IH N) as (n & -> & L); simpl; eauto with arith.
Qed.

Lemma tdm_seg seg suf :
  exists n, tdm (seg ++ ECmd Teardown :: suf) = Some n /\ count_init_step seg <= n.
Proof.
  induction seg as [|e seg IH]; simpl.
  - destruct (tdm suf); eauto with arith.
  - destruct IH as (n & P & L). destruct e as [| | |[]| | |]; simpl; rewrite P; simpl; eauto with arith.
Qed.

(* no thread event is admissible once EExit is the last one *)
Lemma head_ok_after_exit e t : last_thr t = Some EExit -> head_ok e t = true -> is_thread_event e = false.
Proof. intros L. destruct e as [|[|k]| | | | |]; simpl; rewrite ?L; simpl; auto; discriminate. Qed.

Lemma after_exit_silent post suf : all_good (post ++ EExit :: suf) = true ->
  last_thr (post ++ EExit :: suf) = Some EExit /\ forall e, In e post -> is_thread_event e = false.
Proof.
  induction post as [|e post IH]; intros H.
  - split; [reflexivity | intros ? []].
  - rewrite <- app_comm_cons, all_good_cons in H. apply andb_true_iff in H. destruct H as [G A].
    destruct (IH A) as (L & Q). apply good_head in G.
    pose proof (head_ok_after_exit _ _ L G) as N.
    split; [destruct e; try discriminate N; exact L | intros x [<-|X]; auto].
Qed.

Lemma rae_seg post suf : rae (post ++ EExit :: suf) = Some false \/ In (ECmd Run) post.
Proof.
  induction post as [|e post IH]; simpl; auto.
  destruct IH as [IH|IH]; auto.
  destruct e as [| | |[]| | |]; simpl; auto.
Qed.

Lemma tdm_some_In tr n : tdm tr = Some n -> exists seg suf, tr = seg ++ ECmd Teardown :: suf.
Proof.
  revert n. induction tr as [|e tr IH]; simpl; intros n H; [discriminate|].
  destruct (tdm tr) eqn:T.
  - destruct (IH _ eq_refl) as (seg & suf & ->). exists (e :: seg), suf. reflexivity.
  - destruct e as [| | |[]| | |]; simpl in H; try discriminate. exists [], tr. reflexivity.
Qed.

(* teardown_ is raised only by teardown(), which is recorded *)
Lemma td_recorded c : reachable c -> c_td c = true -> exists seg suf, c_trace c = seg ++ ECmd Teardown :: suf.
Proof.
  intros R T. pose proof (inv_td _ (reachable_inv _ R)) as I.
  destruct c as [p r s t n w d tr]; simpl in *. destruct (tdm tr) eqn:X; [eapply tdm_some_In, X | congruence].
Qed.

Lemma last_thr_exit_In tr : last_thr tr = Some EExit -> In EExit tr.
Proof. induction tr as [|[] tr IH]; simpl; auto; discriminate. Qed.

(* upper bound on the thread's own moves to PExited once teardown_ is set *)
Definition dist (p : pc) : nat :=
  match p with
  | PExited => 0 | PDone => 1 | PFinal => 2 | PC2d => 3 | PC2c => 4 | PC2b => 5 | PC2a => 6 | PAfter => 7
  | PC1b => 8 | PC1a => 9 | PInc => 10 | PStepBody => 11 | PStep => 12 | PC1c => 13
  | PInitBody => 10 | PInit => 11 | PHeld => 12 | PRecheck => 12 | PSleep => 13 | PLock => 13
  | PZero => 14 | PTop => 15
  end.

Definition exit_bound : nat := 15.

Lemma dist_bound p : dist p <= exit_bound.
Proof. destruct p; simpl; unfold exit_bound; lia. Qed.

Lemma dist_0 p : dist p = 0 <-> p = PExited.
Proof. destruct p; simpl; split; intros; try discriminate; auto. Qed.

Definition is_thread_move (m : move) : bool :=
  match m with MThread _ | MSpurious => true | MCmd _ | MRebootEnd => false end.

Fixpoint thread_moves (ms : list move) : nat :=
  match ms with [] => 0 | m :: t => (if is_thread_move m then 1 else 0) + thread_moves t end.

(* The thread is disabled at PLock while the controller is inside reboot(), asleep in the wait until a notify
   is on its way, and once it has returned.  No wake-up is lost: if the wait predicate holds of a sleeping
   thread, the notify is there *)
Lemma thread_enabled b c : reachable c -> c_mid c = false -> c_pc c <> PExited ->
  (c_pc c = PSleep -> c_run c = true \/ c_td c = true) -> exists c', step c (MThread b) = Some c'.
Proof.
  intros R M N S. pose proof (inv_no_lost_wakeup _ (reachable_inv _ R)) as L.
  destruct c as [p r s t n w d tr]; simpl in *. subst d.
  destruct p; simpl; eauto; try congruence; try (destruct (r || t); eauto; fail).
  destruct w; simpl; eauto.
  destruct (L eq_refl eq_refl eq_refl) as [-> ->]. destruct (S eq_refl); discriminate.
Qed.

Lemma td_move c m c' : c_td c = true -> step c m = Some c' ->
  c_td c' = true /\ dist (c_pc c') + (if is_thread_move m then 1 else 0) <= dist (c_pc c).
Proof.
  intros T H. apply step_sstep in H.
  destruct H; split_rules; simpl in *; subst; auto; try discriminate; split; auto; lia.
Qed.

Lemma run_moves_reachable c ms c' : reachable c -> run_moves c ms = Some c' -> reachable c'.
Proof.
  revert c. induction ms as [|m ms IH]; simpl; intros c R H.
  - congruence.
  - destruct (step c m) as [c1|] eqn:E; [|discriminate].
    apply (IH c1); auto. eapply R_step; eauto.
Qed.

Lemma run_moves_app c a b :
  run_moves c (a ++ b) = match run_moves c a with Some c1 => run_moves c1 b | None => None end.
Proof. revert c. induction a as [|m a IH]; simpl; intros c; [reflexivity | destruct (step c m); auto]. Qed.

Lemma td_run c ms c' : c_td c = true -> run_moves c ms = Some c' ->
  c_td c' = true /\ dist (c_pc c') + thread_moves ms <= dist (c_pc c).
Proof.
  revert c. induction ms as [|m ms IH]; simpl; intros c T H.
  - injection H as <-. split; auto. lia.
  - destruct (step c m) as [c1|] eqn:E; [|discriminate].
    destruct (td_move _ _ _ T E) as (T1 & D1).
    destruct (IH _ T1 H) as (T2 & D2). split; auto. lia.
Qed.

Lemma step_trace_ext c m c' : step c m = Some c' -> exists post, c_trace c' = post ++ c_trace c.
Proof.
  intros H. apply step_sstep in H.
  destruct H; first [exists []; reflexivity | eexists [_]; reflexivity].
Qed.

Lemma run_trace_ext c ms c' : run_moves c ms = Some c' -> exists post, c_trace c' = post ++ c_trace c.
Proof.
  revert c. induction ms as [|m ms IH]; simpl; intros c H.
  - injection H as <-. exists []. reflexivity.
  - destruct (step c m) as [c1|] eqn:E; [|discriminate].
    destruct (step_trace_ext _ _ _ E) as (p1 & E1). destruct (IH _ H) as (p2 & E2).
    exists (p2 ++ p1). rewrite E2, E1, app_assoc. reflexivity.
Qed.

(* clause (b): run_condition has turned false for good and the thread is past the wait *)
Definition distb (p : pc) : option nat :=
  match p with
  | PExited => Some 0 | PDone => Some 1 | PFinal => Some 2 | PC2a => Some 3 | PAfter => Some 4
  | PC1a => Some 5 | PInc => Some 6 | PStepBody => Some 7 | PStep => Some 8 | PC1c => Some 9 | PC1b => Some 10
  | PInitBody => Some 6 | PInit => Some 7
  | _ => None
  end.

Definition exit_bound_rc : nat := 10.

Lemma distb_bound p d : distb p = Some d -> d <= exit_bound_rc.
Proof. destruct p; simpl; intros [= <-]; unfold exit_bound_rc; lia. Qed.

Lemma distb_0 p : distb p = Some 0 -> p = PExited.
Proof. destruct p; simpl; intros; try discriminate; reflexivity. Qed.

Definition rc_false (m : move) : bool :=
  match m with MThread true => false | _ => true end.

Definition may_step (p : pc) : nat :=
  match p with PC1b | PC1c | PStep => 1 | _ => 0 end.

Lemma rcf_enabled c dd : distb (c_pc c) = Some dd -> c_pc c <> PExited ->
  exists c', step c (MThread false) = Some c'.
Proof.
  destruct c as [p r s t n w d tr]; simpl. destruct p; simpl; intros; try discriminate; eauto; congruence.
Qed.

(* the distance falls with every thread move, and steps started + steps still possible never grows *)
Lemma rcf_move c m c' dd : distb (c_pc c) = Some dd -> rc_false m = true -> step c m = Some c' ->
  (exists d', distb (c_pc c') = Some d' /\ d' + (if is_thread_move m then 1 else 0) <= dd)
  /\ count_steps (c_trace c') + may_step (c_pc c') <= count_steps (c_trace c) + may_step (c_pc c).
Proof.
  intros D F H. apply step_sstep in H.
  destruct H; split_rules; simpl in *; try discriminate; try injection D as <-;
  (split; [eexists; split; [reflexivity + eassumption | lia] | lia]).
Qed.

Lemma rcf_run c ms c' d : distb (c_pc c) = Some d -> forallb rc_false ms = true -> run_moves c ms = Some c' ->
  (exists d', distb (c_pc c') = Some d' /\ d' + thread_moves ms <= d)
  /\ count_steps (c_trace c') + may_step (c_pc c') <= count_steps (c_trace c) + may_step (c_pc c).
Proof.
  revert c d. induction ms as [|m ms IH]; simpl; intros c d D F H.
  - injection H as <-. split; [exists d; split; [auto|lia] | lia].
  - apply andb_true_iff in F. destruct F as [F1 F2].
    destruct (step c m) as [c1|] eqn:E; [|discriminate].
    destruct (rcf_move _ _ _ _ D F1 E) as ((d1 & D1 & L1) & S1).
    destruct (IH _ _ D1 F2 H) as ((d2 & D2 & L2) & S2).
    split; [exists d2; split; [auto|lia] | lia].
Qed.

(* own moves to PExited when run_ = true and every run_condition() answers false *)
Definition dist2 (p : pc) : nat :=
  match p with
  | PExited => 0 | PDone => 1 | PFinal => 2 | PC2a => 3 | PAfter => 4 | PC1a => 5
  | PInc => 6 | PStepBody => 7 | PStep => 8 | PC1c => 9 | PC1b => 10
  | PInitBody => 6 | PInit => 7 | PHeld => 8 | PRecheck => 8 | PLock => 9 | PSleep => 9
  | PZero => 10 | PTop => 11 | PC2d => 12 | PC2c => 13 | PC2b => 13
  end.

Definition exit_bound_running : nat := 13.

Lemma dist2_bound p : dist2 p <= exit_bound_running.
Proof. destruct p; simpl; unfold exit_bound_running; lia. Qed.

Lemma dist2_0 p : dist2 p = 0 -> p = PExited.
Proof. destruct p; simpl; intros; try discriminate; reflexivity. Qed.

Definition may_init (p : pc) : nat :=
  match p with
  | PTop | PZero | PLock | PHeld | PSleep | PRecheck | PInit | PC2b | PC2c | PC2d => 1
  | _ => 0
  end.

(* continuation without reboot() and with only false run_condition answers *)
Definition quiet_rc (m : move) : bool :=
  match m with MThread true | MCmd Reboot => false | _ => true end.

Definition running_or_done (c : config) : Prop :=
  c_mid c = false /\ match c_pc c with PDone | PExited => True | _ => c_run c = true end.

(* the distance falls with every thread move; steps / initialisations started + still possible never grow *)
Lemma rcr_move c m c' : running_or_done c -> quiet_rc m = true -> step c m = Some c' ->
  running_or_done c'
  /\ dist2 (c_pc c') + (if is_thread_move m then 1 else 0) <= dist2 (c_pc c)
  /\ count_steps (c_trace c') + may_step (c_pc c') <= count_steps (c_trace c) + may_step (c_pc c)
  /\ count_inits (c_trace c') + may_init (c_pc c') <= count_inits (c_trace c) + may_init (c_pc c).
Proof.
  unfold running_or_done. intros (M & Rn) F H. apply step_sstep in H.
  destruct H; split_rules; simpl in *; subst; try discriminate; simpl in *; try discriminate.
  all: try (repeat split; auto; lia).
  (* C_run *) repeat split; try lia. destruct p; auto.
Qed.

Lemma rcr_run c ms c' : running_or_done c -> forallb quiet_rc ms = true -> run_moves c ms = Some c' ->
  running_or_done c'
  /\ dist2 (c_pc c') + thread_moves ms <= dist2 (c_pc c)
  /\ count_steps (c_trace c') + may_step (c_pc c') <= count_steps (c_trace c) + may_step (c_pc c)
  /\ count_inits (c_trace c') + may_init (c_pc c') <= count_inits (c_trace c) + may_init (c_pc c).
Proof.
  revert c. induction ms as [|m ms IH]; simpl; intros c RD F H.
  - injection H as <-. repeat split; try apply RD; lia.
  - apply andb_true_iff in F. destruct F as [F1 F2].
    destruct (step c m) as [c1|] eqn:E; [|discriminate].
    destruct (rcr_move _ _ _ RD F1 E) as (RD1 & L1 & S1 & N1).
    destruct (IH _ RD1 F2 H) as (RD2 & L2 & S2 & N2).
    repeat split; try apply RD2; lia.
Qed.

(* with run_ down the thread goes to sleep in the wait and stays there: the bound above needs run_ up *)
Definition parked (c : config) : Prop :=
  c_pc c = PSleep /\ c_woken c = false /\ c_mid c = false.

Definition no_wake (m : move) : bool :=
  match m with MCmd Run | MCmd Reboot | MCmd Teardown | MSpurious | MRebootEnd => false | _ => true end.

Lemma parked_stays c m c' : parked c -> no_wake m = true -> step c m = Some c' -> parked c'.
Proof.
  destruct c as [p r s t n w d tr]. intros (P & W & M) F H. simpl in *. subst.
  destruct m as [b| |k|]; try discriminate; simpl in H; try discriminate.
  destruct k; simpl in *; try discriminate; injection H as <-; repeat split.
Qed.

Lemma parked_forever ms : forall c0 c'', parked c0 -> forallb no_wake ms = true ->
  run_moves c0 ms = Some c'' -> parked c''.
Proof.
  induction ms as [|m ms IH]; simpl; intros c0 c'' P F H.
  - injection H as <-. auto.
  - apply andb_true_iff in F. destruct F as [F1 F2].
    destruct (step c0 m) as [c1|] eqn:E; [|discriminate].
    apply (IH c1); auto. apply (parked_stays c0 m); auto.
Qed.

Lemma parked_disabled c : parked c -> (forall b, step c (MThread b) = None) /\ step c (MCmd Wait) = None.
Proof.
  destruct c as [p r s t n w d tr]. intros (P & W & M). simpl in *. subst. split; reflexivity.
Qed.

Definition asleep0 : config := mk PSleep false false false 0 false false [].

(* what every thread move preserves, the thread's part of a token preserves *)
Section ThreadClosed.
Variable P : config -> Prop.
Hypothesis P_tstep : forall b c c', P c -> tstep b c = Some c' -> P c'.

Lemma settle_closed f c : P c -> P (settle f c).
Proof.
  revert c. induction f as [|f IH]; simpl; intros c H; auto.
  destruct (observable (c_pc c)); auto.
  destruct (tstep false c) as [c1|] eqn:E; eauto.
Qed.

Lemma thread_token_closed b c : P c -> P (thread_token b c).
Proof.
  intros H. unfold thread_token. change (step c (MThread b)) with (tstep b c).
  destruct (tstep b c) as [c1|] eqn:E; eauto using settle_closed.
Qed.

Lemma free_run_closed f c : P c -> P (free_run f c).
Proof.
  revert c. induction f as [|f IH]; simpl; intros c H; auto.
  destruct (tstep true c) as [c1|] eqn:E; eauto.
Qed.
End ThreadClosed.

Lemma wake_closed (P : config -> Prop) : (forall c, P c -> P (thread_token false c)) -> forall c, P c -> P (wake c).
Proof. intros T c H. unfold wake. destruct (c_pc c); auto. destruct (c_woken c); auto. Qed.

Lemma run_word_closed (P : config -> Prop) : (forall c t, P c -> P (do_token c t)) -> forall w c, P c -> P (run_word c w).
Proof. intros T w. induction w as [|t w IH]; simpl; auto. Qed.

(* what a thread move leaves alone *)
Lemma thread_move_frame c m c' : step c m = Some c' -> is_thread_move m = true ->
  c_td c' = c_td c /\ c_mid c' = c_mid c.
Proof. intros H. apply step_sstep in H. destruct H; simpl; auto; discriminate. Qed.

Lemma tstep_mid x b c c' : c_mid c = x -> tstep b c = Some c' -> c_mid c' = x.
Proof. intros <- H. apply (thread_move_frame c (MThread b) c' H eq_refl). Qed.

Lemma tstep_td x b c c' : c_td c = x -> tstep b c = Some c' -> c_td c' = x.
Proof. intros <- H. apply (thread_move_frame c (MThread b) c' H eq_refl). Qed.

Lemma R_thread b c c' : reachable c -> tstep b c = Some c' -> reachable c'.
Proof. intros R H. apply (R_step _ c (MThread b)); auto. Qed.

Lemma thread_token_reachable b c : reachable c -> reachable (thread_token b c).
Proof. exact (thread_token_closed reachable R_thread b c). Qed.

Lemma complete_reboot_reachable c : reachable c -> reachable (complete_reboot c).
Proof.
  intros R. unfold complete_reboot. destruct (c_mid c); auto.
  destruct (step c MRebootEnd) as [c1|] eqn:E; auto. eapply R_step; eauto.
Qed.

Lemma do_token_reachable c t : reachable c -> reachable (do_token c t).
Proof.
  intros R. destruct t; unfold do_token; auto using thread_token_reachable.
  destruct (step c (MCmd k)) as [c1|] eqn:E; auto.
  apply (wake_closed _ (thread_token_reachable false)). apply complete_reboot_reachable. eapply R_step; eauto.
Qed.

Lemma run_word_reachable w c : reachable c -> reachable (run_word c w).
Proof. exact (run_word_closed _ do_token_reachable w c). Qed.

Lemma finish_reachable c : reachable c -> reachable (finish c).
Proof.
  intros R. unfold finish.
  apply do_token_reachable. apply (free_run_closed reachable R_thread).
  set (c1 := match c_pc c with PHeld => thread_token true c | _ => c end).
  assert (R1 : reachable c1) by (unfold c1; destruct (c_pc c); auto using thread_token_reachable).
  destruct (c_pc c1); auto using do_token_reachable.
Qed.

(* the thread is always brought to a schedule point; between tokens the controller is never inside reboot() *)
Definition wordstate (c : config) : Prop := observable (c_pc c) = true /\ c_mid c = false.

Lemma settle_observable c : c_mid c = false -> observable (c_pc (settle 8 c)) = true.
Proof. destruct c as [p r s t n w d tr]. simpl. intros ->. destruct p; try reflexivity; destruct r, s, t; reflexivity. Qed.

Lemma thread_token_ws b c : wordstate c -> wordstate (thread_token b c).
Proof.
  intros (O & M). unfold thread_token. change (step c (MThread b)) with (tstep b c).
  destruct (tstep b c) as [c1|] eqn:E; [|split; auto].
  pose proof (tstep_mid _ _ _ _ M E) as M1.
  split; [apply settle_observable; auto | apply (settle_closed _ (tstep_mid false)); auto].
Qed.

Lemma cmd_pc c k c' : step c (MCmd k) = Some c' -> c_pc c' = c_pc c.
Proof.
  intros H. apply step_sstep in H. inversion H; reflexivity.
Qed.

Lemma complete_reboot_ws c : observable (c_pc c) = true -> wordstate (complete_reboot c).
Proof.
  unfold complete_reboot, wordstate. destruct c as [p r s t n w d tr]; simpl. destruct d; simpl; auto.
Qed.

Lemma do_token_ws c t : wordstate c -> wordstate (do_token c t).
Proof.
  intros W. destruct t; unfold do_token; auto using thread_token_ws.
  destruct (step c (MCmd k)) as [c1|] eqn:E; auto.
  apply (wake_closed _ (thread_token_ws false)). apply complete_reboot_ws. rewrite (cmd_pc _ _ _ E). apply W.
Qed.

Lemma run_word_ws w c : wordstate c -> wordstate (run_word c w).
Proof. exact (run_word_closed _ do_token_ws w c). Qed.

Lemma free_run_exits f c : reachable c -> c_td c = true -> c_mid c = false -> dist (c_pc c) <= f ->
  c_pc (free_run f c) = PExited.
Proof.
  revert c. induction f as [|f IH]; simpl; intros c R T M D.
  - apply dist_0. lia.
  - change (tstep true c) with (step c (MThread true)).
    destruct (step c (MThread true)) as [c1|] eqn:E.
    + destruct (td_move _ _ _ T E) as (T1 & D1). simpl in D1.
      apply IH; auto; [eapply R_step; eauto | apply (tstep_mid _ _ _ _ M E) | lia].
    + destruct (c_pc c) eqn:P; auto;
        destruct (thread_enabled true c R M) as (c2 & Y); auto; congruence.
Qed.

Lemma free_run_exited f c : c_pc c = PExited -> free_run f c = c.
Proof. destruct f; simpl; auto. destruct c as [p r s t n w d tr]; simpl. intros ->. reflexivity. Qed.

(* at point 2 the wait is passed or the thread blocks *)
Lemma thread_token_leaves_held b c : c_pc c = PHeld -> c_pc (thread_token b c) <> PHeld.
Proof.
  destruct c as [p r s t n w d tr]. simpl. intros ->. unfold thread_token. simpl.
  destruct (r || t); simpl; discriminate.
Qed.

(* at every other schedule point the mutex is free, teardown() goes through *)
Lemma teardown_token_td c : wordstate c -> c_pc c <> PHeld -> c_td (do_token c (KCmd Teardown)) = true.
Proof.
  destruct c as [p r s t n w d tr]. intros (O & M) N. simpl in *. subst d.
  assert (F : mutex_free p = true) by (destruct p; try reflexivity; [congruence | discriminate O]).
  unfold do_token. simpl. rewrite F. simpl. apply (wake_closed _ (thread_token_closed _ (tstep_td true) false)). reflexivity.
Qed.

Lemma wait_token_exited c : c_pc c = PExited ->
  c_pc (do_token c (KCmd Wait)) = PExited /\ exists tr, c_trace (do_token c (KCmd Wait)) = ECmd Wait :: tr.
Proof.
  destruct c as [p r s t n w d tr]. simpl. intros ->.
  unfold do_token, complete_reboot. simpl. destruct d; simpl; eauto.
Qed.

(* end of every schedule word: leave point 2, teardown at the point reached, then the thread
   running freely with run_condition = true always exits; wait is enabled *)
Lemma finish_exits c : reachable c -> wordstate c ->
  c_pc (finish c) = PExited /\ exists tr, c_trace (finish c) = ECmd Wait :: tr.
Proof.
  intros R W. unfold finish.
  set (c1 := match c_pc c with PHeld => thread_token true c | _ => c end).
  assert (H1 : reachable c1 /\ wordstate c1 /\ c_pc c1 <> PHeld).
  { unfold c1. destruct (c_pc c) eqn:P; (split; [|split]);
      auto using thread_token_reachable, thread_token_ws, thread_token_leaves_held; rewrite P; discriminate. }
  destruct H1 as (R1 & W1 & N1).
  set (c2 := match c_pc c1 with PExited => c1 | _ => do_token c1 (KCmd Teardown) end).
  assert (H2 : reachable c2 /\ c_mid c2 = false /\ (c_pc c2 = PExited \/ c_td c2 = true)).
  { unfold c2. destruct (c_pc c1) eqn:P;
      [.. | exact (conj R1 (conj (proj2 W1) (or_introl P)))].   (* last: already at PExited *)
    all: split; [|split]; [apply do_token_reachable, R1 | apply do_token_ws, W1 | right; apply teardown_token_td; [exact W1 | congruence]]. }
  destruct H2 as (R2 & M2 & X).
  apply wait_token_exited.
  destruct X as [X|X]; [rewrite free_run_exited; auto|].
  apply free_run_exits; auto. pose proof (dist_bound (c_pc c2)). unfold exit_bound in *. lia.
Qed.
