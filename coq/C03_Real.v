(* C03_Real.v — the circular (Euler) rows and the quaternion blocks of the C03 model
   at the Coq-reals instance (World B).  The scalar helpers of C03_Model depend on
   their MatOps argument only through its scalar record; RM is a MatOps whose scalars
   are C19's ROps (its matrix part is a dummy and is never used here).  They are
   proved equal to C19's / C18's transcriptions of the same C++ functions, and C19's /
   C18's theorems then give:
     CircularRow         one Euler row of the symmetric sigma set: the directional
                         mean is arg(exp(j m)) and every offset is recovered exactly,
                         for offsets within a half turn and a positive resultant;
     qsum_is_C18, qdiff_is_C18   the quaternion helpers are C18's, which gives
                         diff_quaternion(sum_quaternion_rotation_vector(q, p), q) = p
                         outside the 1e-4 cut-off zone, within 2 asin(1e-4) inside it
                         (Properties_C03.C03_quaternion_block).
   Axioms: the four standard axioms of Coq's Reals. *)
Require Import ZArith Reals Lra Lia List.
Require Import BFL.Ops BFL.C03_Model BFL.C19_ROps BFL.C19_Model BFL.C19_Proofs BFL.C18_Model BFL.C18_Proofs.
Import ListNotations.
Local Open Scope R_scope.

(* scalars: reals; matrices: not used *)
Definition RM : MatOps :=
  mkMatOps ROps (fun _ _ => unit)
           (fun _ _ _ => tt) (fun _ _ _ _ _ => 0) (fun _ _ => tt) (fun _ => tt)
           (fun _ _ _ _ => tt) (fun _ _ _ _ => tt) (fun _ _ _ => tt) (fun _ _ _ _ => tt)
           (fun _ _ _ _ _ => tt) (fun _ _ _ => tt) (fun _ _ _ _ _ => tt) (fun _ _ _ _ _ => tt)
           (fun _ _ => tt) (fun _ _ => 0) (fun _ _ => tt) (fun _ _ => tt).

(* circle: C03's helpers are C19's *)
Lemma wrap_is_C19 x : C03_Model.wrap (O:=RM) x = C19_Model.wrap ROps x.
Proof. rewrite wrap_R; try reflexivity. Qed.

Lemma dir_add_is_wrap a b : C03_Model.dir_add (O:=RM) a b = C19_Model.wrap ROps (a + b).
Proof. unfold C03_Model.dir_add. apply wrap_is_C19. Qed.

Lemma dir_sub_is_wrap a b : C03_Model.dir_sub (O:=RM) a b = C19_Model.wrap ROps (a - b).
Proof. unfold C03_Model.dir_sub. rewrite wrap_is_C19. reflexivity. Qed.

Lemma ssum_acc (l : list R) (a : R) : fold_left Rplus l a = a + fold_left Rplus l 0.
Proof. revert a. induction l as [|x l IH]; intros a; simpl; [lra|]. rewrite IH, (IH (0 + x)). lra. Qed.

Lemma ssum_wsumf (f : R -> R) ws angles :
  ssum ROps (map (fun p => f (snd p) * fst p) (combine ws angles)) = wsumf f angles ws.
Proof.
  unfold ssum. simpl. revert angles. induction ws as [|w ws IH]; intros [|a angles]; simpl; try reflexivity.
  rewrite ssum_acc, IH. lra.
Qed.

(* one row of directional_mean with more than one column is C19's mean_row *)
Lemma dir_mean_is_C19 ws a b angles :
  C03_Model.dir_mean (O:=RM) ws (a :: b :: angles) = mean_row ROps (a :: b :: angles) ws.
Proof.
  rewrite mean_row_R. unfold C03_Model.dir_mean.
  change (satan2 (sc RM)) with atan2.
  rewrite <- (ssum_wsumf sin), <- (ssum_wsumf cos). reflexivity.
Qed.

(* directional_sub of a sample congruent to p + m from a reference congruent to m is p, for p within a
   half turn *)
Lemma dir_sub_recover m y p x : cong2pi (p + m) x -> cong2pi m y -> in_range p ->
  C19_Model.wrap ROps (x - y) = p.
Proof.
  intros Hx Hy Hp. transitivity (C19_Model.wrap ROps p); [|apply wrap_id; exact Hp]. apply wrap_cong.
  replace p with ((p + m) + - m) by lra.
  apply cong2pi_plus; [assumption | apply cong2pi_opp; assumption].
Qed.

Lemma Forall2_len {A B} (R : A -> B -> Prop) l l' : Forall2 R l l' -> length l = length l'.
Proof. induction 1; simpl; congruence. Qed.

Section CircularRow.
Variables (m w0 wi : R) (ps : list R).
Let n := length ps.
(* perturbations of the row: 0, +p_k, -p_k *)
Let perts := 0 :: ps ++ map Ropp ps.
Let ws := w0 :: repeat wi (n + n).

Lemma wsumf_app f a b wa wb : length a = length wa ->
  wsumf f (a ++ b) (wa ++ wb) = wsumf f a wa + wsumf f b wb.
Proof.
  revert wa. induction a as [|x a IH]; intros [|y wa] H; simpl in *; try discriminate; [lra|].
  rewrite IH by congruence. lra.
Qed.

Lemma wsumf_const_w f l : wsumf f l (repeat wi (length l)) = wi * fold_right (fun p acc => f p + acc) 0 l.
Proof. induction l as [|x l IH]; simpl; [lra|]. rewrite IH. lra. Qed.

Lemma fold_opp f g l : (forall p, f (- p) = g p) ->
  fold_right (fun p acc => f p + acc) 0 (map Ropp l) = fold_right (fun p acc => g p + acc) 0 l.
Proof. intros H. induction l as [|x l IH]; simpl; [reflexivity|]. rewrite IH, H. reflexivity. Qed.

Lemma perts_sum f : wsumf f perts ws =
  f 0 * w0 + wi * fold_right (fun p acc => f p + acc) 0 ps + wi * fold_right (fun p acc => f p + acc) 0 (map Ropp ps).
Proof.
  unfold perts, ws, n. simpl. rewrite repeat_app, wsumf_app by (rewrite repeat_length; reflexivity).
  rewrite wsumf_const_w.
  replace (length ps) with (length (map Ropp ps)) at 1 by apply map_length.
  rewrite wsumf_const_w. lra.
Qed.

(* cos is even, sin is odd: the resultant of the perturbations lies on the real axis *)
Lemma perts_cos : wsumf cos perts ws = w0 + 2 * wi * fold_right (fun p acc => cos p + acc) 0 ps.
Proof. rewrite perts_sum, cos_0, (fold_opp cos cos) by apply cos_neg. lra. Qed.

Lemma perts_sin : wsumf sin perts ws = 0.
Proof.
  rewrite perts_sum, sin_0, (fold_opp sin (fun p => - sin p)) by apply sin_neg.
  assert (E : forall l, fold_right (fun p acc => - sin p + acc) 0 l = - fold_right (fun p acc => sin p + acc) 0 l).
  { induction l as [|x l IH]; simpl; [lra|]. rewrite IH. lra. }
  rewrite E. lra.
Qed.

Hypothesis ps_nonempty : ps <> [].
(* positive weighted resultant w0 + 2 wi sum cos p_k (w0 is negative for small alpha) *)
Hypothesis resultant_pos : 0 < w0 + 2 * wi * fold_right (fun p acc => cos p + acc) 0 ps.

(* samples given up to full turns, x_k = m + pert_k (mod 2 pi): the directional mean of the row is
   arg(exp(j m)) *)
Lemma circular_row_mean_gen xs : Forall2 cong2pi (map (fun p => p + m) perts) xs ->
  C03_Model.dir_mean (O:=RM) ws xs = C19_Model.wrap ROps m.
Proof.
  intros xs_cong.
  assert (Hx : exists a b l, xs = a :: b :: l).
  { apply Forall2_len in xs_cong. rewrite map_length in xs_cong. unfold perts in xs_cong.
    destruct ps as [|p l]; [contradiction|].
    destruct xs as [|a [|b l']]; try discriminate xs_cong. eauto. }
  destruct Hx as (a & b & l & Hx).
  replace (C03_Model.dir_mean (O:=RM) ws xs) with (mean_row ROps xs ws) by (rewrite Hx; symmetry; apply dir_mean_is_C19).
  rewrite (mean_row_shift _ _ ws xs_cong), mean_row_R, wsumf_cos_rot, wsumf_sin_rot, perts_sin, perts_cos.
  set (rho := w0 + _) in *.
  replace (0 * cos m + rho * sin m) with (rho * sin m) by lra.
  replace (rho * cos m - 0 * sin m) with (rho * cos m) by lra.
  rewrite atan2_scale by assumption. symmetry. apply wrap_R.
Qed.

(* the row of the sigma-point matrix: directional_add(perturbation, mean) *)
Let xs := map (fun p => C03_Model.dir_add (O:=RM) p m) perts.
Hypothesis half_turn : Forall in_range ps.            (* offsets within a half turn *)
Hypothesis half_turn_neg : Forall (fun p => in_range (- p)) ps.

Lemma circular_row_mean : C03_Model.dir_mean (O:=RM) ws xs = C19_Model.wrap ROps m.
Proof.
  apply circular_row_mean_gen. unfold xs. induction perts as [|p l IH]; simpl; constructor; [|assumption].
  rewrite dir_add_is_wrap. apply wrap_congruent.
Qed.

(* ... and every tangent offset directional_sub(x_j, mean) is the perturbation it came from *)
Lemma circular_row_offsets :
  map (fun x => C03_Model.dir_sub (O:=RM) x (C03_Model.dir_mean (O:=RM) ws xs)) xs = perts.
Proof.
  rewrite circular_row_mean. unfold xs. rewrite map_map.
  assert (Hp : Forall in_range perts).
  { unfold perts. constructor; [unfold in_range; pose proof PI_RGT_0; lra|].
    apply Forall_app. split; [assumption|]. apply Forall_map. assumption. }
  induction Hp as [|p l Hp _ IH]; simpl; [reflexivity|]. f_equal; [|assumption].
  rewrite dir_sub_is_wrap, dir_add_is_wrap. apply (dir_sub_recover m); [apply wrap_congruent | apply wrap_congruent | exact Hp].
Qed.
End CircularRow.

(* quaternion blocks: C03's helpers are C18's *)
Definition toQ (q : C03_Model.quat RM) : C18_Model.quat ROps :=
  let '(a, b, c, d) := q in mkQ a b c d.
Definition toV (r : C03_Model.rvec RM) : vec3 ROps := let '(x, y, z) := r in mkV x y z.

Lemma qmul_is_C18 p q : toQ (C03_Model.qmul (O:=RM) p q) = C18_Model.qmul ROps (toQ p) (toQ q).
Proof. destruct p as [[[aw ax] ay] az], q as [[[bw bx] by_] bz]. reflexivity. Qed.

Lemma qconj_is_C18 q : toQ (C03_Model.qconj (O:=RM) q) = C18_Model.qconj ROps (toQ q).
Proof. destruct q as [[[a b] c] d]. reflexivity. Qed.

Lemma rotvec_to_quat_is_C18 r : toQ (rotvec_to_quat (O:=RM) r) = rv_to_q ROps (toV r).
Proof.
  destruct r as [[x y] z]. unfold rotvec_to_quat, rv_to_q, toV.
  change (C03_Model.norm3 RM x y z) with (C18_Model.norm3 ROps (mkV x y z)).
  change (eps4 RM) with (cutoff ROps). change (sc RM) with ROps.
  match goal with |- context [if ?b then _ else _] => destruct b end; reflexivity.
Qed.

Lemma quat_to_rotvec_is_C18 q : toV (quat_to_rotvec (O:=RM) q) = q_to_rv ROps (toQ q).
Proof.
  destruct q as [[[w x] y] z]. unfold quat_to_rotvec, q_to_rv, toQ.
  change (C03_Model.norm3 RM x y z) with (C18_Model.norm3 ROps (qvec ROps (mkQ w x y z))).
  change (eps4 RM) with (cutoff ROps). change (sc RM) with ROps.
  match goal with |- context [if ?b then _ else _] => destruct b end; [|reflexivity].
  simpl qw. match goal with |- context [if ?b then _ else _] => destruct b end; reflexivity.
Qed.

Lemma qsum_is_C18 q r : toQ (C03_Model.qsum (O:=RM) q r) = qsum_one ROps (toQ q) (toV r).
Proof. unfold C03_Model.qsum, qsum_one. rewrite qmul_is_C18, rotvec_to_quat_is_C18. reflexivity. Qed.

Lemma qdiff_is_C18 a b : toV (C03_Model.qdiff (O:=RM) a b) = qdiff_one ROps (toQ a) (toQ b).
Proof. unfold C03_Model.qdiff, qdiff_one. rewrite quat_to_rotvec_is_C18, qmul_is_C18, qconj_is_C18. reflexivity. Qed.

(* the sigma quaternion stays a unit quaternion *)
Lemma quaternion_block_unit q p : qnorm2 (toQ q) = 1 -> qnorm2 (toQ (C03_Model.qsum (O:=RM) q p)) = 1.
Proof. intros H. rewrite qsum_is_C18. now apply sum_unit. Qed.

