(* C12_GPFInst.v — the GPF skeleton of C12_Model instantiated with the numerical
   routines of C08_Model (GPFCorrection over particle lists), and the proof that
   this instance IS C08's gpf_correct: for every wrapped Gaussian step, every
   likelihood model (valid or not), every transition density and every draw.
   The fault skeleton and C08's algebraic model are one definition.  No axioms. *)
Require Import ZArith List Bool Arith Lia.
Require Import BFL.Ops BFL.Density BFL.C01_Model BFL.C08_Model BFL.ListFacts BFL.C08_Struct.
Require BFL.C12_Model BFL.C12_Proofs.
Import ListNotations.

Section GPFInst.
Variable O : MatOps.
Variable n : nat.
Notation S := (sc O).
Notation pset := (C08_Model.pset O n).

(* the data of the skeleton: G = the particle list as the wrapped correction sees and
   leaves it (beliefs + the weights and positions already in the object), St = positions *)
Definition iG := pset.
Definition iSt := list (M O n 1).

(* gaussian_correction_->correct(pred, corr): beliefs of the first |pred| components are
   written, positions and weights of the output object are not *)
Definition i_gc (gc : gstep O n) (pred out : iG) (st : unit) : C12_Model.result iG unit :=
  C12_Model.mkRes
    (map (fun i => let b := belief_at (gc (gm_of pred) (gm_of out)) i in
                   let o := nth i out (dparticle O n) in
                   mkParticle (pstate o) (gmean b) (gcov b) (plw o))
         (seq 0 (length pred)))
    tt [].

(* sampleFromProposal for i < components, the draws zs being the random numbers *)
Definition i_sample (zs : list (M O n 1)) (g : iG) (_ : iSt) : iSt * list (M O n 1) :=
  (map (fun i => let p := nth i g (dparticle O n) in
                 sample_from_proposal (pmean p) (pcov p) (nth i zs (mzero n 1)))
       (seq 0 (length g)), zs).

(* GPFCorrection.cpp:119-129 *)
Definition i_wupd (trans : list (M O n 1) -> list (M O n 1) -> list (T S))
           (pred : iG * iSt) (ls : list (T S)) (corr : iG * iSt) : iG :=
  let xs := snd corr in
  let ts := trans (map pstate (fst pred)) xs in
  map (fun i => let c := nth i (fst corr) (dparticle O n) in
                let x := nth i xs (mzero n 1) in
                mkParticle x (pmean c) (pcov c)
                  (gpf_weight S (plw (nth i (fst pred) (dparticle O n)))
                              (nth i ls (s0 S)) (nth i ts (s0 S))
                              (evaluate_proposal x (pmean c) (pcov c))))
      (seq 0 (length (fst pred))).

Definition i_gpf_step (gc : gstep O n) (lik : list (M O n 1) -> bool * list (T S))
           (trans : list (M O n 1) -> list (M O n 1) -> list (T S)) (zs : list (M O n 1))
           (pred corr_old : pset) :=
  @C12_Model.gpf_step iG iSt unit unit unit unit unit (list (T S)) (list (M O n 1))
     (fun _ => tt) (fun _ _ => []) [] unit i_sample (i_wupd trans) (i_gc gc)
     (C12_Model.LCustom lik) (C12_Model.mkMM true None (fun _ => None) (fun _ _ => None) (false, tt))
     (pred, map pstate pred) (corr_old, map pstate corr_old)
     (C12_Model.mkGpfSt (C12_Model.mkPfSt false []) tt zs).

Lemma i_gc_length gc pred out st : length (C12_Model.r_out (i_gc gc pred out st)) = length pred.
Proof. simpl. now rewrite map_length, seq_length. Qed.

Lemma i_gc_nth gc pred out st i d : i < length pred ->
  nth i (C12_Model.r_out (i_gc gc pred out st)) d =
  let b := belief_at (gc (gm_of pred) (gm_of out)) i in
  let o := nth i out (dparticle O n) in
  mkParticle (pstate o) (gmean b) (gcov b) (plw o).
Proof. intros Hi. unfold i_gc. cbn [C12_Model.r_out]. now rewrite nth_map_seq. Qed.

(* the positions drawn by the skeleton instance are C08's gpf_drawn *)
Lemma i_states_are_gpf_drawn gc zs pred corr_old s :
  fst (i_sample zs (C12_Model.r_out (i_gc gc pred corr_old tt)) s) = gpf_drawn gc zs pred corr_old.
Proof.
  unfold i_sample. cbn [fst]. rewrite i_gc_length. unfold gpf_drawn.
  apply map_seq_ext. intros i Hi. rewrite i_gc_nth, beliefs_nth by exact Hi. reflexivity.
Qed.

(* the instance of the skeleton is C08's gpf_correct: particles, validity flag and likelihood *)
Theorem gpf_skeleton_is_C08 gc lik trans zs pred corr_old :
  let r := i_gpf_step gc lik trans zs pred corr_old in
  let c := gpf_correct gc lik trans zs pred corr_old in
  fst (C12_Model.r_out r) = cr_particles c /\
  C12_Model.pf_get_lik (C12_Model.g_pf (C12_Model.r_st r)) = (cr_valid c, cr_lik c).
Proof.
  intros r c. unfold r, i_gpf_step.
  rewrite C12_Proofs.gpf_step_eq. cbv zeta. cbn [C12_Model.r_out C12_Model.r_st C12_Model.g_pf].
  rewrite C12_Proofs.pf_get_lik_of.
  unfold C12_Proofs.gpf_states. cbn [fst snd C12_Model.g_inner C12_Model.g_rng].
  rewrite i_states_are_gpf_drawn.
  unfold C12_Model.lik_eval. cbn [fst snd].
  unfold c, gpf_correct. cbv zeta.
  destruct (lik (gpf_drawn gc zs pred corr_old)) as [[|] ls]; cbn [negb fst snd cr_particles cr_valid cr_lik];
    [|split; reflexivity].
  (* valid likelihood: flag and values agree by computation, the particles entry by entry *)
  split; [|reflexivity].
  unfold i_wupd. cbn [fst snd].
  apply map_seq_ext. intros i Hi. rewrite i_gc_nth, beliefs_nth by exact Hi. reflexivity.
Qed.

(* C12's identity clause in C08's own terms: an invalid likelihood hands back the predicted particle
   list, whatever gc, trans, zs *)
Corollary C08_gpf_correct_identity_on_invalid_likelihood (gc : gstep O n) (lik : list (M O n 1) -> bool * list (T S))
          (trans : list (M O n 1) -> list (M O n 1) -> list (T S)) (zs : list (M O n 1)) (pred corr_old : pset) :
  fst (lik (gpf_drawn gc zs pred corr_old)) = false ->
  cr_particles (gpf_correct gc lik trans zs pred corr_old) = pred /\
  cr_valid (gpf_correct gc lik trans zs pred corr_old) = false.
Proof. exact (correct_invalid O n gc lik trans zs pred corr_old). Qed.
End GPFInst.
