(* C17_Proofs.v — lemmas about the C17 model.
   Sections HistProofs (HistoryBuffer) and EstProofs (EstimatesExtraction as a state machine:
   a windowed call is win_push of the base estimate, the dispatch over the
   twelve methods is read once in step_extract; invariant, cache coherence,
   the history as a trace of the recent calls) hold for EVERY scalar record S
   (in particular for IEEE doubles): no axioms.  What follows them (what the statistics
   and the window weights are) is over Coq's reals (C19_ROps.ROps): the four
   standard axioms of Reals. *)
Require Import ZArith List Lia Bool.
Require Import BFL.Ops BFL.ListFacts BFL.C19_Model BFL.C17_Model.
Import ListNotations.

Section HistProofs.
Variable A : Type.
Implicit Types (h : hist A) (b : list A).

Definition hinv h : Prop := length (buf h) <= window h /\ 2 <= window h <= 30.

Lemma shrink_loop_firstn fuel : forall b tmp, length b <= tmp + fuel ->
  shrink_loop fuel b tmp = firstn tmp b.
Proof.
  induction fuel as [|f IH]; intros b tmp Hl; simpl.
  - symmetry. apply firstn_all2. lia.
  - destruct (Nat.ltb tmp (length b)) eqn:E.
    + apply Nat.ltb_lt in E. rewrite IH by (rewrite removelast_firstn_len, firstn_length; lia).
      now apply firstn_removelast.
    + apply Nat.ltb_ge in E. symmetry. apply firstn_all2. lia.
Qed.

Lemma clamp_window_spec w : clamp_window w = Nat.max 2 (Nat.min 30 (Z.to_nat w)).
Proof.
  unfold clamp_window, max_window.
  destruct (Z.ltb_spec w 2); [lia|]. destruct (Z.leb_spec 30 w); lia.
Qed.

Lemma clamp_window_range w : 2 <= clamp_window w <= 30.
Proof. rewrite clamp_window_spec. lia. Qed.

Lemma clamp_window_id w : (2 <= w <= 30)%Z -> clamp_window w = Z.to_nat w.
Proof. rewrite clamp_window_spec. lia. Qed.

Lemma set_size_window w h : hinv h -> window (hist_set_size w h) = clamp_window w.
Proof.
  intros [_ Hw]. unfold hist_set_size. destruct (Z.eqb_spec w (Z.of_nat (window h))) as [E|E]; [|reflexivity].
  rewrite clamp_window_id by lia. subst. now rewrite Nat2Z.id.
Qed.

Lemma set_size_buf w h : hinv h -> buf (hist_set_size w h) = firstn (clamp_window w) (buf h).
Proof.
  intros [Hl Hw]. unfold hist_set_size. destruct (Z.eqb_spec w (Z.of_nat (window h))) as [->|E].
  - symmetry. apply firstn_all2. rewrite clamp_window_id, Nat2Z.id by lia. exact Hl.
  - simpl. apply shrink_loop_firstn. lia.
Qed.

Lemma set_size_inv w h : hinv h -> hinv (hist_set_size w h).
Proof.
  intros Hi. unfold hinv. rewrite set_size_buf, set_size_window, firstn_length by exact Hi.
  pose proof (clamp_window_range w). lia.
Qed.

Lemma add_buf x h : hinv h -> buf (hist_add x h) = firstn (window h) (x :: buf h).
Proof.
  intros [Hl Hw]. unfold hist_add. cbn [buf window].
  destruct (Nat.ltb (window h) (length (x :: buf h))) eqn:E.
  - apply Nat.ltb_lt in E. rewrite removelast_firstn_len. f_equal. simpl in *. lia.
  - apply Nat.ltb_ge in E. symmetry. apply firstn_all2. exact E.
Qed.

Lemma add_window x h : window (hist_add x h) = window h.
Proof. reflexivity. Qed.

Lemma add_length x h : hinv h -> length (buf (hist_add x h)) = Nat.min (S (length (buf h))) (window h).
Proof. intros Hi. rewrite add_buf by exact Hi. rewrite firstn_length. cbn [length]. lia. Qed.

Lemma add_inv x h : hinv h -> hinv (hist_add x h).
Proof. intros Hi. split; [rewrite add_length by exact Hi; apply Nat.le_min_r | apply Hi]. Qed.

Lemma add_single x h : hinv h -> length (buf (hist_add x h)) = 1 -> buf (hist_add x h) = [x].
Proof.
  intros Hi. rewrite add_buf by exact Hi. destruct Hi as [_ Hw].
  destruct (window h) as [|w]; [lia|]. cbn [firstn length].
  destruct (firstn w (buf h)); [reflexivity | discriminate].
Qed.

Lemma clear_inv h : hinv h -> hinv (hist_clear h).
Proof. intros [_ Hw]. split; simpl; [lia | exact Hw]. Qed.

Lemma init_inv : hinv (hist_init A).
Proof. unfold hinv. simpl. lia. Qed.

Lemma hstep_inv h o : hinv h -> hinv (hstep h o).
Proof. intros Hi. destruct o; [apply add_inv | apply set_size_inv .. | apply clear_inv]; exact Hi. Qed.

Lemma hrun_inv ops : forall h, hinv h -> hinv (hrun h ops).
Proof. induction ops as [|o ops IH]; intros h Hi; simpl; [exact Hi | apply IH, hstep_inv, Hi]. Qed.

Lemma hreachable_inv ops : hinv (hrun (hist_init A) ops).
Proof. apply hrun_inv, init_inv. Qed.

(* the input of DESIGN §6 F-hist-shrink: 3 stored, window 5 -> 2 keeps the 2 most recent *)
Lemma shrink_example (a b c : A) :
  buf (hist_set_size 2 (mkHist 5 [a; b; c])) = [a; b].
Proof. reflexivity. Qed.
End HistProofs.
Arguments hinv {A}.

Lemma hist_move_target A (h : hist A) : fst (hist_move h) = h.
Proof. destruct h; reflexivity. Qed.

Section EstProofs.
Variable S : SOps.
Variables lin circ : nat.
Notation t := (T S).
Notation est := (est S).
Notation op := (op S).
Notation step := (step S lin circ).
Notation run := (run S lin circ).

Lemma sm_weights_length n : length (sm_weights S n) = n.
Proof. apply repeat_length. Qed.
Lemma sub_lse_length l : length (sub_lse S l) = length l.
Proof. unfold sub_lse. apply map_length. Qed.
Lemma wm_weights_length n : length (wm_weights S n) = n.
Proof. unfold wm_weights. now rewrite sub_lse_length, map_length, seq_length. Qed.
Lemma em_weights_length n : length (em_weights S n) = n.
Proof. unfold em_weights. now rewrite sub_lse_length, map_length, seq_length. Qed.
Lemma win_weights_length v n : length (win_weights S v n) = n.
Proof. destruct v; [apply sm_weights_length | apply wm_weights_length | apply em_weights_length]. Qed.

(* a cached vector is never stale: it is the weight vector of its own length *)
Definition cache_ok (c : list t) (f : nat -> list t) : Prop := c = f (length c).

Lemma cached_ok c n f : cache_ok c f -> cached S c n f = f n.
Proof.
  intros Hc. unfold cached. destruct (Nat.eqb_spec (length c) n) as [E|E]; [|reflexivity].
  rewrite Hc. now rewrite E.
Qed.
Lemma cached_cache_ok c n f : (forall k, length (f k) = k) -> cache_ok c f -> cache_ok (cached S c n f) f.
Proof. intros Hf Hc. rewrite cached_ok by exact Hc. unfold cache_ok. now rewrite Hf. Qed.

Definition est_inv (st : est) : Prop :=
  hinv (hb st) /\ cache_ok (smw st) (sm_weights S) /\ cache_ok (wmw st) (wm_weights S)
  /\ cache_ok (emw st) (em_weights S).

Lemma est_init_inv : est_inv (est_init S).
Proof. split; [apply init_inv | repeat split]. Qed.

(* the invariant looks at the buffer and the caches only *)
Lemma est_inv_hb st m h : est_inv st -> hinv h -> est_inv (mkEst m h (smw st) (wmw st) (emw st)).
Proof. intros [_ Hc] Hh. exact (conj Hh Hc). Qed.

(* what a windowed call does once the base estimate e is known: push it, take
   the cached weights of the variant if they have the CURRENT number of stored
   estimates (else recompute and cache them), average the stored estimates *)
Definition win_push (v : wvariant) (e : vec S) (st : est) : est * vec S :=
  let h := hist_add e (hb st) in
  let n := length (buf h) in
  match v with
  | Wsimple => let w := cached S (smw st) n (sm_weights S) in
               (mkEst (meth st) h w (wmw st) (emw st), mean S lin circ (buf h) w)
  | Wweighted => let w := cached S (wmw st) n (wm_weights S) in
                 (mkEst (meth st) h (smw st) w (emw st), mean S lin circ (buf h) w)
  | Wexponential => let w := cached S (emw st) n (em_weights S) in
                    (mkEst (meth st) h (smw st) (wmw st) w, mean S lin circ (buf h) w)
  end.

Lemma windowed_push v s st ps lw plw lik Tm :
  windowed S lin circ v s st ps lw plw lik Tm = win_push v (base_est S lin circ s ps lw plw lik Tm) st.
Proof. reflexivity. Qed.

Lemma win_push_hb v e st : hb (fst (win_push v e st)) = hist_add e (hb st).
Proof. destruct v; reflexivity. Qed.
Lemma win_push_meth v e st : meth (fst (win_push v e st)) = meth st.
Proof. destruct v; reflexivity. Qed.

Lemma win_push_inv v e st : est_inv st -> est_inv (fst (win_push v e st)).
Proof.
  intros (Hh & Hs & Hw & He). apply (add_inv _ e) in Hh.
  destruct v; (split; [exact Hh|]); cbn [win_push fst smw wmw emw];
    auto using cached_cache_ok, sm_weights_length, wm_weights_length, em_weights_length.
Qed.

(* a coherent cache makes the weights used those of the current number, whatever was cached *)
Lemma win_push_value v e st : est_inv st ->
  let H := buf (hist_add e (hb st)) in
  snd (win_push v e st) = mean S lin circ H (win_weights S v (length H)).
Proof.
  intros (_ & Hs & Hw & He). destruct v; cbn [win_push snd win_weights]; f_equal; now apply cached_ok.
Qed.

(* the estimate a call pushes on the history, if it pushes one *)
Definition pushed (st : est) (o : op) : option (vec S) :=
  match o with
  | OExtract2 ps lw =>
      match meth_win (meth st), meth_stat (meth st) with
      | Some _, Smap => None
      | Some _, s => Some (base_est S lin circ s ps lw [] [] [])
      | None, _ => None
      end
  | OExtract5 ps lw plw lik Tm =>
      match meth_win (meth st), meth_stat (meth st) with
      | Some _, Smap => Some (base_est S lin circ Smap ps lw plw lik Tm)
      | Some _, s => Some (base_est S lin circ s ps lw [] [] [])
      | None, _ => None
      end
  | _ => None
  end.

(* the history buffer after one operation *)
Definition hist_after (st : est) (o : op) : hist (vec S) :=
  match o with
  | OClear => hist_clear (hb st)
  | OSetWindow w => if (0 <? w)%Z then hist_set_size w (hb st) else hb st
  | _ => match pushed st o with Some e => hist_add e (hb st) | None => hb st end
  end.

(* The dispatch of extract/2 and extract/5 over the twelve methods, by statistic and window variant:
   a windowed method pushes the base estimate (win_push), a plain one returns it; the map statistic
   needs the three extra arguments.  Finite tables: closed by computation. *)
Lemma extract2_dispatch st ps lw :
  extract2 S lin circ st ps lw =
  match meth_win (meth st), meth_stat (meth st) with
  | _, Smap => (st, (false, unavailable S lin circ))
  | Some v, s => avail S (win_push v (base_est S lin circ s ps lw [] [] []) st)
  | None, s => (st, (true, base_est S lin circ s ps lw [] [] []))
  end.
Proof. unfold extract2. case (meth st); reflexivity. Qed.

Lemma extract5_dispatch st ps lw plw lik Tm :
  extract5 S lin circ st ps lw plw lik Tm =
  match meth_win (meth st), meth_stat (meth st) with
  | Some v, Smap => avail S (win_push v (base_est S lin circ Smap ps lw plw lik Tm) st)
  | None, Smap => (st, (true, base_est S lin circ Smap ps lw plw lik Tm))
  | _, _ => extract2 S lin circ st ps lw
  end.
Proof. unfold extract5. case (meth st); reflexivity. Qed.

(* Hence one extract call: if it pushes e, it is win_push of e for the method's variant; otherwise the
   state is left alone and the base statistic, or nothing, is returned. *)
Lemma step_extract st o :
  match o with OExtract2 _ _ | OExtract5 _ _ _ _ _ => True | _ => False end ->
  let r := step st o in
  match pushed st o with
  | Some e => exists v, meth_win (meth st) = Some v /\ r = avail S (win_push v e st)
  | None =>
      fst r = st /\
      match meth_win (meth st) with
      | Some _ => fst (snd r) = false
      | None =>
          match o, meth_stat (meth st) with
          | OExtract2 ps lw, Smean | OExtract5 ps lw _ _ _, Smean => snd r = (true, mean S lin circ ps lw)
          | OExtract2 ps lw, Smode | OExtract5 ps lw _ _ _, Smode => snd r = (true, mode S ps lw)
          | OExtract5 ps _ plw lik Tm, Smap => snd r = (true, map_est S ps plw lik Tm)
          | _, _ => fst (snd r) = false
          end
      end
  end.
Proof.
  destruct o as [ps lw|ps lw plw lik Tm| | |]; try contradiction; intros _; unfold step, pushed;
    rewrite ?extract5_dispatch, extract2_dispatch;
    case (meth_win (meth st)); case (meth_stat (meth st)); intros;
    first [eexists; split; reflexivity | split; reflexivity].
Qed.

Lemma step_pushed st o v e :
  meth_win (meth st) = Some v -> pushed st o = Some e -> step st o = avail S (win_push v e st).
Proof.
  intros Hv He. pose proof (step_extract st o) as X. cbv zeta in X. rewrite He in X.
  destruct X as (v' & Hv' & X); [|congruence].
  destruct o; try discriminate He; exact I.   (* only an extract call pushes *)
Qed.

Lemma step_extract_state st o :
  match o with OExtract2 _ _ | OExtract5 _ _ _ _ _ => True | _ => False end ->
  match pushed st o with
  | Some e => exists v, fst (step st o) = fst (win_push v e st)
  | None => fst (step st o) = st
  end.
Proof.
  intros Ho. pose proof (step_extract st o Ho) as X. cbv zeta in X.
  destruct (pushed st o) as [e|]; [destruct X as (v & _ & ->); now exists v | apply X].
Qed.

Lemma step_hb st o : hb (fst (step st o)) = hist_after st o.
Proof.
  pose proof (step_extract_state st o) as X. unfold hist_after.
  destruct o as [ps lw|ps lw plw lik Tm|m|w|].
  1,2: specialize (X I); destruct (pushed st _) as [e|]; [destruct X as [v ->]; apply win_push_hb | now rewrite X].
  - reflexivity.
  - unfold step, set_window. destruct (0 <? w)%Z; reflexivity.
  - reflexivity.
Qed.

Lemma step_meth st o :
  meth (fst (step st o)) = match o with OSetMethod m => m | _ => meth st end.
Proof.
  pose proof (step_extract_state st o) as X. destruct o as [ps lw|ps lw plw lik Tm|m|w|].
  1,2: specialize (X I); destruct (pushed st _) as [e|]; [destruct X as [v ->]; apply win_push_meth | now rewrite X].
  - reflexivity.
  - unfold step, set_window. destruct (0 <? w)%Z; reflexivity.
  - reflexivity.
Qed.

Lemma step_inv st o : est_inv st -> est_inv (fst (step st o)).
Proof.
  intros Hi. pose proof (proj1 Hi) as Hh. pose proof (step_extract_state st o) as X.
  destruct o as [ps lw|ps lw plw lik Tm|m|w|].
  1,2: specialize (X I); destruct (pushed st _) as [e|]; [destruct X as [v ->]; now apply win_push_inv | now rewrite X].
  - now apply est_inv_hb.
  - unfold step, set_window. destruct (0 <? w)%Z; [apply est_inv_hb, set_size_inv|]; assumption.
  - now apply est_inv_hb, clear_inv.
Qed.

Lemma run_inv ops : forall st, est_inv st -> est_inv (run st ops).
Proof. induction ops as [|o ops IH]; intros st Hi; simpl; [exact Hi | apply IH, step_inv, Hi]. Qed.

Lemma reachable_inv ops : est_inv (run (est_init S) ops).
Proof. apply run_inv, est_init_inv. Qed.

(* The history is the trace of the most recent pushing calls.
   ghost: all estimates pushed since the last clear, newest first *)
Definition ghost_after (st : est) (o : op) (g : list (vec S)) : list (vec S) :=
  match o with
  | OClear => []
  | _ => match pushed st o with Some e => e :: g | None => g end
  end.
Fixpoint trace (st : est) (ops : list op) (g : list (vec S)) : est * list (vec S) :=
  match ops with
  | [] => (st, g)
  | o :: ops' => trace (fst (step st o)) ops' (ghost_after st o g)
  end.

Lemma trace_state ops : forall st g, fst (trace st ops g) = run st ops.
Proof. induction ops as [|o ops IH]; intros; simpl; [reflexivity | apply IH]. Qed.

Definition prefix_of (b g : list (vec S)) : Prop := b = firstn (length b) g.

Lemma prefix_firstn n b g : prefix_of b g -> prefix_of (firstn n b) g.
Proof.
  unfold prefix_of. intros H. rewrite firstn_length. rewrite H at 1.
  rewrite firstn_firstn. reflexivity.
Qed.
Lemma prefix_cons n e b g : prefix_of b g -> prefix_of (firstn n (e :: b)) (e :: g).
Proof.
  unfold prefix_of. intros H. destruct n as [|n]; [reflexivity|].
  rewrite firstn_cons. simpl length. rewrite firstn_cons. f_equal. apply prefix_firstn. exact H.
Qed.

Lemma step_prefix st o g : est_inv st -> prefix_of (buf (hb st)) g ->
  prefix_of (buf (hb (fst (step st o)))) (ghost_after st o g).
Proof.
  intros [Hh _] Hp. rewrite step_hb. unfold hist_after, ghost_after.
  destruct o as [ps lw|ps lw plw lik Tm|m|w|].
  1,2: destruct (pushed st _); [rewrite add_buf by exact Hh; now apply prefix_cons | exact Hp].
  - exact Hp.
  - cbn [pushed]. destruct (0 <? w)%Z; [rewrite set_size_buf by exact Hh; now apply prefix_firstn | exact Hp].
  - reflexivity.
Qed.

Lemma trace_prefix ops : forall st g, est_inv st -> prefix_of (buf (hb st)) g ->
  prefix_of (buf (hb (fst (trace st ops g)))) (snd (trace st ops g)).
Proof.
  induction ops as [|o ops IH]; intros st g Hi Hp; simpl; [exact Hp|].
  apply IH; [now apply step_inv | now apply step_prefix].
Qed.

(* how many estimates are stored: +1 (saturating at the window) per pushing
   call, cut to the new window on a change, 0 after clear *)
Lemma step_stored st o : est_inv st ->
  length (buf (hb (fst (step st o)))) =
  match o with
  | OClear => 0
  | OSetWindow w => if (0 <? w)%Z then Nat.min (length (buf (hb st))) (clamp_window w) else length (buf (hb st))
  | _ => match pushed st o with
         | Some _ => Nat.min (Datatypes.S (length (buf (hb st)))) (window (hb st))
         | None => length (buf (hb st))
         end
  end.
Proof.
  intros [Hh _]. rewrite step_hb. unfold hist_after.
  destruct o as [ps lw|ps lw plw lik Tm|m|w|].
  1,2: destruct (pushed st _); [now apply add_length | reflexivity].
  - reflexivity.
  - destruct (0 <? w)%Z; [|reflexivity].
    rewrite set_size_buf, firstn_length by exact Hh. lia.
  - reflexivity.
Qed.

(* an operation that neither clears the buffer nor changes the window *)
Definition quiet (o : op) : Prop := match o with OClear | OSetWindow _ => False | _ => True end.

(* a quiet step keeps the window, and keeps "min(pushes, window) estimates are stored" *)
Lemma step_quiet st o g : est_inv st -> quiet o ->
  length (buf (hb st)) = Nat.min (length g) (window (hb st)) ->
  let h := hb (fst (step st o)) in
  window h = window (hb st) /\ length (buf h) = Nat.min (length (ghost_after st o g)) (window (hb st)).
Proof.
  intros Hi Hq Hb. cbv zeta. rewrite (step_stored st o Hi), step_hb. unfold hist_after, ghost_after.
  destruct o as [ps lw|ps lw plw lik Tm|m|w|]; try contradiction.
  1,2: destruct (pushed st _); (split; [reflexivity|]); cbn [length]; lia.
  now split.
Qed.

(* with the window left alone since the buffer was last empty, exactly
   min(calls, window) estimates are stored (and by trace_prefix they are those of the most recent calls) *)
Lemma trace_quiet ops : forall st g, est_inv st -> Forall quiet ops ->
  length (buf (hb st)) = Nat.min (length g) (window (hb st)) ->
  let r := trace st ops g in
  window (hb (fst r)) = window (hb st) /\
  length (buf (hb (fst r))) = Nat.min (length (snd r)) (window (hb st)).
Proof.
  induction ops as [|o ops IH]; intros st g Hi Hq Hb; simpl; [now split|].
  inversion Hq as [|? ? Hqo Hqr]; subst.
  destruct (step_quiet st o g Hi Hqo Hb) as [Hw Hb']. rewrite <- Hw in Hb' |- *.
  apply IH; [now apply step_inv | exact Hqr | exact Hb'].
Qed.

(* the map methods: extract/2 cannot serve them (Properties_C17.C17_map_without_args_unavailable) *)
Definition is_map (m : method) : bool :=
  match m with Mmap | Msmap | Mwmap | Memap => true | _ => false end.

End EstProofs.

Require Import Reals Lra.
Require Import BFL.C19_ROps BFL.C19_Proofs.
Local Open Scope R_scope.

(* show the operations of ROps as the operations of R they are *)
Ltac rops := cbn [T s0 s1 sadd ssub smul sdiv sopp sleb sltb sofZ ssqrt sexp sln scos ssin sacos satan2 spi stiny ROps] in *.

Fixpoint rdot (xs ws : list R) : R :=
  match xs, ws with x :: xs', w :: ws' => x * w + rdot xs' ws' | _, _ => 0 end.
Definition rsum (l : list R) : R := fold_right Rplus 0 l.
Lemma rsum_cons x l : rsum (x :: l) = x + rsum l.
Proof. reflexivity. Qed.

Lemma wsum_acc xs : forall ws a,
  fold_left (fun acc p => sadd ROps acc (smul ROps (fst p) (snd p))) (combine xs ws) a = a + rdot xs ws.
Proof.
  induction xs as [|x xs IH]; intros [|w ws] a; cbn [combine fold_left rdot]; try lra.
  rewrite IH. rops. cbn [fst snd]. lra.
Qed.
Lemma wsum_R xs ws : wsum ROps xs ws = rdot xs ws.
Proof. unfold wsum. rewrite wsum_acc. rops. lra. Qed.

Lemma ssum_acc l : forall a, fold_left (sadd ROps) l a = a + rsum l.
Proof. induction l as [|x l IH]; intros a; cbn [fold_left]; [cbn; lra|]. rewrite IH, rsum_cons. rops. lra. Qed.
Lemma ssum_R l : ssum ROps l = rsum l.
Proof. unfold ssum. rewrite ssum_acc. rops. lra. Qed.

Lemma rsum_map_scale c l : rsum (map (fun x => c * x) l) = c * rsum l.
Proof. induction l as [|x l IH]; cbn [map]; [cbn; lra|]. rewrite !rsum_cons, IH. lra. Qed.

Lemma rsum_exp_pos l : l <> [] -> 0 < rsum (map exp l).
Proof.
  intros H. destruct l as [|x l]; [contradiction|]. clear H. revert x.
  induction l as [|y l IH]; intros x; cbn [map]; rewrite rsum_cons; pose proof (exp_pos x).
  - cbn. lra.
  - specialize (IH y). cbn [map] in IH. lra.
Qed.

Lemma rdot_nil_r xs : rdot xs [] = 0.
Proof. destruct xs; reflexivity. Qed.

(* C19_Proofs states the resultant with wsumf *)
Lemma wsumf_rdot f row : forall w, wsumf f row w = rdot (map f row) w.
Proof. induction row as [|a row IH]; intros [|x w]; cbn [wsumf map rdot]; [reflexivity..|]. now rewrite IH. Qed.

(* a combination with non-negative weights lies between the extremes, scaled by the total weight *)
Lemma rdot_between lo hi : forall xs ws, length xs = length ws ->
  Forall (fun x => lo <= x <= hi) xs -> Forall (fun w => 0 <= w) ws ->
  lo * rsum ws <= rdot xs ws <= hi * rsum ws.
Proof.
  induction xs as [|x xs IH]; intros [|w ws] Hl Hx Hw; try discriminate; cbn [rdot]; [cbn; lra|].
  inversion Hx; inversion Hw; subst. injection Hl as Hl. specialize (IH ws Hl H2 H6).
  rewrite rsum_cons. nra.
Qed.

Lemma atan2_range y x : in_range (atan2 y x).
Proof.
  destruct (Req_dec x 0) as [Hx|Hx]; [destruct (Req_dec y 0) as [Hy|Hy]|].
  - subst. rewrite atan2_0_0. unfold in_range. pose proof PI_RGT_0. lra.
  - apply (atan2_polar y x). now right.
  - apply (atan2_polar y x). now left.
Qed.

(* one angle with a positive weight: its directional mean is the angle itself, modulo 2 PI *)
Lemma single_angle_cong a w : 0 < w ->
  cong2pi a (atan2 (rdot (map sin [a]) [w]) (rdot (map cos [a]) [w])).
Proof.
  intros Hw. cbn [map rdot]. rewrite !Rplus_0_r, (Rmult_comm (sin a)), (Rmult_comm (cos a)).
  rewrite atan2_scale by exact Hw. apply atan2_sin_cos.
Qed.

Section RealProofs.
Variables lin circ : nat.
Notation meanR := (mean ROps lin circ).

(* linear rows: sum_i exp(lw_i) x_i *)
Lemma mean_linear ps lw r : (r < lin)%nat ->
  nth r (meanR ps lw) 0 = rdot (prow ROps r ps) (map exp lw).
Proof.
  intros H. unfold mean. rewrite app_nth1 by (now rewrite map_length, seq_length).
  rewrite nth_map_seq by exact H. apply wsum_R.
Qed.

(* circular rows: the particle itself (wrapped) when there is one, otherwise the
   argument of the weighted resultant  sum_i exp(lw_i) e^{j a_i} *)
Lemma mean_circular ps lw r : (lin <= r < lin + circ)%nat ->
  nth r (meanR ps lw) 0 =
  if Nat.eqb (length ps) 1 then atan2 (sin (nth r (nth 0 ps []) 0)) (cos (nth r (nth 0 ps []) 0))
  else atan2 (rdot (map sin (prow ROps r ps)) (map exp lw)) (rdot (map cos (prow ROps r ps)) (map exp lw)).
Proof.
  intros H. unfold mean. rewrite app_nth2 by (rewrite map_length, seq_length; lia).
  rewrite map_length, seq_length.
  destruct (Nat.eqb_spec (length ps) 1) as [E|E];
    [rewrite E, mean_single_column | rewrite mean_general by exact E];
    rewrite map_map, nth_map_seq_from by lia; replace (lin + (r - lin))%nat with r by lia.
  - destruct ps as [|p [|q ps]]; try discriminate E. apply wrap_R.
  - rewrite mean_row_R, !wsumf_rdot. reflexivity.
Qed.

(* circular rows of mean (HEAD, after dee9c81): ALWAYS in (-PI, PI]; with exactly one particle the result is
   the principal value of the particle's angle (congruent to it modulo 2 PI) *)
Lemma mean_circular_on_circle ps lw r : (lin <= r < lin + circ)%nat ->
  let x := nth r (meanR ps lw) 0 in
  in_range x /\
  (forall p, ps = [p] -> x = atan2 (sin (nth r p 0)) (cos (nth r p 0)) /\ cong2pi (nth r p 0) x).
Proof.
  intros Hr x. unfold x. rewrite (mean_circular ps lw r Hr). split.
  - destruct (Nat.eqb (length ps) 1); apply atan2_range.
  - intros p ->. cbn [length Nat.eqb nth]. split; [reflexivity | apply atan2_sin_cos].
Qed.
End RealProofs.

(* what Eigen's maxCoeff(&i) reports: the first index of the largest entry *)
Definition is_first_max (L : list R) (r : nat) : Prop :=
  (r < length L)%nat /\ (forall j, (j < length L)%nat -> nth j L 0 <= nth r L 0)
  /\ (forall j, (j < r)%nat -> nth j L 0 < nth r L 0).

(* scanning one more entry keeps "best is the first maximum of what has been scanned" *)
Lemma first_max_snoc pre best v : is_first_max pre best ->
  is_first_max (pre ++ [v]) (if Rltb (nth best pre 0) v then length pre else best).
Proof.
  intros (Hb & Hle & Hlt).
  assert (Hn : forall j, (j < length pre)%nat -> nth j (pre ++ [v]) 0 = nth j pre 0) by (intros; now apply app_nth1).
  pose proof (nth_middle pre [] v 0) as Hv. unfold is_first_max. rewrite app_length, Nat.add_1_r.
  destruct (Rltb (nth best pre 0) v) eqn:E; [apply Rltb_true in E; rewrite Hv | apply Rltb_false in E; rewrite Hn by exact Hb];
    (split; [lia|]); split; intros j Hj.
  - destruct (Nat.eq_dec j (length pre)) as [->|Hne]; [rewrite Hv; lra|].
    rewrite Hn by lia. specialize (Hle j ltac:(lia)). lra.
  - rewrite Hn by exact Hj. specialize (Hle j Hj). lra.
  - destruct (Nat.eq_dec j (length pre)) as [->|Hne]; [now rewrite Hv|].
    rewrite Hn by lia. apply Hle. lia.
  - rewrite Hn by lia. now apply Hlt.
Qed.

Lemma argmax_from_spec l : forall pre best, is_first_max pre best ->
  is_first_max (pre ++ l) (argmax_from ROps l (length pre) best (nth best pre 0)).
Proof.
  induction l as [|v l IH]; intros pre best H; cbn [argmax_from]; [now rewrite app_nil_r|].
  pose proof (IH (pre ++ [v]) _ (first_max_snoc pre best v H)) as H'.
  rewrite <- app_assoc, app_length, Nat.add_1_r in H'. cbn [app] in H'. rops.
  destruct (Rltb (nth best pre 0) v); [rewrite nth_middle in H' | rewrite app_nth1 in H' by apply H]; exact H'.
Qed.

Lemma argmax_spec L : L <> [] -> is_first_max L (argmax ROps L).
Proof.
  destruct L as [|x l]; [contradiction|]. intros _.
  apply (argmax_from_spec l [x] 0%nat). split; [simpl; lia|]. split; intros j Hj; simpl in Hj; [|lia].
  replace j with 0%nat by lia. simpl. lra.
Qed.

Lemma lse_R l : l <> [] -> lse ROps l = ln (rsum (map exp l)).
Proof.
  intros H. unfold lse. set (m := lmax ROps l). rewrite ssum_R. rops.
  replace (rsum (map (fun x => exp (x - m)) l)) with (exp (- m) * rsum (map exp l)).
  - rewrite ln_mult by (try apply exp_pos; now apply rsum_exp_pos). rewrite ln_exp. lra.
  - rewrite <- rsum_map_scale, map_map. f_equal. apply map_ext. intros a. rewrite <- exp_plus. f_equal. lra.
Qed.

Definition eps : R := stiny ROps.
Lemma eps_pos : 0 < eps.
Proof.
  unfold eps. rops. apply Rinv_0_lt_compat. apply IZR_lt. apply Z.pow_pos_nonneg; lia.
Qed.

Lemma rsum_exp_combine : forall trow plw, Forall (fun x => 0 <= x) trow ->
  rsum (map exp (map (fun tp => ln (fst tp + eps) + snd tp) (combine trow plw)))
  = rdot (map (fun x => x + eps) trow) (map exp plw).
Proof.
  pose proof eps_pos as He.
  induction trow as [|x trow IH]; intros [|p plw] Hf; cbn [combine map rdot]; try reflexivity.
  inversion Hf; subst. rewrite rsum_cons, IH by assumption. cbn [fst snd]. rewrite exp_plus, exp_ln by lra. reflexivity.
Qed.

(* the coded score is the logarithm of
   (lik_i + eps) * sum_j (T_ij + eps) * exp(previous log-weight_j) *)
Definition map_product (plw : list R) (l : R) (trow : list R) : R :=
  (l + eps) * rdot (map (fun x => x + eps) trow) (map exp plw).

Lemma map_value_R plw l trow : 0 <= l -> Forall (fun x => 0 <= x) trow -> trow <> [] -> plw <> [] ->
  0 < map_product plw l trow /\ map_value ROps plw l trow = ln (map_product plw l trow).
Proof.
  intros Hl Ht Hr Hp. pose proof eps_pos as He. unfold map_value, map_product. rops. fold eps.
  rewrite <- rsum_exp_combine by assumption. set (L := map _ (combine trow plw)).
  assert (Hne : L <> []) by (subst L; destruct trow; [contradiction|]; destruct plw; [contradiction|discriminate]).
  pose proof (rsum_exp_pos L Hne) as Hs.
  split; [apply Rmult_lt_0_compat; lra|]. rewrite lse_R by exact Hne. rewrite ln_mult by lra. reflexivity.
Qed.

Lemma ln_le_inv' a b : 0 < a -> 0 < b -> ln a <= ln b -> a <= b.
Proof.
  intros Ha Hb H. destruct (Rle_or_lt a b) as [|Hlt]; [assumption|].
  apply ln_increasing in Hlt; [lra|assumption].
Qed.

Lemma map_values_length (plw lik : list R) (Tm : list (list R)) :
  length (map_values ROps plw lik Tm) = Nat.min (length lik) (length Tm).
Proof. unfold map_values. now rewrite map_length, combine_length. Qed.

Lemma map_values_nth (plw lik : list R) (Tm : list (list R)) j : (j < length lik)%nat -> (j < length Tm)%nat ->
  nth j (map_values ROps plw lik Tm) 0 = map_value ROps plw (nth j lik 0) (nth j Tm []).
Proof.
  intros H1 H2. unfold map_values.
  rewrite (nth_map_in _ _ j 0 (0, [])) by (rewrite combine_length; exact (Nat.min_glb_lt _ _ _ H1 H2)).
  now rewrite combine_nth_lt.
Qed.

(* the window weights: positive, summing to one, not increasing with age *)
Definition weights_ok (n : nat) (w : list R) : Prop :=
  length w = n /\ (forall i, (i < n)%nat -> 0 < nth i w 0) /\ rsum w = 1
  /\ (forall i j, (i <= j)%nat -> (j < n)%nat -> nth j w 0 <= nth i w 0).

Lemma sub_lse_exp l : l <> [] ->
  map exp (sub_lse ROps l) = map (fun x => exp x / rsum (map exp l)) l.
Proof.
  intros H. unfold sub_lse. cbv zeta. rewrite map_map. apply map_ext. intros a. rops.
  rewrite lse_R by assumption. unfold Rminus, Rdiv.
  rewrite exp_plus, exp_Ropp, exp_ln by (now apply rsum_exp_pos). reflexivity.
Qed.

(* normalising by sub_lse gives total weight one *)
Lemma sub_lse_sum l : l <> [] -> rsum (map exp (sub_lse ROps l)) = 1.
Proof.
  intros H. pose proof (rsum_exp_pos l H). rewrite sub_lse_exp by exact H.
  rewrite (map_ext _ (fun x => / rsum (map exp l) * exp x)) by (intros; apply Rmult_comm).
  rewrite <- (map_map exp (Rmult (/ rsum (map exp l)))), rsum_map_scale. apply Rinv_l. lra.
Qed.

Lemma exp_le a b : a <= b -> exp a <= exp b.
Proof. intros [H| ->]; [left; now apply exp_increasing | lra]. Qed.
Lemma ln_le' a b : 0 < a -> a <= b -> ln a <= ln b.
Proof. intros Ha [H| ->]; [left; now apply ln_increasing | lra]. Qed.

(* log-weights g 0 >= g 1 >= ... normalised by sub_lse: weights exp (g i) / sum_k exp (g k) *)
Lemma normalized_ok (g : nat -> R) n : (1 <= n)%nat ->
  (forall i j, (i <= j)%nat -> (j < n)%nat -> g j <= g i) ->
  let w := map exp (sub_lse ROps (map g (seq 0 n))) in
  weights_ok n w /\
  (forall i, (i < n)%nat -> nth i w 0 = exp (g i) / rsum (map (fun k => exp (g k)) (seq 0 n))).
Proof.
  intros H1 Hmono w. unfold w.
  assert (Hne : map g (seq 0 n) <> []) by (destruct n; [lia | discriminate]).
  pose proof (rsum_exp_pos _ Hne) as Hs. pose proof (sub_lse_sum _ Hne) as Hsum.
  rewrite sub_lse_exp in * by exact Hne. rewrite !map_map in *.
  set (sm := rsum (map (fun k => exp (g k)) (seq 0 n))) in *.
  assert (Hnth : forall i, (i < n)%nat -> nth i (map (fun k => exp (g k) / sm) (seq 0 n)) 0 = exp (g i) / sm)
    by (intros i Hi; now rewrite nth_map_seq).
  split; [|exact Hnth]. split; [now rewrite map_length, seq_length|]. split; [|split; [exact Hsum|]].
  - intros i Hi. rewrite Hnth by exact Hi. apply Rdiv_lt_0_compat; [apply exp_pos|exact Hs].
  - intros i j Hij Hj. rewrite !Hnth by lia. unfold Rdiv.
    apply Rmult_le_compat_r; [left; now apply Rinv_0_lt_compat | apply exp_le, Hmono; assumption].
Qed.

Lemma INR_sofnat n : sofnat ROps n = INR n.
Proof. unfold sofnat. rops. symmetry. apply INR_IZR_INZ. Qed.

Lemma rsum_repeat a n : rsum (repeat a n) = INR n * a.
Proof.
  induction n as [|n IH]; [simpl; lra|]. rewrite S_INR. cbn [repeat]. rewrite rsum_cons, IH. lra.
Qed.

(* simple: all weights equal 1/n *)
Lemma sm_ok n : (1 <= n)%nat ->
  weights_ok n (map exp (sm_weights ROps n)) /\
  (forall i, (i < n)%nat -> nth i (map exp (sm_weights ROps n)) 0 = / INR n).
Proof.
  intros H1. assert (Hn : 0 < INR n) by (apply lt_0_INR; lia).
  unfold sm_weights. rewrite map_repeat. rops. rewrite INR_sofnat, exp_Ropp, exp_ln by exact Hn.
  assert (Hnth : forall i, (i < n)%nat -> nth i (repeat (/ INR n) n) 0 = / INR n)
    by (intros i Hi; rewrite (nth_indep _ 0 (/ INR n)) by (now rewrite repeat_length); apply nth_repeat).
  split; [|exact Hnth]. split; [apply repeat_length|]. split; [|split].
  - intros i Hi. rewrite Hnth by exact Hi. now apply Rinv_0_lt_compat.
  - rewrite rsum_repeat. field. lra.
  - intros i j Hij Hj. rewrite !Hnth by lia. lra.
Qed.

(* sum_{k<n} (n-k) = n(n+1)/2: the weighted variant gives 2(n-i)/(n(n+1)) *)
Lemma rsum_descending n : rsum (map (fun k => INR (n - k)) (seq 0 n)) = INR n * (INR n + 1) / 2.
Proof.
  induction n as [|n IH]; [simpl; lra|].
  rewrite <- cons_seq. cbn [map]. rewrite rsum_cons, <- seq_shift, map_map.
  replace (map (fun k => INR (Datatypes.S n - Datatypes.S k)) (seq 0 n)) with (map (fun k => INR (n - k)) (seq 0 n))
    by (apply map_ext; intros; reflexivity).
  rewrite IH.
  rewrite Nat.sub_0_r, !S_INR. lra.
Qed.

(* weighted: weight of the i-th most recent estimate proportional to n - i *)
Lemma wm_ok n : (1 <= n)%nat ->
  weights_ok n (map exp (wm_weights ROps n)) /\
  (forall i, (i < n)%nat -> nth i (map exp (wm_weights ROps n)) 0
                           = INR (n - i) / rsum (map (fun k => INR (n - k)) (seq 0 n))).
Proof.
  intros H1. unfold wm_weights.
  rewrite (map_ext _ (fun i => ln (INR (n - i)))) by (intros; rops; now rewrite INR_sofnat).
  assert (Hpos : forall i, (i < n)%nat -> 0 < INR (n - i)) by (intros; apply lt_0_INR; lia).
  destruct (normalized_ok (fun i => ln (INR (n - i))) n H1) as [Hok Hcf].
  { intros i j Hij Hj. apply ln_le'; [apply Hpos; lia | apply le_INR; lia]. }
  split; [exact Hok|]. intros i Hi. rewrite Hcf by exact Hi. rewrite exp_ln by (now apply Hpos).
  f_equal. f_equal. apply map_seq_ext. intros k Hk. apply exp_ln, Hpos, Hk.
Qed.

(* exponential: weight of the i-th most recent estimate proportional to exp(-i/n) *)
Lemma em_ok n : (1 <= n)%nat ->
  weights_ok n (map exp (em_weights ROps n)) /\
  (forall i, (i < n)%nat -> nth i (map exp (em_weights ROps n)) 0
                           = exp (- (INR i / INR n)) / rsum (map (fun k => exp (- (INR k / INR n))) (seq 0 n))).
Proof.
  intros H1. assert (Hn : 0 < INR n) by (apply lt_0_INR; lia). unfold em_weights.
  rewrite (map_ext _ (fun i => - (INR i / INR n))) by (intros; rops; now rewrite !INR_sofnat).
  apply (normalized_ok (fun i => - (INR i / INR n)) n H1).
  intros i j Hij Hj. apply Ropp_le_contravar. unfold Rdiv.
  apply Rmult_le_compat_r; [left; now apply Rinv_0_lt_compat | apply le_INR; lia].
Qed.

Lemma win_weights_ok v n : (1 <= n)%nat -> weights_ok n (map exp (win_weights ROps v n)).
Proof. intros H. destruct v; [apply sm_ok | apply wm_ok | apply em_ok]; exact H. Qed.

Section Windowed.
Variables lin circ : nat.

(* the newest estimate followed by the most recent old ones, averaged with the normalised weights of their number *)
Lemma win_push_rows v e st : est_inv ROps st ->
  let r := win_push ROps lin circ v e st in
  let H := buf (hb (fst r)) in
  let n := length H in
  let W := map exp (win_weights ROps v n) in
  H = firstn (window (hb st)) (e :: buf (hb st)) /\
  n = Nat.min (Datatypes.S (length (buf (hb st)))) (window (hb st)) /\
  (1 <= n)%nat /\
  weights_ok n W /\
  (v = Wsimple -> forall i, (i < n)%nat -> nth i W 0 = / INR n) /\
  (forall k, (k < lin)%nat -> nth k (snd r) 0 = rdot (prow ROps k H) W) /\
  (forall k, (lin <= k < lin + circ)%nat ->
     nth k (snd r) 0 = if Nat.eqb n 1 then atan2 (sin (nth k (nth 0 H []) 0)) (cos (nth k (nth 0 H []) 0))
                       else atan2 (rdot (map sin (prow ROps k H)) W) (rdot (map cos (prow ROps k H)) W)).
Proof.
  intros Hi r. unfold r. rewrite win_push_hb, win_push_value by exact Hi. cbv zeta.
  pose proof (proj1 Hi) as Hh. set (H := buf (hist_add e (hb st))).
  assert (Hn : length H = Nat.min (Datatypes.S (length (buf (hb st)))) (window (hb st))) by now apply add_length.
  assert (Hn1 : (1 <= length H)%nat) by (destruct Hh; lia).
  split; [now apply add_buf|]. split; [exact Hn|]. split; [exact Hn1|].
  split; [now apply win_weights_ok|]. split; [intros -> i Hlt; now apply sm_ok|].
  split; intros k Hk; [now apply mean_linear | now apply mean_circular].
Qed.

(* windowed circular output: ALWAYS in (-PI, PI]; with exactly one stored estimate it is the principal value
   of that estimate's angle *)
Lemma win_push_circular v e st k : est_inv ROps st -> (lin <= k < lin + circ)%nat ->
  let r := win_push ROps lin circ v e st in
  in_range (nth k (snd r) 0) /\
  (length (buf (hb (fst r))) = 1%nat ->
   nth k (snd r) 0 = atan2 (sin (nth k e 0)) (cos (nth k e 0)) /\ cong2pi (nth k e 0) (nth k (snd r) 0)).
Proof.
  intros Hi Hk r. unfold r. rewrite win_push_hb, win_push_value by exact Hi. cbv zeta.
  destruct (mean_circular_on_circle lin circ (buf (hist_add e (hb st)))
              (win_weights ROps v (length (buf (hist_add e (hb st))))) k Hk) as [Hr H1].
  split; [exact Hr|]. intros Hn. apply H1, add_single; [apply Hi | exact Hn].
Qed.
End Windowed.
