(* Properties_C17.v — property C17: estimate extraction and its sliding window
   return the advertised statistic.  Sections C17_history and C17_machine (history buffer, dispatch,
   cache coherence, the history as a trace of the recent calls) hold for EVERY scalar record S and
   every operation sequence: no axioms.  Section C17_real and what follows it (what mean / mode / map and
   the window weights are) is over Coq's reals: the 4 standard axioms of Reals. *)
Require Import ZArith QArith List Lia Bool.
Require Import BFL.Ops BFL.ListOps BFL.C19_Model BFL.C17_Model BFL.C17_Proofs.
Require Import Reals Lra.
Require Import BFL.C19_ROps.
Import ListNotations.

Section C17_history.
Variable A : Type.

(* |buf| <= window and 2 <= window <= 30 after ANY sequence of add / set / decrease / increase / clear *)
Theorem C17_hist_inv (ops : list (hop A)) :
  let h := hrun (hist_init A) ops in
  (length (buf h) <= window h /\ 2 <= window h <= 30)%nat.
Proof. exact (hreachable_inv A ops). Qed.

(* the window after a request is the request clamped to [2,30] (the early return included) *)
Theorem C17_window_clamped (ops : list (hop A)) (w : Z) :
  let h := hrun (hist_init A) ops in
  window (hist_set_size w h) = clamp_window w /\ (2 <= clamp_window w <= 30)%nat /\
  ((2 <= w <= 30)%Z -> clamp_window w = Z.to_nat w).
Proof. exact (conj (set_size_window A w _ (hreachable_inv A ops)) (conj (clamp_window_range w) (clamp_window_id w))). Qed.

(* shrinking keeps exactly the most recent window' estimates (fix 3576481); nothing else is touched *)
Theorem C17_shrink_keeps_recent (ops : list (hop A)) (w : Z) :
  let h := hrun (hist_init A) ops in
  buf (hist_set_size w h) = firstn (window (hist_set_size w h)) (buf h).
Proof. intros h. rewrite set_size_window by apply hreachable_inv. exact (set_size_buf A w h (hreachable_inv A ops)). Qed.

(* the same for any buffer satisfying the invariant *)
Theorem C17_shrink_keeps_recent_inv (h : hist A) (w : Z) : hinv h ->
  buf (hist_set_size w h) = firstn (clamp_window w) (buf h).
Proof. exact (set_size_buf A w h). Qed.

(* a window that does not get smaller loses nothing *)
Theorem C17_grow_keeps_all (h : hist A) (w : Z) : hinv h -> (window h <= clamp_window w)%nat ->
  buf (hist_set_size w h) = buf h.
Proof. intros Hi Hg. rewrite set_size_buf by exact Hi. apply firstn_all2. destruct Hi. lia. Qed.

(* addElement: push to the front, drop the oldest when full; the window is untouched *)
Theorem C17_add_pushes_front (h : hist A) (x : A) : hinv h ->
  buf (hist_add x h) = firstn (window h) (x :: buf h) /\ window (hist_add x h) = window h /\
  length (buf (hist_add x h)) = Nat.min (S (length (buf h))) (window h).
Proof. intros Hi. exact (conj (add_buf A x h Hi) (conj (add_window A x h) (add_length A x h Hi))). Qed.

Theorem C17_clear_empties (h : hist A) : buf (hist_clear h) = [] /\ window (hist_clear h) = window h.
Proof. split; reflexivity. Qed.

(* decrease / increase move the window by one inside [2,30] and saturate at the ends *)
Theorem C17_decrease_increase (h : hist A) : hinv h ->
  window (hist_decrease h) = Nat.max 2 (window h - 1) /\ window (hist_increase h) = Nat.min 30 (window h + 1).
Proof.
  intros Hi. unfold hist_decrease, hist_increase.
  split; rewrite set_size_window, clamp_window_spec by exact Hi; destruct Hi; lia.
Qed.
End C17_history.

Section C17_machine.
Variable S : SOps.
Variables lin circ : nat.
Notation init := (est_init S).
Notation run := (run S lin circ).
Notation step := (step S lin circ).

(* the invariant for every sequence of extract/2, extract/5, setMethod, setMobileAverageWindowSize, clear *)
Theorem C17_est_hist_inv (ops : list (op S)) :
  let h := hb (run init ops) in
  (length (buf h) <= window h /\ 2 <= window h <= 30)%nat.
Proof. exact (proj1 (reachable_inv S lin circ ops)). Qed.

(* the cached weight vectors are never stale: each is the weight vector of its own length *)
Theorem C17_cache_coherent (ops : list (op S)) :
  let st := run init ops in
  smw st = sm_weights S (length (smw st)) /\ wmw st = wm_weights S (length (wmw st)) /\
  emw st = em_weights S (length (emw st)).
Proof. exact (proj2 (reachable_inv S lin circ ops)). Qed.

(* what one operation does to the buffer and to the method *)
Theorem C17_step_history (ops : list (op S)) (o : op S) :
  let st := run init ops in
  hb (fst (step st o)) = hist_after S lin circ st o /\
  meth (fst (step st o)) = match o with OSetMethod m => m | _ => meth st end.
Proof. exact (conj (step_hb S lin circ _ o) (step_meth S lin circ _ o)). Qed.

(* every extract returns either the base statistic, or the average of the stored estimates with the
   weights of THEIR CURRENT NUMBER (window changes and a filling buffer included), or "unavailable" *)
Theorem C17_extract_value (ops : list (op S)) (o : op S) :
  match o with OExtract2 _ _ | OExtract5 _ _ _ _ _ => True | _ => False end ->
  let st := run init ops in
  let r := step st o in
  match meth_win (meth st), pushed S lin circ st o with
  | Some v, Some e =>
      fst (snd r) = true /\ hb (fst r) = hist_add e (hb st) /\
      snd (snd r) = mean S lin circ (buf (hb (fst r))) (win_weights S v (length (buf (hb (fst r)))))
  | Some _, None => fst (snd r) = false /\ fst r = st
  | None, _ =>
      fst r = st /\
      match o, meth_stat (meth st) with
      | OExtract2 ps lw, Smean | OExtract5 ps lw _ _ _, Smean => snd r = (true, mean S lin circ ps lw)
      | OExtract2 ps lw, Smode | OExtract5 ps lw _ _ _, Smode => snd r = (true, mode S ps lw)
      | OExtract5 ps _ plw lik Tm, Smap => snd r = (true, map_est S ps plw lik Tm)
      | _, _ => fst (snd r) = false
      end
  end.
Proof.
  intros Ho st r. pose proof (step_extract S lin circ st o Ho) as X. cbv zeta in X. fold r in X.
  destruct (pushed S lin circ st o) as [e|].
  - destruct X as (v & -> & ->). cbn [avail fst snd]. rewrite win_push_hb.
    split; [reflexivity|]. split; [reflexivity|]. apply win_push_value, reachable_inv.
  - destruct X as [X1 X2]. destruct (meth_win (meth st)); now split.
Qed.

(* the map variants without the extra arguments: no estimate, nothing changes *)
Theorem C17_map_without_args_unavailable (st : est S) ps lw : is_map (meth st) = true ->
  extract2 S lin circ st ps lw = (st, (false, repeat (s0 S) (lin + circ))).
Proof. unfold extract2. destruct (meth st); intros H; try discriminate H; reflexivity. Qed.

Theorem C17_extract5_nonmap_delegates (st : est S) ps lw plw lik Tm : is_map (meth st) = false ->
  extract5 S lin circ st ps lw plw lik Tm = extract2 S lin circ st ps lw.
Proof. unfold extract5. destruct (meth st); intros H; try discriminate H; reflexivity. Qed.

(* setMobileAverageWindowSize: refused (false, nothing changes) for w <= 0, otherwise the window becomes the request
   clamped to [2,30], the most recent estimates are kept, method and caches are untouched *)
Theorem C17_set_window_spec (ops : list (op S)) (w : Z) :
  let st := run init ops in
  let r := set_window S w st in
  if (0 <? w)%Z then
    snd r = true /\ window (hb (fst r)) = clamp_window w /\
    buf (hb (fst r)) = firstn (clamp_window w) (buf (hb st)) /\
    meth (fst r) = meth st /\ smw (fst r) = smw st /\ wmw (fst r) = wmw st /\ emw (fst r) = emw st
  else r = (st, false).
Proof.
  intros st r. subst r. unfold set_window. destruct (0 <? w)%Z; [|reflexivity].
  pose proof (proj1 (reachable_inv S lin circ ops)) as Hh. cbn [fst snd hb meth smw wmw emw].
  repeat split; [now apply set_size_window | now apply set_size_buf].
Qed.

(* move construction / move assignment: the target IS the source state (so everything above transfers);
   the moved-from object has window 0, outside [2,30]: using it is out of scope *)
Theorem C17_move_target_is_source (st : est S) : fst (est_move S st) = st.
Proof. destruct st as [m [w b] a1 a2 a3]; reflexivity. Qed.

Theorem C17_moved_from_out_of_scope (st : est S) :
  window (hb (snd (est_move S st))) = 0%nat /\ ~ hinv (hb (snd (est_move S st))).
Proof. split; [reflexivity|]. intros [_ [H _]]. simpl in H. lia. Qed.

(* the stored estimates are the most recent pushed base estimates (ghost trace since the last clear) *)
Theorem C17_history_is_recent_calls (ops : list (op S)) :
  let r := trace S lin circ init ops [] in
  fst r = run init ops /\
  buf (hb (fst r)) = firstn (length (buf (hb (fst r)))) (snd r).
Proof. split; [apply trace_state|]. apply trace_prefix; [apply est_init_inv | reflexivity]. Qed.

(* how many are stored *)
Theorem C17_stored_count (ops : list (op S)) (o : op S) :
  let st := run init ops in
  length (buf (hb (fst (step st o)))) =
  match o with
  | OClear => 0%nat
  | OSetWindow w => if (0 <? w)%Z then Nat.min (length (buf (hb st))) (clamp_window w) else length (buf (hb st))
  | _ => match pushed S lin circ st o with
         | Some _ => Nat.min (Datatypes.S (length (buf (hb st)))) (window (hb st))
         | None => length (buf (hb st))
         end
  end.
Proof. exact (step_stored S lin circ _ o (reachable_inv S lin circ ops)). Qed.

(* with the window left alone since the buffer was last empty: the most recent min(calls, window) calls *)
Theorem C17_stored_fixed_window (pre post : list (op S)) :
  let st := run init pre in
  buf (hb st) = [] -> Forall (quiet S) post ->
  let r := trace S lin circ st post [] in
  window (hb (fst r)) = window (hb st) /\
  buf (hb (fst r)) = firstn (Nat.min (length (snd r)) (window (hb st))) (snd r).
Proof.
  intros st He Hq r. pose proof (reachable_inv S lin circ pre) as Hi.
  destruct (trace_quiet S lin circ post st [] Hi Hq) as [Hw Hn]; [now rewrite He|].
  split; [exact Hw|]. fold r in Hn. rewrite <- Hn. apply trace_prefix; [exact Hi | now rewrite He].
Qed.
End C17_machine.

(* "min(calls since the last clear, window)" is NOT the stored count once the window has been changed:
   three calls, shrink to 2, grow to 5 leaves 2 stored with 3 calls and window 5.  (Not a defect: the
   estimates dropped by the shrink cannot come back; the property's count is for an unchanged window.) *)
Theorem C17_min_calls_window_refuted :
  exists ops : list (op QOps),
    let r := trace QOps 1 0 (est_init QOps) ops [] in
    length (buf (hb (fst r))) <> Nat.min (length (snd r)) (window (hb (fst r))).
Proof.
  exists [@OSetMethod QOps Msmode; @OExtract2 QOps [[1%Q]] [0%Q]; @OExtract2 QOps [[2%Q]] [0%Q]; @OExtract2 QOps [[3%Q]] [0%Q];
          OSetWindow 2; OSetWindow 5].
  vm_compute. discriminate.
Qed.

(* non-vacuity: a concrete run over exact rationals (mode statistic: no transcendental function involved).
   window 5 -> 3 extracts -> shrink to 2 keeps the two most recent -> one more extract *)
Example C17_concrete_run :
  let ops := [@OSetMethod QOps Msmode; @OExtract2 QOps [[1%Q]; [7%Q]] [0%Q; 1%Q]; @OExtract2 QOps [[2%Q]] [0%Q];
              @OExtract2 QOps [[3%Q]; [9%Q]] [1%Q; 0%Q]; OSetWindow 2; @OExtract2 QOps [[4%Q]] [0%Q]] in
  let st := run QOps 1 0 (est_init QOps) ops in
  (window (hb st) =? 2)%nat && qmx_eqb (buf (hb st)) [[4%Q]; [3%Q]] && (length (smw st) =? 2)%nat = true.
Proof. vm_compute. reflexivity. Qed.

Local Open Scope R_scope.
Section C17_real.
Variables lin circ : nat.
Notation meanR := (mean ROps lin circ).

(* normalised weights: a linear row lies between the smallest and the largest particle coordinate *)
Theorem C17_mean_linear_in_hull ps lw r lo hi : (r < lin)%nat -> length lw = length ps ->
  rsum (map exp lw) = 1 -> Forall (fun p => lo <= nth r p 0 <= hi) ps ->
  lo <= nth r (meanR ps lw) 0 <= hi.
Proof.
  intros Hr Hl Hs Hb. rewrite (mean_linear lin circ) by exact Hr.
  assert (H : lo * rsum (map exp lw) <= rdot (prow ROps r ps) (map exp lw) <= hi * rsum (map exp lw)).
  { apply rdot_between.
    - unfold prow. now rewrite !map_length.
    - unfold prow. apply Forall_map. exact Hb.
    - apply Forall_map. apply Forall_forall. intros x _. left. apply exp_pos. }
  rewrite Hs in H. lra.
Qed.

(* linear rows: sum_i exp(lw_i) x_i.  For normalised weights this is the weighted average
   sum_i w_i x_i / sum_i w_i, and a coordinate that is the same for every particle is returned unchanged *)
Theorem C17_mean_linear ps lw r : (r < lin)%nat ->
  nth r (meanR ps lw) 0 = rdot (prow ROps r ps) (map exp lw) /\
  (rsum (map exp lw) = 1 ->
     nth r (meanR ps lw) 0 = rdot (prow ROps r ps) (map exp lw) / rsum (map exp lw) /\
     (forall c, length lw = length ps -> Forall (fun p => nth r p 0 = c) ps -> nth r (meanR ps lw) 0 = c)).
Proof.
  intros Hr. split; [now apply mean_linear|]. intros Hs. split.
  - rewrite mean_linear, Hs by exact Hr. change (T ROps) with R. field.
  - intros c Hl Hc. assert (H : c <= nth r (meanR ps lw) 0 <= c); [|lra].
    apply C17_mean_linear_in_hull; try assumption. eapply Forall_impl; [|exact Hc]. intros p ->. lra.
Qed.

(* circular rows: the circular (directional) mean — argument of the weighted resultant; a single particle wrapped *)
Theorem C17_mean_circular ps lw r : (lin <= r < lin + circ)%nat ->
  nth r (meanR ps lw) 0 =
  if Nat.eqb (length ps) 1 then atan2 (sin (nth r (nth 0 ps []) 0)) (cos (nth r (nth 0 ps []) 0))
  else atan2 (rdot (map sin (prow ROps r ps)) (map exp lw)) (rdot (map cos (prow ROps r ps)) (map exp lw)).
Proof. exact (mean_circular lin circ ps lw r). Qed.

(* circular rows live on the circle: EVERY circular output of mean lies in (-PI, PI], also with one particle,
   whose angle is then returned as its principal value (congruent modulo 2 PI); /repo dee9c81 *)
Theorem C17_mean_circular_on_circle ps lw r : (lin <= r < lin + circ)%nat ->
  let x := nth r (meanR ps lw) 0 in
  - PI < x <= PI /\
  (forall p, ps = [p] -> x = atan2 (sin (nth r p 0)) (cos (nth r p 0)) /\
                         exists k : Z, x = nth r p 0 + 2 * IZR k * PI).
Proof. exact (mean_circular_on_circle lin circ ps lw r). Qed.

Theorem C17_mean_size ps lw : length (meanR ps lw) = (lin + circ)%nat.
Proof. unfold mean. rewrite app_length, C19_Proofs.mean_length, !map_length, !seq_length. reflexivity. Qed.
End C17_real.

(* atan2 of the two sums IS the direction of the resultant *)
Theorem C17_circular_mean_is_resultant_direction (a w : list R) :
  let C := rdot (map cos a) w in let Sn := rdot (map sin a) w in
  (C <> 0 \/ Sn <> 0) ->
  let th := atan2 Sn C in
  - PI < th <= PI /\ C = sqrt (C² + Sn²) * cos th /\ Sn = sqrt (C² + Sn²) * sin th.
Proof. intros C Sn Hnz th. apply (atan2_polar Sn C Hnz). Qed.

(* mode: the first particle of largest weight *)
Theorem C17_mode_is_max (ps : list (list R)) (lw : list R) : lw <> [] ->
  let i := argmax ROps lw in
  mode ROps ps lw = nth i ps [] /\ (i < length lw)%nat /\
  (forall j, (j < length lw)%nat -> nth j lw 0 <= nth i lw 0) /\
  (forall j, (j < i)%nat -> nth j lw 0 < nth i lw 0).
Proof. intros H i. split; [reflexivity | exact (argmax_spec lw H)]. Qed.

(* map: the first maximiser of the coded score ... *)
Theorem C17_map_is_argmax (ps : list (list R)) (plw lik : list R) (Tm : list (list R)) : lik <> [] -> Tm <> [] ->
  let vals := map_values ROps plw lik Tm in
  let i := argmax ROps vals in
  map_est ROps ps plw lik Tm = nth i ps [] /\ (i < length vals)%nat /\
  (forall j, (j < length vals)%nat -> nth j vals 0 <= nth i vals 0) /\
  (forall j, (j < i)%nat -> nth j vals 0 < nth i vals 0).
Proof.
  intros H1 H2. split; [reflexivity|]. apply argmax_spec. unfold map_values.
  destruct lik; [contradiction|]. destruct Tm; [contradiction|]. discriminate.
Qed.

(* ... and the coded score is log((lik_i + eps) * sum_j (T_ij + eps) exp(plw_j)), so the returned particle maximises
   likelihood x weight-averaged transition density (up to the epsilon terms) *)
Theorem C17_map_score_meaning (ps : list (list R)) (plw lik : list R) (Tm : list (list R)) :
  length lik = length Tm -> lik <> [] -> plw <> [] ->
  Forall (fun l => 0 <= l) lik ->
  Forall (fun row => Forall (fun x => 0 <= x) row /\ row <> []) Tm ->
  let i := argmax ROps (map_values ROps plw lik Tm) in
  (i < length lik)%nat /\ map_est ROps ps plw lik Tm = nth i ps [] /\
  (forall j, (j < length lik)%nat ->
     nth j (map_values ROps plw lik Tm) 0 = ln (map_product plw (nth j lik 0) (nth j Tm []))) /\
  (forall j, (j < length lik)%nat ->
     map_product plw (nth j lik 0) (nth j Tm []) <= map_product plw (nth i lik 0) (nth i Tm [])).
Proof.
  intros Hlen Hl Hp Hlik HT i.
  assert (HTne : Tm <> []) by (destruct Tm; [destruct lik; [contradiction|discriminate]|discriminate]).
  destruct (C17_map_is_argmax ps plw lik Tm Hl HTne) as [Hm (Hi & Hmax & _)]. fold i in Hm, Hi, Hmax.
  rewrite map_values_length, <- Hlen, Nat.min_id in Hi, Hmax.
  (* every score is the logarithm of a positive product *)
  assert (Hrow : forall j, (j < length lik)%nat ->
            0 < map_product plw (nth j lik 0) (nth j Tm []) /\
            nth j (map_values ROps plw lik Tm) 0 = ln (map_product plw (nth j lik 0) (nth j Tm []))).
  { intros j Hj. assert (Hlj : 0 <= nth j lik 0) by now apply Forall_nth.
    destruct (proj1 (Forall_nth _ Tm) HT j [] ltac:(lia)) as [Ht Hne].
    rewrite map_values_nth by lia. now apply map_value_R. }
  split; [exact Hi|]. split; [exact Hm|]. split; [intros j Hj; apply Hrow, Hj|].
  intros j Hj. specialize (Hmax j Hj). rewrite (proj2 (Hrow j Hj)), (proj2 (Hrow i Hi)) in Hmax.
  apply ln_le_inv'; [apply Hrow, Hj | apply Hrow, Hi | exact Hmax].
Qed.

(* the window weights: positive, sum one, non-increasing with age, for every number n >= 1 of stored estimates *)
Theorem C17_window_weights (v : wvariant) (n : nat) : (1 <= n)%nat ->
  let W := map exp (win_weights ROps v n) in
  length W = n /\ (forall i, (i < n)%nat -> 0 < nth i W 0) /\ rsum W = 1 /\
  (forall i j, (i <= j)%nat -> (j < n)%nat -> nth j W 0 <= nth i W 0).
Proof. exact (win_weights_ok v n). Qed.

(* closed forms: 1/n;  (n-i)/sum_k (n-k);  exp(-i/n)/sum_k exp(-k/n) *)
Theorem C17_window_weights_closed_form (n i : nat) : (1 <= n)%nat -> (i < n)%nat ->
  nth i (map exp (win_weights ROps Wsimple n)) 0 = / INR n /\
  nth i (map exp (win_weights ROps Wweighted n)) 0 = INR (n - i) / rsum (map (fun k => INR (n - k)) (seq 0 n)) /\
  nth i (map exp (win_weights ROps Wexponential n)) 0
    = exp (- (INR i / INR n)) / rsum (map (fun k => exp (- (INR k / INR n))) (seq 0 n)).
Proof.
  intros Hn Hi. exact (conj (proj2 (sm_ok n Hn) i Hi) (conj (proj2 (wm_ok n Hn) i Hi) (proj2 (em_ok n Hn) i Hi))).
Qed.

(* the windowed estimate after ANY operation sequence: the convex combination, with those weights, of the
   stored estimates = the new base estimate followed by the most recent old ones (linear rows); the
   directional mean with those weights on circular rows *)
Theorem C17_windowed_is_convex_combination (lin circ : nat) (ops : list (op ROps)) v s ps lw plw lik Tm :
  let st := run ROps lin circ (est_init ROps) ops in
  let e := base_est ROps lin circ s ps lw plw lik Tm in
  let r := windowed ROps lin circ v s st ps lw plw lik Tm in
  let H := buf (hb (fst r)) in
  let n := length H in
  let W := map exp (win_weights ROps v n) in
  H = firstn (window (hb st)) (e :: buf (hb st)) /\
  n = Nat.min (Datatypes.S (length (buf (hb st)))) (window (hb st)) /\
  (1 <= n)%nat /\
  weights_ok n W /\
  (v = Wsimple -> forall i, (i < n)%nat -> nth i W 0 = / INR n) /\
  (forall k, (k < lin)%nat -> nth k (snd r) 0 = rdot (prow ROps k H) W) /\
  (forall k, (lin <= k < lin + circ)%nat ->
     nth k (snd r) 0 = if Nat.eqb n 1 then atan2 (sin (nth k (nth 0 H []) 0)) (cos (nth k (nth 0 H []) 0))
                       else atan2 (rdot (map sin (prow ROps k H)) W) (rdot (map cos (prow ROps k H)) W)).
Proof. intros st e. rewrite windowed_push. exact (win_push_rows lin circ v e st (reachable_inv ROps lin circ ops)). Qed.

(* end to end: an extract call with a windowed method on a state reached by ANY operation sequence *)
Theorem C17_windowed_extract_end_to_end (lin circ : nat) (ops : list (op ROps)) (o : op ROps) v e :
  let st := run ROps lin circ (est_init ROps) ops in
  match o with OExtract2 _ _ | OExtract5 _ _ _ _ _ => True | _ => False end ->
  meth_win (meth st) = Some v -> pushed ROps lin circ st o = Some e ->
  let r := step ROps lin circ st o in
  let H := buf (hb (fst r)) in
  let n := length H in
  let W := map exp (win_weights ROps v n) in
  fst (snd r) = true /\
  H = firstn (window (hb st)) (e :: buf (hb st)) /\
  n = Nat.min (Datatypes.S (length (buf (hb st)))) (window (hb st)) /\ (1 <= n)%nat /\
  weights_ok n W /\
  (v = Wsimple -> forall i, (i < n)%nat -> nth i W 0 = / INR n) /\
  (forall k, (k < lin)%nat -> nth k (snd (snd r)) 0 = rdot (prow ROps k H) W) /\
  (forall k, (lin <= k < lin + circ)%nat ->
     nth k (snd (snd r)) 0 = if Nat.eqb n 1 then atan2 (sin (nth k (nth 0 H []) 0)) (cos (nth k (nth 0 H []) 0))
                             else atan2 (rdot (map sin (prow ROps k H)) W) (rdot (map cos (prow ROps k H)) W)).
Proof.
  intros st Ho Hv He. cbv zeta. rewrite (step_pushed ROps lin circ st o v e Hv He). cbn [avail fst snd].
  split; [reflexivity|]. apply win_push_rows, reachable_inv.
Qed.

(* EVERY windowed circular output lies in (-PI, PI], also with exactly one stored estimate (first windowed call
   after construction / clear), which is then returned as its principal value *)
Theorem C17_windowed_circular_on_circle (lin circ : nat) (ops : list (op ROps)) (o : op ROps) v e :
  let st := run ROps lin circ (est_init ROps) ops in
  match o with OExtract2 _ _ | OExtract5 _ _ _ _ _ => True | _ => False end ->
  meth_win (meth st) = Some v -> pushed ROps lin circ st o = Some e ->
  let r := step ROps lin circ st o in
  let n := length (buf (hb (fst r))) in
  forall k, (lin <= k < lin + circ)%nat ->
    - PI < nth k (snd (snd r)) 0 <= PI /\
    (n = 1%nat -> nth k (snd (snd r)) 0 = atan2 (sin (nth k e 0)) (cos (nth k e 0)) /\
                  exists z : Z, nth k (snd (snd r)) 0 = nth k e 0 + 2 * IZR z * PI).
Proof.
  intros st Ho Hv He. cbv zeta. rewrite (step_pushed ROps lin circ st o v e Hv He). cbn [avail fst snd].
  intros k Hk. apply win_push_circular; [apply reachable_inv | exact Hk].
Qed.

(* the weighted variant in closed form: 2(n-i)/(n(n+1)) *)
Theorem C17_weighted_closed_form (n i : nat) : (1 <= n)%nat -> (i < n)%nat ->
  nth i (map exp (win_weights ROps Wweighted n)) 0 = 2 * INR (n - i) / (INR n * (INR n + 1)).
Proof.
  intros Hn Hi. cbn [win_weights]. rewrite (proj2 (wm_ok n Hn) i Hi), rsum_descending.
  assert (0 < INR n) by (apply lt_0_INR; lia). field. lra.
Qed.

(* a convex combination stays between the extremes of what it combines *)
Theorem C17_convex_combination_in_hull n w xs lo hi : weights_ok n w -> length xs = n ->
  Forall (fun x => lo <= x <= hi) xs -> lo <= rdot xs w <= hi.
Proof.
  intros (Hl & Hp & Hs & _) Hx Hb.
  assert (Hw : Forall (fun a => 0 <= a) w).
  { apply Forall_nth. intros i d Hi. rewrite (nth_indep _ d 0) by exact Hi. left. apply Hp. lia. }
  pose proof (rdot_between lo hi xs w ltac:(lia) Hb Hw) as H. rewrite Hs in H. lra.
Qed.

(* non-vacuity of the real-valued statements *)
Example C17_weights_example : weights_ok 3 (map exp (win_weights ROps Wweighted 3)).
Proof. apply win_weights_ok. lia. Qed.

Print Assumptions C17_hist_inv.
Print Assumptions C17_window_clamped.
Print Assumptions C17_shrink_keeps_recent.
Print Assumptions C17_shrink_keeps_recent_inv.
Print Assumptions C17_grow_keeps_all.
Print Assumptions C17_add_pushes_front.
Print Assumptions C17_clear_empties.
Print Assumptions C17_decrease_increase.
Print Assumptions C17_est_hist_inv.
Print Assumptions C17_cache_coherent.
Print Assumptions C17_step_history.
Print Assumptions C17_extract_value.
Print Assumptions C17_map_without_args_unavailable.
Print Assumptions C17_extract5_nonmap_delegates.
Print Assumptions C17_set_window_spec.
Print Assumptions C17_move_target_is_source.
Print Assumptions C17_moved_from_out_of_scope.
Print Assumptions C17_history_is_recent_calls.
Print Assumptions C17_stored_count.
Print Assumptions C17_stored_fixed_window.
Print Assumptions C17_min_calls_window_refuted.
Print Assumptions C17_mean_linear_in_hull.
Print Assumptions C17_mean_linear.
Print Assumptions C17_mean_circular.
Print Assumptions C17_mean_circular_on_circle.
Print Assumptions C17_mean_size.
Print Assumptions C17_circular_mean_is_resultant_direction.
Print Assumptions C17_mode_is_max.
Print Assumptions C17_map_is_argmax.
Print Assumptions C17_map_score_meaning.
Print Assumptions C17_window_weights.
Print Assumptions C17_window_weights_closed_form.
Print Assumptions C17_windowed_is_convex_combination.
Print Assumptions C17_windowed_extract_end_to_end.
Print Assumptions C17_windowed_circular_on_circle.
Print Assumptions C17_weighted_closed_form.
Print Assumptions C17_convex_combination_in_hull.
