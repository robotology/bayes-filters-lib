(* Properties_C08.v — property C08: the Gaussian particle filter propagates
   beliefs and importance weights correctly.  The lemmas about the model that the proofs
   use are in C08_Struct / C08_TV / C08_Real / C08_Proofs / C08_LDLT.

   Part 1 holds for EVERY arithmetic instance O : MatOps (in particular for
   MathComp matrices over any real field, and for the float instance that the
   correspondence check executes), every dimension, particle count, wrapped Gaussian
   step gp / gc, likelihood and transition model, and every sequence of draws.
   The lifetime block after it is about rs_* of C08_Model (random source, validity flag and likelihood model across moves).
   Part 2 is over Coq's real numbers (ln, exp the real functions).
   Part 3 is over MathComp matrices on an arbitrary realFieldType; Part 3b discharges its square-root
   contract for the transcribed LDL^T factor. *)
Require Import ZArith QArith List Reals.
Require Import BFL.Ops BFL.ListOps BFL.Density BFL.C01_Model BFL.C08_Model BFL.C08_Struct BFL.C08_Real BFL.C08_Extract BFL.C08_TV.
Import ListNotations.
Close Scope Q_scope.
Close Scope R_scope.
Open Scope nat_scope.

(* ------------------------------------------------------------------ Part 1 *)
Section C08_structure.
Variable O : MatOps.
Variable n : nat.

(* prediction: positions and log-weights untouched, same number of particles,
   whatever the wrapped step does and whatever the output object contained *)
Theorem C08_predict_frame (gp : gstep O n) (prev old : pset O n) :
  map pstate (gpf_predict gp prev old) = map pstate prev /\
  map plw (gpf_predict gp prev old) = map plw prev /\
  length (gpf_predict gp prev old) = length prev.
Proof. split; [apply predict_states | split; [apply predict_weights | apply predict_length]]. Qed.

(* prediction: the beliefs are exactly those of the wrapped Gaussian prediction *)
Theorem C08_predict_beliefs (gp : gstep O n) (prev old : pset O n) :
  length (gp (gm_of prev) (gm_of old)) = length prev ->
  map pbelief (gpf_predict gp prev old) = map fst (gp (gm_of prev) (gm_of old)).
Proof. exact (predict_beliefs O n gp prev old). Qed.

Section Correction.
Variable gc : gstep O n.
Variable lik : list (M O n 1) -> bool * list (T (sc O)).
Variable trans : list (M O n 1) -> list (M O n 1) -> list (T (sc O)).
Variable zs : list (M O n 1).
Variables pred old : pset O n.

(* correction: the beliefs are exactly those of the wrapped Gaussian correction *)
Theorem C08_correct_beliefs :
  fst (lik (gpf_drawn gc zs pred old)) = true ->
  length (gc (gm_of pred) (gm_of old)) = length pred ->
  map pbelief (cr_particles (gpf_correct gc lik trans zs pred old)) =
  map fst (gc (gm_of pred) (gm_of old)).
Proof. exact (correct_beliefs O n gc lik trans zs pred old). Qed.

(* correction: the new positions are the draws, x_i = m_i + L_i z_i with m_i, L_i
   from the CORRECTED belief i *)
Theorem C08_correct_positions :
  fst (lik (gpf_drawn gc zs pred old)) = true ->
  map pstate (cr_particles (gpf_correct gc lik trans zs pred old)) = gpf_drawn gc zs pred old /\
  forall i d, i < length pred ->
    nth i (gpf_drawn gc zs pred old) d =
    let b := belief_at (gc (gm_of pred) (gm_of old)) i in
    madd (gmean b) (mmul (ldlt_sqrt (gcov b)) (nth i zs (mzero n 1))).
Proof. intros Hv. split; [apply correct_positions; exact Hv | intros i d Hi; apply drawn_nth; exact Hi]. Qed.

(* the likelihood model is evaluated on the drawn positions, and its verdict and
   values are what the step reports *)
Theorem C08_correct_likelihood_on_drawn :
  (cr_valid (gpf_correct gc lik trans zs pred old), cr_lik (gpf_correct gc lik trans zs pred old))
  = lik (gpf_drawn gc zs pred old).
Proof. exact (correct_likelihood_on_drawn O n gc lik trans zs pred old). Qed.

(* lw'_i = lw_i + ln(l_i + eps) + ln(t_i + eps) - ln(q_i + eps), q_i the Gaussian
   density of the corrected belief at the drawn position, t_i the transition
   density of (previous positions, drawn positions).  Premises: the likelihood model returns
   one value per position and the transition model one value per pair (their contracts; with
   fewer values GPFCorrection.cpp:125-130 reads past the end of the vectors) *)
Theorem C08_weight_formula :
  fst (lik (gpf_drawn gc zs pred old)) = true ->
  length (snd (lik (gpf_drawn gc zs pred old))) = length pred ->
  length (trans (map pstate pred) (gpf_drawn gc zs pred old)) = length pred ->
  forall (i : nat) (d : particle O n), i < length pred ->
  plw (nth i (cr_particles (gpf_correct gc lik trans zs pred old)) d) =
  let xs := gpf_drawn gc zs pred old in
  let b := belief_at (gc (gm_of pred) (gm_of old)) i in
  gpf_weight (sc O) (plw (nth i pred (dparticle O n)))
             (nth i (snd (lik xs)) (s0 (sc O)))
             (nth i (trans (map pstate pred) xs) (s0 (sc O)))
             (density (nth i xs (mzero n 1)) (gmean b) (gcov b)).
Proof. intros Hv _ _. exact (correct_weight O n gc lik trans zs pred old Hv). Qed.

(* an invalid likelihood returns the predicted set, whole (C12's clause) *)
Theorem C08_invalid_restores :
  fst (lik (gpf_drawn gc zs pred old)) = false ->
  cr_particles (gpf_correct gc lik trans zs pred old) = pred /\
  cr_valid (gpf_correct gc lik trans zs pred old) = false.
Proof. exact (correct_invalid O n gc lik trans zs pred old). Qed.

(* the correction never changes the number of particles *)
Theorem C08_correct_count :
  length (cr_particles (gpf_correct gc lik trans zs pred old)) = length pred.
Proof. exact (correct_length O n gc lik trans zs pred old). Qed.
End Correction.

(* histories: at every step k of every history all the formulae above hold between
   the state before and after step k (step_formulae spells them out); the shape
   guard is derived from the initial buffers and shape-preserving wrapped steps *)
Theorem C08_multi_step (N : nat) (st : fstate O n) (h : list (step_in O n)) (k : nat) d :
  length (fs_pred st) = N -> length (fs_corr st) = N ->
  Forall (fun s => shape_ok O n (si_gp s) /\ shape_ok O n (si_gc s)) h ->
  k < length h ->
  step_formulae O n N (gpf_run st (firstn k h)) (nth k h d) (gpf_run st (firstn (S k) h)).
Proof.
  intros Lp Lc HF Hk. rewrite (gpf_run_firstn_S O n st h k d Hk).
  destruct (gpf_run_lengths O n N st (firstn k h) Lp Lc) as [L1 L2].
  { rewrite <- (firstn_skipn k h) in HF. apply Forall_app in HF. apply HF. }
  rewrite Forall_forall in HF. destruct (HF (nth k h d) (nth_In _ _ Hk)) as [Sp Sc].
  apply gpf_step_formulae; assumption.
Qed.

(* the trace the correspondence check runs lists exactly those states *)
Theorem C08_trace_is_run (st : fstate O n) (h : list (step_in O n)) (k : nat) d :
  k < length h -> nth k (gpf_trace st h) d = gpf_run st (firstn (S k) h).
Proof.
  revert st k. induction h as [|s h IH]; intros st k Hk; [inversion Hk|].
  destruct k; cbn [gpf_trace nth firstn gpf_run fold_left]; [reflexivity|].
  apply IH. apply Nat.succ_lt_mono. exact Hk.
Qed.

(* the Kalman steps used by the check are shape-preserving wrapped steps *)
Theorem C08_kf_steps_shape_ok m (F Q : M O n n) (H : M O m n) (R : M O m m) (y : M O m 1) v :
  shape_ok O n (kf_pred_gstep F Q) /\ shape_ok O n (kf_corr_gstep v H R y).
Proof. exact (conj (kf_pred_gstep_shape O n F Q) (kf_corr_gstep_shape O n m H R y v)). Qed.

(* ... and so are the unscented steps (C05's models over any measurement function) and a skipping step *)
Theorem C08_unscented_steps_shape_ok m v w (h : M O n 1 -> M O m 1) (R : M O m m) (y : M O m 1) :
  shape_ok O n (ukf_corr_gstep v w h R y) /\ shape_ok O n (sukf_corr_gstep v w h R y) /\ shape_ok O n (@copy_gstep O n).
Proof. exact (conj (ukf_corr_gstep_shape O n m v w h R y) (conj (sukf_corr_gstep_shape O n m v w h R y) (copy_gstep_shape O n))). Qed.

(* GaussianLikelihood honours its contract: one value per position whenever it reports valid *)
Theorem C08_gauss_lik_length m scale v1 v2 v3 v4 (h : M O n 1 -> M O m 1) R y (xs : list (M O n 1)) :
  fst (gauss_lik_h scale v1 v2 v3 v4 h R y xs) = true ->
  length (snd (gauss_lik_h scale v1 v2 v3 v4 h R y xs)) = length xs.
Proof.
  unfold gauss_lik_h. destruct v1, v2, v3, v4; cbn; try discriminate. intros _. apply map_length.
Qed.

(* PF-level skip flags (the check runs pf_trace): without them it is gpf_trace; a skipped
   correction returns the predicted set and keeps valid_likelihood_ / likelihood_ *)
Theorem C08_pf_trace_noskip (st : fstate O n) h :
  pf_trace st (map (fun s => (s, (false, false))) h) = gpf_trace st h.
Proof. revert st. induction h as [|s h IH]; intros st; cbn [map pf_trace gpf_trace]; [reflexivity|]. now rewrite pf_step_noskip, IH. Qed.
Theorem C08_pf_skip_correction (st : fstate O n) s sp :
  let st' := pf_step st (s, (sp, true)) in
  fs_corr st' = fs_pred st' /\ fs_valid st' = fs_valid st /\ fs_lik st' = fs_lik st.
Proof. unfold pf_step. cbn. auto. Qed.

(* TIME-VARYING HISTORIES.  One GPFPrediction / GPFCorrection pair driven through a history in which the state
   model (F_k, Q_k), the measurement model (size m_k, H_k, R_k, reading y_k), the scale of the likelihood and the
   transition model (Ft_k, Qt_k) change from step to step: at step k every formula is in terms of the operands OF
   STEP k (tv_step_formulae spells them out: (b) predicted beliefs F_k m, F_k P F_k^T + Q_k; (d) corrected beliefs the
   Kalman correction with H_k, R_k, y_k; (e) likelihood values s_k N(y_k - H_k x_i; 0, R_k) at the drawn positions;
   (f) positions m_i + L_i z_i and lw'_i = lw_i + ln(l_i+eps) + ln N(x_i; Ft_k xprev_i, Qt_k) - ln N(x_i; m_i, P_i)),
   the shape guard being derived.  Nothing derived from the operands of an earlier step survives. *)
Theorem C08_multi_step_time_varying (N : nat) (st : fstate O n) (ps : list (tv_ops O n)) (k : nat) d :
  length (fs_pred st) = N -> length (fs_corr st) = N -> k < length ps ->
  tv_step_formulae O n N (tv_run st (firstn k ps)) (nth k ps d) (tv_run st (firstn (S k) ps)).
Proof.
  intros Lp Lc Hk. destruct (tv_run_lengths O n N st (firstn k ps) Lp Lc) as [L1 L2].
  unfold tv_run in *. rewrite <- !firstn_map in *.
  rewrite (gpf_run_firstn_S O n st _ k (tv_step_in d)), map_nth by (rewrite map_length; exact Hk).
  apply tv_one_step; assumption.
Qed.

(* the only memory is the state (buffers, valid_likelihood_, likelihood_): histories that reach the same state
   and continue with the same operands agree, whatever the operands of their earlier steps were *)
Theorem C08_no_hidden_memory (st : fstate O n) (h1 h1' h2 : list (tv_ops O n)) :
  tv_run st h1 = tv_run st h1' -> tv_run st (h1 ++ h2) = tv_run st (h1' ++ h2).
Proof.
  intros E. unfold tv_run in *. rewrite !map_app, <- !gpf_run_app. now rewrite E.
Qed.

(* the trace of a history is the trace of its first part followed by the trace of the rest started in the state
   then reached: the check runs the model one step at a time from the state reported before the step *)
Theorem C08_stepwise_trace (st : fstate O n) (h1 h2 : list (step_in O n * (bool * bool))) :
  pf_trace st (h1 ++ h2) = pf_trace st h1 ++ pf_trace (last (pf_trace st h1) st) h2.
Proof.
  revert st. induction h1 as [|s h1 IH]; intros st; [reflexivity|].
  cbn [app pf_trace]. rewrite IH, last_cons_default. reflexivity.
Qed.
End C08_structure.

(* the entry point the driver executes takes a measurement size and a configuration record PER STEP; it is pf_trace
   over the step inputs built from them, and with constant operands it is c08_trace *)
Theorem C08_executed_trace_time_varying (Sc : SOps) sq (n m : nat) (cf : c08_cfg Sc) pred0 corr0 valid0 lik0
        (steps : list (step_tuple Sc)) (tvsteps : list (nat * c08_cfg Sc * step_tuple Sc)) :
  c08_trace Sc sq n m cf pred0 corr0 valid0 lik0 steps =
    c08_trace_tv Sc sq n pred0 corr0 valid0 lik0 (map (fun s => (m, cf, s)) steps) /\
  c08_trace_tv Sc sq n pred0 corr0 valid0 lik0 tvsteps =
    map (fun st => (map (c08_to_tuple Sc sq n) (fs_pred st), map (c08_to_tuple Sc sq n) (fs_corr st), fs_valid st, fs_lik st))
        (pf_trace (@mkFstate (c08_O Sc sq) n (map (c08_of_tuple Sc sq n) pred0) (map (c08_of_tuple Sc sq n) corr0) valid0 lik0)
                  (map (fun mcs => c08_step_in Sc sq n (fst (fst mcs)) (snd (fst mcs)) (snd mcs)) tvsteps)).
Proof.
  split.
  - unfold c08_trace, c08_trace_tv. f_equal. f_equal. rewrite map_map. reflexivity.
  - unfold c08_trace_tv. f_equal. f_equal. apply map_ext. intros [[m' cf'] s]. reflexivity.
Qed.

(* ------------------------------------------------------------------ lifetime (World C)
   The random source, the validity flag and the likelihood model of a GPFCorrection across
   constructions, move constructions, move assignments, corrections, draws and destructions
   (rs_* in C08_Model.v; rs_run true = the code at HEAD).  Reproduced on the library by the
   harness kinds gpf_fresh / gpf_moved. *)
(* a live GPFCorrection draws from its own generator, whatever was moved where before *)
Theorem C08_draws_from_own_generator ops id o :
  rs_find (rs_run true ops) id = Some o -> rs_alive o = true ->
  rs_draw_source (rs_run true ops) id = Some id.
Proof.
  intros Hf Ha. destruct (rs_find_ok _ _ _ (rs_run_ok ops) Hf) as [Ht _].
  pose proof (rs_find_id _ _ _ Hf) as Hid.
  unfold rs_draw_source. rewrite Hf, Ht, Hid, Hf, Ha. now rewrite Hid.
Qed.

(* ... and a draw advances the generator of the drawing object only: objects moved from a
   common source produce independent, seed-determined sequences *)
Theorem C08_draw_touches_own_generator_only ops id j :
  j <> id -> rs_find (rs_step true (rs_run true ops) (RsDraw id)) j = rs_find (rs_run true ops) j.
Proof.
  intros Hj. unfold rs_step. destruct (rs_find (rs_run true ops) id) as [o|] eqn:E; auto.
  destruct (rs_find_ok _ _ _ (rs_run_ok ops) E) as [Ht _]. rewrite Ht, (rs_find_id _ _ _ E).
  apply rs_find_upd_other; [reflexivity | exact Hj].
Qed.

(* the move constructor continues the source's stream on the new object's own copy and
   hands over the likelihood model *)
Theorem C08_move_construct st dst src o :
  rs_find st src = Some o ->
  rs_find (rs_step true st (RsMove dst src)) dst =
  Some (mkRsObj dst true dst (rs_valid o) (rs_lik o) (rs_gen o)).
Proof. intros H. cbn. rewrite H. unfold rs_find. cbn. now rewrite Nat.eqb_refl. Qed.

(* the move assignment transfers the likelihood model and the generator state, the
   destination reads its own generator, the source is left without a likelihood model *)
Theorem C08_move_assign_transfers_likelihood_model st dst src o d :
  dst <> src -> rs_find st src = Some o -> rs_find st dst = Some d ->
  (exists d', rs_find (rs_step true st (RsMoveAssign dst src)) dst = Some d' /\ rs_lik d' = rs_lik o /\
              rs_gen d' = rs_gen o /\ rs_target d' = dst /\ rs_valid d' = rs_valid o) /\
  (exists s', rs_find (rs_step true st (RsMoveAssign dst src)) src = Some s' /\ rs_lik s' = None).
Proof.
  intros Hne Hs Hd. cbn [rs_step]. rewrite Hs. split.
  - rewrite rs_find_upd_other, rs_find_upd_same, Hd by (reflexivity || exact Hne).
    eexists; split; [reflexivity|]. cbn. now rewrite (rs_find_id _ _ _ Hd).
  - rewrite rs_find_upd_same, rs_find_upd_other, Hs by (reflexivity || auto).
    eexists; split; reflexivity.
Qed.

(* getLikelihood() never reads an unwritten flag; a fresh object reports (false, ...) *)
Theorem C08_fresh_reports_invalid ops id seed k :
  rs_reported_valid (rs_run true (ops ++ [RsConstruct id seed k])) id = Some false.
Proof.
  rewrite rs_run_snoc. unfold rs_reported_valid, rs_find. cbn. now rewrite Nat.eqb_refl.
Qed.

Theorem C08_reported_validity_defined ops id o :
  rs_find (rs_run true ops) id = Some o -> rs_reported_valid (rs_run true ops) id <> None.
Proof.
  intros Hf. unfold rs_reported_valid. rewrite Hf. apply (rs_find_ok _ _ _ (rs_run_ok ops) Hf).
Qed.

(* ---- regression: the code before the fix commits d193577 / 57c1b76 (rs_run false) violated
   each of these statements; the witnesses are what the harness kinds replay *)
Theorem C08_pre_fix_draws_from_own_generator_refuted :
  exists ops id, rs_find (rs_run false ops) id <> None /\
                 (forall o, rs_find (rs_run false ops) id = Some o -> rs_alive o = true) /\
                 rs_draw_source (rs_run false ops) id <> Some id /\
                 rs_draw_source (rs_run false ops) id = None.
Proof.
  exists [RsConstruct 0 7 0; RsCorrect 0 true; RsMove 1 0; RsDestroy 0], 1. vm_compute.
  repeat split; try discriminate. now intros o [= <-].
Qed.

Theorem C08_pre_fix_fresh_likelihood_invalid_refuted :
  exists ops id, rs_draw_source (rs_run false ops) id = Some id /\
                 rs_reported_valid (rs_run false ops) id <> Some false /\
                 rs_reported_valid (rs_run false ops) id = None.
Proof. exists [RsConstruct 0 7 0], 0. vm_compute. repeat split; discriminate. Qed.

(* b = move(a); a = move(c); one draw of b -- every object alive: before the fix b read a's
   generator (by then a copy of c's) and kept its old likelihood model; at HEAD it reads its own *)
Theorem C08_pre_fix_move_assign_refuted :
  let ops := [RsConstruct 0 1 10; RsConstruct 1 2 11; RsMoveAssign 1 0;
              RsConstruct 2 3 12; RsMoveAssign 0 2; RsDraw 1] in
  option_map rs_lik (rs_find (rs_run false ops) 1) = Some (Some 11) /\
  option_map rs_gen (rs_find (rs_run false ops) 1) = Some (1, 0) /\
  option_map rs_gen (rs_find (rs_run false ops) 0) = Some (3, 1) /\
  rs_draw_source (rs_run false ops) 1 = Some 0 /\
  option_map rs_lik (rs_find (rs_run true ops) 1) = Some (Some 10) /\
  option_map rs_gen (rs_find (rs_run true ops) 1) = Some (1, 1) /\
  option_map rs_gen (rs_find (rs_run true ops) 0) = Some (3, 0) /\
  rs_draw_source (rs_run true ops) 1 = Some 1.
Proof. vm_compute. repeat split. Qed.

(* ------------------------------------------------------------------ Part 2 *)
Section C08_reals.
Local Open Scope R_scope.

(* the guard: every logarithm of the update is taken of a positive number *)
Theorem C08_weight_log_args_positive (l t q : R) :
  0 <= l -> 0 <= t -> 0 <= q ->
  0 < l + stiny C08_ROps /\ 0 < t + stiny C08_ROps /\ 0 < q + stiny C08_ROps.
Proof. intros Hl Ht Hq. pose proof tiny_pos. repeat split; apply Rplus_le_lt_0_compat; assumption. Qed.

(* product form of the scalar update: without eps it is the textbook w' = w l t / q (q > 0); eps only guards ln 0 *)
Theorem C08_weight_product_form (lw l t q : R) :
  0 <= l -> 0 <= t -> 0 <= q ->
  exp (gpf_weight C08_ROps lw l t q) =
  exp lw * (l + stiny C08_ROps) * (t + stiny C08_ROps) / (q + stiny C08_ROps).
Proof.
  intros Hl Ht Hq. destruct (C08_weight_log_args_positive l t q Hl Ht Hq) as (Pl & Pt & Pq).
  rewrite gpf_weight_R. unfold Rminus, Rdiv.
  rewrite !exp_plus, exp_Ropp, !exp_ln by assumption. reflexivity.
Qed.

(* product form inside the correction step (matrix interface at real scalars):
   q_i > 0 is derived (a Gaussian density), l_i, t_i >= 0 are the contracts of the
   likelihood and transition models *)
Theorem C08_step_weight_product_form
  (sq eg : nat -> lmx C08_ROps -> lmx C08_ROps) (n : nat)
  (gc : gstep (ListMat C08_ROps sq eg) n)
  (lik : list (M (ListMat C08_ROps sq eg) n 1) -> bool * list R)
  (trans : list (M (ListMat C08_ROps sq eg) n 1) -> list (M (ListMat C08_ROps sq eg) n 1) -> list R)
  (zs : list (M (ListMat C08_ROps sq eg) n 1)) (pred old : pset (ListMat C08_ROps sq eg) n)
  (i : nat) (d : particle (ListMat C08_ROps sq eg) n) :
  let O := ListMat C08_ROps sq eg in
  let xs := gpf_drawn gc zs pred old in
  fst (lik xs) = true -> (i < length pred)%nat ->
  length (snd (lik xs)) = length pred -> length (trans (map pstate pred) xs) = length pred ->
  let li := nth i (snd (lik xs)) 0 in
  let ti := nth i (trans (map pstate pred) xs) 0 in
  let b := belief_at (gc (gm_of pred) (gm_of old)) i in
  let qi := density (O:=O) (nth i xs (mzero n 1)) (gmean b) (gcov b) in
  0 <= li -> 0 <= ti ->
  0 < qi /\ 0 < li + stiny C08_ROps /\ 0 < ti + stiny C08_ROps /\ 0 < qi + stiny C08_ROps /\
  exp (plw (nth i (cr_particles (gpf_correct gc lik trans zs pred old)) d)) =
  exp (plw (nth i pred (dparticle O n))) * (li + stiny C08_ROps) * (ti + stiny C08_ROps)
  / (qi + stiny C08_ROps).
Proof.
  intros O xs Hv Hi _ _ li ti b qi Hl Ht. subst O.
  assert (Hq : 0 < qi) by apply density_pos.
  destruct (C08_weight_log_args_positive li ti qi Hl Ht (Rlt_le _ _ Hq)) as (Pl & Pt & Pq).
  repeat (split; [assumption|]).
  rewrite (correct_weight _ n gc lik trans zs pred old Hv i d Hi). cbn zeta.
  apply (C08_weight_product_form _ li ti qi); try assumption. now apply Rlt_le.
Qed.

(* the contracts hold for the shipped models: GaussianLikelihood (scale >= 0) and the
   linear-Gaussian transition density return non-negative values *)
Theorem C08_shipped_models_nonneg
  (sq eg : nat -> lmx C08_ROps -> lmx C08_ROps) (n m : nat) (scale : R)
  (H : M (ListMat C08_ROps sq eg) m n) (R0 : M (ListMat C08_ROps sq eg) m m) (y : M (ListMat C08_ROps sq eg) m 1)
  (F Q : M (ListMat C08_ROps sq eg) n n) v xs ps cs (i : nat) :
  0 <= scale ->
  0 <= nth i (snd (gauss_lik (O:=ListMat C08_ROps sq eg) scale v H R0 y xs)) 0 /\
  0 <= nth i (lin_trans (O:=ListMat C08_ROps sq eg) F Q ps cs) 0.
Proof.
  intros Hs. split; [|apply lin_trans_nonneg].
  (* gauss_lik is gauss_lik_h at the linear sensor, the three later steps never failing *)
  unfold gauss_lik. exact (gauss_lik_h_nonneg sq eg n m scale v true true true (lin_predicted H) R0 y xs i Hs).
Qed.
(* histories: along a history whose corrections are all valid, log-weight i is the initial
   one plus the sum of the per-step increments ln(l+eps) + ln(t+eps) - ln(q+eps)
   (step_incr spells the increment of one step out; shape guard derived as in C08_multi_step) *)
Theorem C08_weights_telescope
  (sq eg : nat -> lmx C08_ROps -> lmx C08_ROps) (n N : nat)
  (h : list (step_in (ListMat C08_ROps sq eg) n)) (st : fstate (ListMat C08_ROps sq eg) n) (i : nat) :
  let O := ListMat C08_ROps sq eg in
  length (fs_pred st) = N -> length (fs_corr st) = N ->
  Forall (fun s => shape_ok O n (si_gp s) /\ shape_ok O n (si_gc s)) h ->
  all_valid sq eg n N st h -> (i < N)%nat ->
  plw (nth i (fs_corr (gpf_run st h)) (dparticle O n)) =
  plw (nth i (fs_corr st) (dparticle O n)) + incr_sum sq eg n st h i.
Proof.
  intros O. subst O. revert st. induction h as [|s h IH]; intros st Lp Lc HF Hv Hi.
  - symmetry. apply Rplus_0_r.
  - apply Forall_cons_iff in HF. destruct HF as [[Sp Sc] HF']. destruct Hv as (Hv1 & Hl1 & Hl2 & Hv).
    destruct (gpf_step_formulae _ n N st s Lp Lc Sp Sc) as (L1 & L2 & _).
    change (gpf_run st (s :: h)) with (gpf_run (gpf_step st s) h).
    rewrite (IH (gpf_step st s) L1 L2 HF' Hv Hi), (step_weight_incr sq eg n N st s i Lp Lc Sp Sc Hv1 Hl1 Hl2 Hi).
    apply Rplus_assoc.
Qed.
End C08_reals.

(* ------------------------------------------------------------------ Part 3 *)
From mathcomp Require Import ssreflect ssrfun ssrbool eqtype ssrnat seq choice fintype bigop order ssralg ssrnum zmodp matrix mxalgebra.
Require Import BFL.MxOps BFL.LinAlg BFL.C01_Proofs BFL.C08_Proofs.
Import GRing.Theory.
Local Open Scope ring_scope.

Section C08_mathcomp.
Variable F : realFieldType.
Variable tr : Transc F.
Variable sq : forall n, 'M[F]_n -> 'M[F]_n.
Variable eg : forall n, 'M[F]_n -> 'M[F]_(n,1).
Let O := MxMat tr sq eg.
Variable n : nat.

(* Mahalanobis identity: for SPD P and the factor L = ldlt_sqrt P, under its contract L L^T = P, the
   drawn position x = m + L z satisfies (x-m)^T P^-1 (x-m) = z^T z *)
Theorem C08_mahalanobis (m z : M O n 1) (P : M O n n) :
  spd (P : 'M[F]_n) -> (ldlt_sqrt (O:=O) P : 'M[F]_n) *m (ldlt_sqrt (O:=O) P : 'M[F]_n)^T = P ->
  quadform (O:=O) (msub (sample_from_proposal m P z) m) (minv P) = quadform (O:=O) z (mid n)
  /\ quadform (O:=O) z (mid n) = \sum_i (z : 'cV[F]_n) i 0 ^+ 2.
Proof. by move=> sP cP; split; [exact: mahalanobis | exact: quadform_id]. Qed.

(* ... inside the correction step, for every particle of the returned set *)
Theorem C08_correct_mahalanobis (gc : gstep O n) lik trans (zs : list (M O n 1)) (pred old : pset O n)
  (i : nat) (d : particle O n) :
  fst (lik (gpf_drawn gc zs pred old)) = true -> (i < length pred)%coq_nat ->
  let P := gcov (belief_at (gc (gm_of pred) (gm_of old)) i) in
  spd (P : 'M[F]_n) -> (ldlt_sqrt (O:=O) P : 'M[F]_n) *m (ldlt_sqrt (O:=O) P : 'M[F]_n)^T = P ->
  let p := List.nth i (cr_particles (gpf_correct gc lik trans zs pred old)) d in
  quadform (O:=O) (msub (pstate p) (pmean p)) (minv (pcov p)) =
  quadform (O:=O) (List.nth i zs (mzero n 1)) (mid n).
Proof.
move=> Hv Hi P sP cP; rewrite (@correct_particle O n gc lik trans zs pred old Hv i d Hi) /=.
exact: mahalanobis.
Qed.

(* hence the proposal log-density at the drawn position is
   -1/2 (n ln 2pi + ln det P + z^T z): it depends on the draw through |z|^2 only *)
Theorem C08_proposal_log_density (m z : M O n 1) (P : M O n n) :
  spd (P : 'M[F]_n) -> (ldlt_sqrt (O:=O) P : 'M[F]_n) *m (ldlt_sqrt (O:=O) P : 'M[F]_n)^T = P ->
  log_density (O:=O) (sample_from_proposal m P z) m P =
  smul (sc O) (sopp (sc O) (shalf (sc O)))
       (sadd (sc O) (sadd (sc O) (smul (sc O) (sofnat (sc O) n) (sln (sc O) (smul (sc O) (s2 (sc O)) (spi (sc O)))))
                               (sln (sc O) (mdet P)))
             (quadform (O:=O) z (mid n))).
Proof. by move=> sP cP; rewrite /log_density (mahalanobis m z sP cP). Qed.

(* C01 o C08: with the Kalman correction as wrapped step (usable measurement, SPD R,
   SPD predicted covariances) the corrected beliefs are the information-form posteriors *)
Theorem C08_kf_conjugate_beliefs (m : nat) (H : M O m n) (R : M O m m) (y : M O m 1)
  (spdR : spd (R : 'M[F]_m)) lik trans (zs : list (M O n 1)) (pred old : pset O n) :
  fst (lik (gpf_drawn (kf_corr_gstep true H R y) zs pred old)) = true ->
  length old = length pred ->
  List.Forall (fun p : particle O n => spd (pcov p : 'M[F]_n)) pred ->
  List.map pbelief (cr_particles (gpf_correct (kf_corr_gstep true H R y) lik trans zs pred old)) =
  List.map (fun p => info_posterior H R y (pbelief p)) pred.
Proof.
move=> Hv Hl Hspd.
have Hs : length (kf_corr_gstep true H R y (gm_of pred) (gm_of old)) = length pred.
  by rewrite kf_corr_gstep_shape ?gm_of_length.
rewrite (@correct_beliefs O n _ lik trans zs pred old Hv Hs) kf_corr_gstep_beliefs ?gm_of_length //.
rewrite map_fst_gm_of List.map_map.
apply: List.map_ext_in => p Hp.
have sp : prior_ok (pbelief p) by move/List.Forall_forall: Hspd; apply.
exact: (@kf_one_is_info_posterior F tr sq eg n m H R y spdR (pbelief p) sp).
Qed.

(* ... and the Mahalanobis identity holds for every particle it returns, the SPD guard
   being derived from SPD R and SPD predicted covariances (only the contract of the
   square-root oracle on the corrected covariance remains a premise) *)
Theorem C08_kf_mahalanobis (m : nat) (H : M O m n) (R : M O m m) (y : M O m 1)
  (spdR : spd (R : 'M[F]_m)) lik trans (zs : list (M O n 1)) (pred old : pset O n) (i : nat) d :
  fst (lik (gpf_drawn (kf_corr_gstep true H R y) zs pred old)) = true ->
  length old = length pred ->
  List.Forall (fun p : particle O n => spd (pcov p : 'M[F]_n)) pred ->
  (i < length pred)%coq_nat ->
  let p := List.nth i (cr_particles (gpf_correct (kf_corr_gstep true H R y) lik trans zs pred old)) d in
  (ldlt_sqrt (O:=O) (pcov p) : 'M[F]_n) *m (ldlt_sqrt (O:=O) (pcov p) : 'M[F]_n)^T = pcov p ->
  spd (pcov p : 'M[F]_n) /\
  quadform (O:=O) (msub (pstate p) (pmean p)) (minv (pcov p)) =
  quadform (O:=O) (List.nth i zs (mzero n 1)) (mid n).
Proof. exact: kf_wrapped_mahalanobis. Qed.

End C08_mathcomp.

(* ------------------------------------------------------------------ Part 3b
   The contract of the square-root factor is not a premise here: C08_Model.ldlt_sqrt, the Gallina
   transcription of sampleFromProposal's pivoted LDL^T square root (Eigen's pivoting rule, lower
   triangle only, unscaled column on a zero pivot), is PROVED to return a factor A with A A^T = P for
   every symmetric positive definite P, over any real field with a square-root function such that
   0 <= x -> sqrt x * sqrt x = x (Num.sqrt in a real closed field: Example below).  The pivot order
   is the executed one (proved to be a permutation whatever the comparisons decide). *)
Require Import BFL.ListOpsCorrect BFL.C08_LDLTDef BFL.C08_LDLT.

Section C08_ldlt.
Variable F : realFieldType.
Variable tr : Transc F.
Hypothesis sqrt_ok : forall x : F, 0 <= x -> t_sqrt tr x * t_sqrt tr x = x.
Variable n : nat.

(* ... at the EXECUTED list instance (c08_ldlt is the extracted entry point the driver runs, with floats for F):
   for a list matrix lP whose interpretation toM lP is symmetric positive definite (a well-formed lP
   in particular: wf is not even needed, out-of-range reads are the default 0 on both sides), the
   result is a well-formed n x n list matrix A with A *m A^T = P *)
Theorem C08_ldlt_sqrt_contract (sq : nat -> lmx (FOps tr) -> lmx (FOps tr)) (lP : lmx (FOps tr)) :
  spd (toM n n lP) ->
  wf n n (c08_ldlt (FOps tr) sq n lP) /\
  toM n n (c08_ldlt (FOps tr) sq n lP) *m (toM n n (c08_ldlt (FOps tr) sq n lP))^T = toM n n lP.
Proof.
by move=> sP; rewrite /c08_ldlt /c08_O; split; [exact: ldlt_sqrt_list_wf | exact: ldlt_sqrt_list_correct].
Qed.

(* ... at the MathComp instance, the one the Mahalanobis theorems above are stated at *)
Theorem C08_ldlt_sqrt_contract_mx (sq : forall n, 'M[F]_n -> 'M[F]_n) (eg : forall n, 'M[F]_n -> 'M[F]_(n,1)) (P : 'M[F]_n) :
  spd P ->
  (ldlt_sqrt (O:=MxMat tr sq eg) P : 'M[F]_n) *m (ldlt_sqrt (O:=MxMat tr sq eg) P : 'M[F]_n)^T = P.
Proof. exact: ldlt_sqrt_mx_correct. Qed.

(* hence the Mahalanobis identity of the drawn position with NO premise on the factor *)
Theorem C08_mahalanobis_proved (sq : forall n, 'M[F]_n -> 'M[F]_n) (eg : forall n, 'M[F]_n -> 'M[F]_(n,1))
  (m z : M (MxMat tr sq eg) n 1) (P : M (MxMat tr sq eg) n n) :
  spd (P : 'M[F]_n) ->
  quadform (O:=MxMat tr sq eg) (msub (sample_from_proposal m P z) m) (minv P) = quadform (O:=MxMat tr sq eg) z (mid n)
  /\ quadform (O:=MxMat tr sq eg) z (mid n) = \sum_i (z : 'cV[F]_n) i 0 ^+ 2.
Proof. by move=> sP; apply: C08_mahalanobis => //; exact: ldlt_sqrt_mx_correct. Qed.

(* ... and for every particle returned by the correction with the Kalman step as wrapped step: SPD R and SPD
   predicted covariances are the only premises left *)
Theorem C08_kf_mahalanobis_proved (sq : forall n, 'M[F]_n -> 'M[F]_n) (eg : forall n, 'M[F]_n -> 'M[F]_(n,1))
  (m : nat) (H : M (MxMat tr sq eg) m n) (R : M (MxMat tr sq eg) m m) (y : M (MxMat tr sq eg) m 1)
  (spdR : spd (R : 'M[F]_m)) lik trans (zs : list (M (MxMat tr sq eg) n 1)) (pred old : pset (MxMat tr sq eg) n) (i : nat) d :
  fst (lik (gpf_drawn (kf_corr_gstep true H R y) zs pred old)) = true ->
  length old = length pred ->
  List.Forall (fun p : particle (MxMat tr sq eg) n => spd (pcov p : 'M[F]_n)) pred ->
  (i < length pred)%coq_nat ->
  let p := List.nth i (cr_particles (gpf_correct (kf_corr_gstep true H R y) lik trans zs pred old)) d in
  spd (pcov p : 'M[F]_n) /\
  quadform (O:=MxMat tr sq eg) (msub (pstate p) (pmean p)) (minv (pcov p)) =
  quadform (O:=MxMat tr sq eg) (List.nth i zs (mzero n 1)) (mid n).
Proof.
move=> Hv Hl Hspd Hi p; apply: kf_wrapped_mahalanobis => //.
by apply: ldlt_sqrt_mx_correct => //; exact: kf_wrapped_spd.
Qed.

End C08_ldlt.

(* non-vacuity of the premises of the four theorems above, together: over any real closed field, sqrt := Num.sqrt
   meets its contract, and the list matrix [[1,1],[1,3]] (the larger diagonal entry comes second: the pivot swap is
   taken) is well formed with a symmetric positive definite interpretation *)
Example C08_ldlt_premises_rcf (K : rcfType) :
  [/\ forall x : K, 0 <= x -> t_sqrt (ex_tr K) x * t_sqrt (ex_tr K) x = x,
      wf 2 2 (ex_P K) & spd (toM 2 2 (ex_P K))].
Proof. by split; [exact: ex_sqrt_ok | exact: ex_wf | exact: ex_spd]. Qed.

(* non-vacuity of the MathComp premises: P = I with the factor L = I *)
Example C08_premises_satisfiable (F : realFieldType) n :
  spd (1%:M : 'M[F]_n) /\ (1%:M : 'M[F]_n) *m (1%:M : 'M[F]_n)^T = 1%:M.
Proof. by split; [exact: spd1 | rewrite trmx1 mulmx1]. Qed.

(* the executable instance of the same model over exact rationals: two particles in
   dimension 2, Kalman steps as wrapped steps.  (Over Q the record's ln / exp are the identity
   and eps = 0, so the weight update reads lw + l + t - q: the structure is what is tested; the
   square root is a table on the values that occur in the LDL^T of P.)
   Checked: the pivoted LDL^T factor of P (pivot on the second diagonal entry) is [[1/2,3/2],[2,0]]
   and L L^T = P; positions and weights untouched by the prediction; predicted beliefs
   F m, F P F^T + Q; after the correction x_i = m_i + ldlt_sqrt(P_i) z_i; the Mahalanobis identity
   (x - m)^T P^-1 (x - m) = z^T z = 5 for the draw z = (1,-2); an invalid likelihood returns the
   predicted set. *)
Open Scope Q_scope.
Definition qsqrt8 (q : Q) : Q :=
  if Qeq_bool q (4#1) then 2#1 else if Qeq_bool q (9#4) then 3#2 else q.
Definition QOps8 : SOps :=
  mkSOps Q (s0 QOps) (s1 QOps) (sadd QOps) (ssub QOps) (smul QOps) (sdiv QOps) (sopp QOps) (sleb QOps) (sltb QOps)
         (sofZ QOps) qsqrt8 (sexp QOps) (sln QOps) (scos QOps) (ssin QOps) (sacos QOps) (satan2 QOps) (spi QOps) (stiny QOps).
Definition QM8 := ListMat QOps8 (fun _ A => A) (fun _ A => A).
Example C08_concrete_Q :
  let P := [:: [:: 5#2; 1#1]; [:: 1#1; 4#1]]%Q in
  let Fm := [:: [:: 1#1; 1#2]; [:: 0#1; 1#1]]%Q in
  let Qm := [:: [:: 1#3; 0#1]; [:: 0#1; 1#3]]%Q in
  let Hm := [:: [:: 1#1; 0#1]]%Q in
  let Rm := [:: [:: 1#2]]%Q in
  let ym := [:: [:: 3#1]]%Q in
  let p1 := @mkParticle QM8 2%nat [:: [:: 1#1]; [:: 2#1]]%Q [:: [:: 1#2]; [:: -1#1]]%Q P (-1#2)%Q in
  let p2 := @mkParticle QM8 2%nat [:: [:: -3#1]; [:: 1#4]]%Q [:: [:: 0#1]; [:: 2#1]]%Q P (-3#2)%Q in
  let junk := @mkParticle QM8 2%nat [:: [:: 9#1]; [:: 9#1]]%Q [:: [:: 8#1]; [:: 8#1]]%Q Fm (7#1)%Q in
  let prev := [:: p1; p2] in
  let pred := @gpf_predict QM8 2 (@kf_pred_gstep QM8 2 Fm Qm) prev [:: junk; junk] in
  let zs := [:: [:: [:: 1#1]; [:: -2#1]]; [:: [:: 1#3]; [:: 1#2]]]%Q in
  let lik ok := @scripted_lik QM8 2 ok (@gauss_lik QM8 2 1 (1#1)%Q true Hm Rm ym) in
  let tr := @lin_trans QM8 2 Fm Qm in
  let r := @gpf_correct QM8 2 (@kf_corr_gstep QM8 2 1 true Hm Rm ym) (lik true) tr zs pred prev in
  let r0 := @gpf_correct QM8 2 (@kf_corr_gstep QM8 2 1 true Hm Rm ym) (lik false) tr zs pred prev in
  let c1 := List.nth 0%nat (cr_particles r) junk in
  let m0 := [:: [:: 1#2]; [:: -1#1]]%Q in
  let z0 := [:: [:: 1#1]; [:: -2#1]]%Q in
  let x0 := @sample_from_proposal QM8 2 m0 P z0 in
  let L := @ldlt_sqrt QM8 2 P in
  qmx_eqb (List.concat (List.map pstate pred)) (List.concat (List.map pstate prev))
  && qmx_eqb [:: List.map plw pred] [:: List.map plw prev]
  && qmx_eqb (pmean (List.nth 0%nat pred junk)) [:: [:: 0#1]; [:: -1#1]]%Q
  && qmx_eqb (pcov (List.nth 0%nat pred junk)) [:: [:: 29#6; 3#1]; [:: 3#1; 13#3]]%Q
  && qmx_eqb (pstate c1) (@madd QM8 2 1 (pmean c1) (@mmul QM8 2 2 1 (@ldlt_sqrt QM8 2 (pcov c1)) (List.nth 0%nat zs [::])))
  && cr_valid r && negb (cr_valid r0)
  && qmx_eqb (List.concat (List.map pstate (cr_particles r0))) (List.concat (List.map pstate pred))
  && qmx_eqb [:: List.map plw (cr_particles r0)] [:: List.map plw pred]
  && Nat.eqb (List.length (cr_particles r)) 2%nat
  && qmx_eqb L [:: [:: 1#2; 3#2]; [:: 2#1; 0#1]]%Q
  && qmx_eqb (@mmul QM8 2 2 2 L (@mtr QM8 2 2 L)) P
  && Qeq_bool (@quadform QM8 2 (@msub QM8 2 1 x0 m0) (@minv QM8 2 P)) (5#1) = true.
Proof. vm_compute. reflexivity. Qed.

(* a time-varying history over exact rationals: two steps on one particle in dimension 2, with different state
   models, measurement matrices, noise covariances (R_0 = 1/2, R_1 = 2), readings and likelihood scales.  Checked on the
   executable instance: after step 2 the likelihood is valid, its value is s_1 N(y_1 - H_1 x; 0, R_1) at the drawn
   position and NOT the value obtained with the noise covariance R_0 of the first step; the predicted belief of step 2
   is F_1 m, F_1 P F_1^T + Q_1 of the belief corrected at step 1. *)
Example C08_time_varying_concrete_Q :
  let P := [:: [:: 5#2; 1#1]; [:: 1#1; 4#1]]%Q in
  let F0 := [:: [:: 1#1; 1#2]; [:: 0#1; 1#1]]%Q in
  let F1 := [:: [:: 1#2; 0#1]; [:: 1#3; 1#1]]%Q in
  let Q0 := [:: [:: 1#3; 0#1]; [:: 0#1; 1#3]]%Q in
  let Q1 := [:: [:: 1#1; 1#4]; [:: 1#4; 2#1]]%Q in
  let H0 := [:: [:: 1#1; 0#1]]%Q in
  let H1 := [:: [:: 1#1; 2#1]]%Q in
  let R0 := [:: [:: 1#2]]%Q in
  let R1 := [:: [:: 2#1]]%Q in
  let y0 := [:: [:: 3#1]]%Q in
  let y1 := [:: [:: -1#1]]%Q in
  let z0 := [:: [:: [:: 1#1]; [:: -2#1]]]%Q in
  let z1 := [:: [:: [:: 1#3]; [:: 1#2]]]%Q in
  let p0 := @mkTvOps QM8 2%nat 1%nat F0 Q0 H0 R0 y0 (1#1)%Q F0 Q0 z0 in
  let p1 := @mkTvOps QM8 2%nat 1%nat F1 Q1 H1 R1 y1 (3#1)%Q F1 Q1 z1 in
  let part := @mkParticle QM8 2%nat [:: [:: 1#1]; [:: 2#1]]%Q [:: [:: 1#2]; [:: -1#1]]%Q P (-1#2)%Q in
  let junk := @mkParticle QM8 2%nat [:: [:: 9#1]; [:: 9#1]]%Q [:: [:: 8#1]; [:: 8#1]]%Q F0 (7#1)%Q in
  let st0 := @mkFstate QM8 2%nat [:: junk] [:: part] false [::] in
  let st1 := @tv_run QM8 2%nat st0 [:: p0] in
  let st2 := @tv_run QM8 2%nat st0 [:: p0; p1] in
  let c1 := List.nth 0%nat (fs_corr st1) junk in
  let c2 := List.nth 0%nat (fs_corr st2) junk in
  let pr2 := List.nth 0%nat (fs_pred st2) junk in
  let lik_with R := smul QOps8 (3#1)%Q (@density QM8 1%nat (@lin_innovation QM8 1%nat (@lin_predicted QM8 1%nat 2%nat H1 (pstate c2)) y1) (@mzero QM8 1%nat 1%nat) R) in
  fs_valid st2
  && qmx_eqb [:: fs_lik st2] [:: [:: lik_with R1]]
  && negb (qmx_eqb [:: fs_lik st2] [:: [:: lik_with R0]])
  && qmx_eqb (pmean pr2) (@mmul QM8 2 2 1 F1 (pmean c1))
  && qmx_eqb (pcov pr2) (@madd QM8 2 2 (@mmul QM8 2 2 2 (@mmul QM8 2 2 2 F1 (pcov c1)) (@mtr QM8 2 2 F1)) Q1)
  && qmx_eqb (pstate pr2) (pstate c1)
  && Nat.eqb (List.length (fs_corr st2)) 1%nat = true.
Proof. vm_compute. reflexivity. Qed.

Print Assumptions C08_predict_frame.
Print Assumptions C08_predict_beliefs.
Print Assumptions C08_correct_beliefs.
Print Assumptions C08_correct_positions.
Print Assumptions C08_correct_likelihood_on_drawn.
Print Assumptions C08_weight_formula.
Print Assumptions C08_invalid_restores.
Print Assumptions C08_correct_count.
Print Assumptions C08_multi_step.
Print Assumptions C08_trace_is_run.
Print Assumptions C08_kf_steps_shape_ok.
Print Assumptions C08_unscented_steps_shape_ok.
Print Assumptions C08_gauss_lik_length.
Print Assumptions C08_pf_trace_noskip.
Print Assumptions C08_pf_skip_correction.
Print Assumptions C08_multi_step_time_varying.
Print Assumptions C08_no_hidden_memory.
Print Assumptions C08_stepwise_trace.
Print Assumptions C08_executed_trace_time_varying.
Print Assumptions C08_draws_from_own_generator.
Print Assumptions C08_draw_touches_own_generator_only.
Print Assumptions C08_move_construct.
Print Assumptions C08_move_assign_transfers_likelihood_model.
Print Assumptions C08_fresh_reports_invalid.
Print Assumptions C08_reported_validity_defined.
Print Assumptions C08_pre_fix_draws_from_own_generator_refuted.
Print Assumptions C08_pre_fix_fresh_likelihood_invalid_refuted.
Print Assumptions C08_pre_fix_move_assign_refuted.
Print Assumptions C08_weight_log_args_positive.
Print Assumptions C08_weight_product_form.
Print Assumptions C08_step_weight_product_form.
Print Assumptions C08_shipped_models_nonneg.
Print Assumptions C08_weights_telescope.
Print Assumptions C08_mahalanobis.
Print Assumptions C08_correct_mahalanobis.
Print Assumptions C08_proposal_log_density.
Print Assumptions C08_kf_conjugate_beliefs.
Print Assumptions C08_kf_mahalanobis.
Print Assumptions C08_ldlt_sqrt_contract.
Print Assumptions C08_ldlt_sqrt_contract_mx.
Print Assumptions C08_mahalanobis_proved.
Print Assumptions C08_kf_mahalanobis_proved.
