(* C08_LDLTDef.v — the body of C08_Model.ldlt_sqrt (the pivoted LDL^T square root of
   GPFCorrection::sampleFromProposal) cut into named pieces, so that it can be reasoned
   about: ldlt_sqrt A = mbuild n n (ld_entries n (mget A) perm), perm the pivot order (ldlt_sqrtE,
   below; the pieces are the local definitions of ldlt_sqrt, sabs8 unfolded).  They depend on the
   scalars only, so they are stated over S : SOps: every matrix instance over the same scalars
   shares them.  Not a second model: C08_LDLT.v proves the contract of ldlt_sqrt through this equation. *)
Require Import ZArith List Bool.
Require Import BFL.Ops BFL.C08_Model.
Import ListNotations.

Section Entries.
Variable S : SOps.

Definition ld_lij (cols : list (list (T S))) (i k : nat) : T S := nth i (nth k cols []) (s0 S).

(* B i j - sum_{k<j} l_ik l_jk d_k, accumulated in the order of the code *)
Definition ld_acc (B : nat -> nat -> T S) (cols : list (list (T S))) (ds : list (T S)) (j i : nat) : T S :=
  fold_left (fun a k => ssub S a (smul S (smul S (ld_lij cols i k) (ld_lij cols j k)) (nth k ds (s0 S))))
            (seq 0 j) (B i j).

Definition ld_col (n : nat) (B : nat -> nat -> T S) cols ds (j : nat) : list (T S) :=
  let dj := ld_acc B cols ds j j in
  map (fun i => if Nat.ltb i j then s0 S else if Nat.eqb i j then s1 S
                else if sltb S (s0 S) (if sltb S dj (s0 S) then sopp S dj else dj)
                     then sdiv S (ld_acc B cols ds j i) dj else ld_acc B cols ds j i)
      (seq 0 n).

Definition ld_step (n : nat) (B : nat -> nat -> T S) (st : list (list (T S)) * list (T S)) (j : nat) :=
  let '(cols, ds) := st in
  (cols ++ [ld_col n B cols ds j], ds ++ [ld_acc B cols ds j j]).

(* P A P^T read from the lower triangle of A *)
Definition ld_B (a : nat -> nat -> T S) (perm : list nat) (i j : nat) : T S :=
  let pi := nth i perm 0 in let pj := nth j perm 0 in
  if Nat.leb pj pi then a pi pj else a pj pi.

Definition ld_state (n : nat) (B : nat -> nat -> T S) (j : nat) := fold_left (ld_step n B) (seq 0 j) ([], []).

Definition ld_entries (n : nat) (a : nat -> nat -> T S) (perm : list nat) (r c : nat) : T S :=
  let st := ld_state n (ld_B a perm) n in
  smul S (ld_lij (fst st) (index_of r perm 0) c) (ssqrt S (nth c (snd st) (s0 S))).

End Entries.

Lemma ldlt_sqrtE (O : MatOps) n (A : M O n n) :
  ldlt_sqrt A = mbuild n n (ld_entries (sc O) n (fun i j => mget A i j) (ldlt_perm O n (fun i => mget A i i))).
Proof.
unfold ldlt_sqrt, ld_entries.
set (perm := ldlt_perm O n (fun i => mget A i i)).
change (fold_left _ (seq 0 n) ([], [])) with (ld_state (sc O) n (ld_B (sc O) (fun i j => mget A i j) perm) n).
now destruct (ld_state _ _ _ _) as [cols ds].
Qed.
