(* C03_Spread.v — "spreads small enough" stated on the covariance alone.
   The smallness premises of C03_euler_affine_exact (small_spread: half-turn bounds on every sigma offset of the
   factor the oracle returned, positive weighted resultant) are DERIVED from bounds on the input
   covariance P and the propagated covariance Am P Am^T:
     c * P_jj < PI^2                 on every circular input row j      (c = n + lambda)
     c * (Am P Am^T)_ii < PI^2       on every circular output row i
     (Am P Am^T)_ii < 2              on every circular output row i
   whatever factor A with A A^T = P the square-root oracle returns: |sqrt(c) A_jk| <= sqrt(c P_jj),
   |sqrt(c) (Am A)_ik| <= sqrt(c (Am P Am^T)_ii), and the weighted resultant is
   1 - 2 wi sum_k (1 - cos x_k) >= 1 - (Am P Am^T)_ii / 2 because 1 - cos x <= x^2 / 2; this holds
   also when the central weight w0 is negative (small alpha).
   Axioms: the four standard axioms of Coq's Reals. *)
Require Import ZArith Reals Lra Lia List Bool Arith.
Require Import BFL.Ops BFL.C03_Model BFL.C19_ROps BFL.C19_Model BFL.C19_Proofs BFL.C03_Real BFL.C03_RFun BFL.C03_Sigma BFL.C03_Euler.
Import ListNotations.
Local Open Scope R_scope.

Lemma sin_sq_le y : sin y * sin y <= y * y.
Proof.
  destruct (Rtotal_order y 0) as [H|[->|H]].
  - pose proof (sin_gt_x y H). pose proof (SIN_bound y).
    destruct (Rle_or_lt y (-1)); [nra|].
    assert (sin y < 0). { apply sin_lt_0_var; [pose proof PI_RGT_0; pose proof PI2_1; unfold PI2 in *; lra | lra]. }
    nra.
  - rewrite sin_0. lra.
  - pose proof (sin_lt_x y H). pose proof (SIN_bound y).
    destruct (Rle_or_lt 1 y); [nra|].
    assert (0 < sin y). { apply sin_gt_0; [lra | pose proof PI2_1; unfold PI2 in *; lra]. }
    nra.
Qed.

Lemma one_minus_cos_le x : 1 - cos x <= x * x / 2.
Proof.
  replace x with (2 * (x / 2)) at 1 by lra. rewrite cos_2a_sin.
  pose proof (sin_sq_le (x / 2)). nra.
Qed.

(* sqrt(c) a within a half turn from a bound T on a^2 with c T < PI^2 *)
Lemma scaled_abs_lt_PI c a T : 0 < c -> a * a <= T -> c * T < PI * PI -> Rabs (sqrt c * a) < PI.
Proof.
  intros Hc Ha HT. pose proof PI_RGT_0 as Hpi. pose proof (sqrt_sqrt c ltac:(lra)) as Hs.
  assert (E : sqrt c * a * (sqrt c * a) = c * (a * a)) by (rewrite <- Hs at 3; lra).
  apply Rabs_def1; nra.
Qed.

(* a positive weighted resultant from a bound on the sum of the squared angles: 1 - cos x <= x^2 / 2, so
   w0 + 2 wi sum cos x_k >= 1 - 2 wi sum x_k^2 / 2 >= 1 - T / 2 (also for a negative central weight) *)
Section Resultant.
Variables (dc : nat) (c w0 wi : R).
Hypothesis c_pos : 0 < c.
Hypothesis w_sum : w0 + 2 * INR dc * wi = 1.
Hypothesis w_i : 2 * wi * c = 1.

Lemma resultant_from_squares (x : nat -> R) T :
  rsum dc (fun k => x k * x k) <= c * T -> T < 2 -> 0 < w0 + 2 * wi * rsum dc (fun k => cos (x k)).
Proof.
  intros Hsq HT. assert (Hwi : 0 < wi) by (assert (0 < wi * c) by lra; nra).
  assert (E1 : rsum dc (fun k => cos (x k)) = INR dc - rsum dc (fun k => 1 - cos (x k))).
  { rewrite (rsum_ext dc (fun k => 1 - cos (x k)) (fun k => 1 + - cos (x k))) by (intros; lra).
    rewrite rsum_plus, rsum_opp, rsum_const. lra. }
  assert (E2 : rsum dc (fun k => 1 - cos (x k)) <= c * T / 2).
  { apply Rle_trans with (rsum dc (fun k => / 2 * (x k * x k))).
    - apply rsum_le. intros k _. pose proof (one_minus_cos_le (x k)). lra.
    - rewrite rsum_scal. lra. }
  rewrite E1.
  assert (2 * wi * rsum dc (fun k => 1 - cos (x k)) <= T / 2).
  { apply Rle_trans with (2 * wi * (c * T / 2)); [apply Rmult_le_compat_l; lra|].
    replace (2 * wi * (c * T / 2)) with ((2 * wi * c) * T / 2) by lra. rewrite w_i. lra. }
  nra.
Qed.
End Resultant.

Section Spread.
Variables sq : nat -> fmx -> fmx.
Variables lin circ noise olin ocirc : nat.
Variables d dc : nat.
Hypothesis Hd : d = (lin + circ + noise)%nat.
Hypothesis Hdc : dc = d.
Variables (c w0 wi : R) (Am P : fmx).
Hypothesis c_pos : 0 < c.
Hypothesis w_sum : w0 + 2 * INR dc * wi = 1.
Hypothesis w_i : 2 * wi * c = 1.
Hypothesis HF : factor_ok sq dc P.

Definition small_cov : Prop :=
  (forall j, circ_row lin circ j = true -> c * P j j < PI * PI) /\
  (forall i, circ_row olin ocirc i = true ->
     c * cov_image d P Am i i < PI * PI /\ cov_image d P Am i i < 2).

Let A := sq dc P.

Lemma gram_diag i : rsum dc (fun k => AmA sq d dc P Am i k * AmA sq d dc P Am i k) = cov_image d P Am i i.
Proof. apply gram_cov; [lia | exact HF]. Qed.

Theorem small_cov_spread : small_cov -> small_spread sq lin circ olin ocirc d dc c w0 wi Am P.
Proof.
  intros [S1 S2]. split; [|split].
  - intros j k Hj Hk. apply (scaled_abs_lt_PI c _ (P j j) c_pos); [|exact (S1 j Hj)].
    assert (Hjd : (j < dc)%nat) by (apply circ_row_true in Hj; lia).
    rewrite <- (HF j j Hjd Hjd). apply (rsum_term_le dc (fun k => A j k * A j k)); [intros; nra | exact Hk].
  - intros i k Hi Hk. apply (scaled_abs_lt_PI c _ (cov_image d P Am i i) c_pos); [|exact (proj1 (S2 i Hi))].
    rewrite <- gram_diag. apply (rsum_term_le dc (fun k => AmA sq d dc P Am i k * AmA sq d dc P Am i k)); [intros; nra | exact Hk].
  - intros i Hi. destruct (S2 i Hi) as [_ S2b].
    apply (resultant_from_squares dc c w0 wi c_pos w_sum w_i (fun k => sqrt c * AmA sq d dc P Am i k) _) with (2 := S2b).
    rewrite <- gram_diag, <- rsum_scal. apply Req_le, rsum_ext. intros k _. rewrite <- (sqrt_sqrt c) at 3 by lra. lra.
Qed.
End Spread.

(* non-vacuity: a concrete instance, on which Properties_C03_Real.C03_euler_premises shows all premises to hold
   layout: 1 linear row, 1 Euler angle, 1 noise row (d = dc = 3); output: 1 linear row, 1 Euler angle;
   alpha = 1, kappa = 0 (c = 3); P = I / 4 with the diagonal factor; the map
     y_lin  = 2 x_lin + x_noise + b_0
     y_circ = x_lin / 2 + x_circ + x_noise / 3 + b_1     (offset of the angle by a linear function) *)
Definition ex_sq (n : nat) (P : fmx) : fmx := fun i j => if Nat.eqb i j then sqrt (P i i) else 0.
Definition ex_P : fmx := fun i j => if Nat.eqb i j then 1 / 4 else 0.
Definition ex_Am : fmx := fun i j =>
  match i, j with
  | 0%nat, 0%nat => 2 | 0%nat, 2%nat => 1
  | 1%nat, 0%nat => 1 / 2 | 1%nat, 1%nat => 1 | 1%nat, 2%nat => 1 / 3
  | _, _ => 0
  end.

