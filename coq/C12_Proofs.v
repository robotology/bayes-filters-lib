(* C12_Proofs.v — what the theorems of Properties_C12 share: the sensor under a fault
   pattern, the failure lemmas of the unscented corrections, the likelihood model
   under a pattern, the two particle steps in one equation each.
   Plain Coq (lists, booleans); no axioms. *)
Require Import List Bool.
Require Import BFL.C12_Model.
Import ListNotations.
Local Open Scope bool_scope.

(* the pattern with one site switched off *)
Definition mask (s : site) (p : pattern) : pattern := fun t => if site_eqb s t then false else p t.

Definition sites4 := [Measure; Predicted; Innovation; NoiseCov].
Definition sites3 := [Measure; Predicted; Innovation].

Lemma fails4 p : fails_any p sites4 = p Measure || p Predicted || p Innovation || p NoiseCov.
Proof. unfold fails_any, sites4; simpl. now rewrite orb_false_r, !orb_assoc. Qed.
Lemma fails3 p : fails_any p sites3 = p Measure || p Predicted || p Innovation.
Proof. unfold fails_any, sites3; simpl. now rewrite orb_false_r, !orb_assoc. Qed.

Section Proofs.
Variables G St Y X YP NU RC PY PM PXY LK RNG : Type.
Notation mmodel := (mmodel Y X YP NU RC).

(* a pattern that fails one of the sites makes the injected sensor fail that call at every
   argument: the theorems about patterns are instances of those about a sensor that fails by itself *)
Lemma inject_fails4 (p : pattern) (mm : mmodel) :
  fails_any p sites4 = true ->
  mm_measure (inject p mm) = None \/ (forall x, mm_predicted (inject p mm) x = None) \/
  (forall yp y, mm_innovation (inject p mm) yp y = None) \/ fst (mm_noisecov (inject p mm)) = false.
Proof.
  rewrite fails4. unfold inject; simpl.
  destruct (p Measure); [auto|]. destruct (p Predicted); [auto|].
  destruct (p Innovation); [auto|]. destruct (p NoiseCov); [auto|discriminate].
Qed.

Lemma inject_fails3 (p : pattern) (mm : mmodel) :
  fails_any p sites3 = true ->
  mm_measure (inject p mm) = None \/ (forall x, mm_predicted (inject p mm) x = None) \/
  (forall yp y, mm_innovation (inject p mm) yp y = None).
Proof.
  rewrite fails3. unfold inject; simpl.
  destruct (p Measure); [auto|]. destruct (p Predicted); [auto|]. destruct (p Innovation); [auto|discriminate].
Qed.

Section UKF.
Variable sigma_of : G -> X.
Variable ut_moments : G -> YP -> PM * PXY.
Variable pm_default : PM.
Variable pxy_empty : PXY.
Variable pm_add_noise : PM -> RC -> PM.
Variable ukf_augment : G -> RC -> G.
Variable pm_mean : PM -> YP.
Variable ukf_upd : G -> PM -> PXY -> NU -> G -> G.
Variable ukf_lik : NU -> PM -> LK.
Notation ukf_step_ := (ukf_step sigma_of ut_moments pm_default pxy_empty pm_add_noise ukf_augment pm_mean ukf_upd).

(* the input of the transform and the predicted measurement handed to innovation() in this very call *)
Definition ukf_input (additive : bool) (mm : mmodel) (pred : G) : G :=
  if additive then pred else ukf_augment pred (snd (mm_noisecov mm)).
Definition ukf_pm (additive : bool) (mm : mmodel) (pred : G) (yp : YP) : PM :=
  let pm := fst (ut_moments (ukf_input additive mm pred) yp) in
  if additive then pm_add_noise pm (snd (mm_noisecov mm)) else pm.

(* the calls between measure() and innovation(): the generic constructor fetches the noise covariance first (to
   augment the state), the additive transform only after a successful evaluation *)
Definition ukf_transform_log (additive ok : bool) : list site :=
  if additive then Predicted :: (if ok then [NoiseCov] else []) else [NoiseCov; Predicted].

(* correctStep of both constructors as one chain of calls, like the other classes *)
Lemma ukf_step_eq (additive : bool) (mm : mmodel) pred out st :
  ukf_step_ additive mm pred out st =
  match mm_measure mm with
  | None => mkRes pred (mkUkfSt None (u_pm st)) [Measure]
  | Some y =>
    let input := ukf_input additive mm pred in
    match mm_predicted mm (sigma_of input) with
    | None => mkRes pred (mkUkfSt None pm_default) (Measure :: ukf_transform_log additive false)
    | Some yp =>
      let pm := ukf_pm additive mm pred yp in
      let l := Measure :: ukf_transform_log additive true ++ [Innovation] in
      match mm_innovation mm (pm_mean pm) y with
      | None => mkRes pred (mkUkfSt None pm) l
      | Some nu => mkRes (ukf_upd pred pm (snd (ut_moments input yp)) nu out) (mkUkfSt (Some nu) pm) l
      end
    end
  end.
Proof.
  unfold ukf_step, ut_additive, ut_generic, ut_base, ukf_pm, ukf_input.
  destruct (mm_measure mm); [|reflexivity].
  destruct additive; (destruct (mm_predicted mm _); [|reflexivity]); destruct (ut_moments _ _); reflexivity.
Qed.

Lemma ukf_get_lik_None (st : ukf_state NU PM) : u_innov st = None -> ukf_get_lik ukf_lik st = None.
Proof. unfold ukf_get_lik. now intros ->. Qed.

(* a call the class honours fails, at the arguments of this very call *)
Lemma ukf_step_failure (additive : bool) (mm : mmodel) pred out st :
  (mm_measure mm = None \/ mm_predicted mm (sigma_of (ukf_input additive mm pred)) = None \/
   (forall y yp, mm_measure mm = Some y -> mm_predicted mm (sigma_of (ukf_input additive mm pred)) = Some yp ->
                 mm_innovation mm (pm_mean (ukf_pm additive mm pred yp)) y = None)) ->
  r_out (ukf_step_ additive mm pred out st) = pred /\
  u_innov (r_st (ukf_step_ additive mm pred out st)) = None.
Proof.
  rewrite ukf_step_eq. intros Hf.
  destruct (mm_measure mm) as [y|] eqn:E1; [|auto]. cbv zeta.
  destruct (mm_predicted mm _) as [yp|] eqn:E2; [|auto].
  destruct (mm_innovation mm _ y) eqn:E3; [|auto].
  destruct Hf as [Hf|[Hf|Hf]]; try discriminate.
  rewrite (Hf y yp eq_refl eq_refl) in E3. discriminate.
Qed.
End UKF.

Section SUKF.
Variable sigma_of : G -> X.
Variable sukf_pred_mean : YP -> YP.
Variable sukf_upd : G -> X -> YP -> NU -> RC -> G -> G * YP.
Variable sukf_lik : NU -> YP -> RC -> LK.
Notation sukf_step_ := (sukf_step sigma_of sukf_pred_mean sukf_upd).

Lemma sukf_get_lik_None lcalls (mm : mmodel) (st : sukf_state YP NU) :
  s_innov st = None -> sukf_get_lik sukf_lik lcalls mm st = (None, []).
Proof. unfold sukf_get_lik. now intros ->. Qed.

(* the size test or a call the class honours fails, at the arguments of this very call *)
Lemma sukf_step_failure (sub_ok : bool) ncalls (mm : mmodel) pred out st :
  (mm_measure mm = None \/ sub_ok = false \/ mm_predicted mm (sigma_of pred) = None \/
   (forall y yp, mm_measure mm = Some y -> mm_predicted mm (sigma_of pred) = Some yp ->
                 mm_innovation mm (sukf_pred_mean yp) y = None)) ->
  r_out (sukf_step_ sub_ok ncalls mm pred out st) = pred /\
  s_innov (r_st (sukf_step_ sub_ok ncalls mm pred out st)) = None.
Proof.
  unfold sukf_step. intros Hf.
  destruct (mm_measure mm) as [y|] eqn:E1; simpl; [|auto].
  destruct sub_ok; simpl; [|auto].
  destruct (mm_predicted mm (sigma_of pred)) as [yp|] eqn:E2; simpl; [|auto].
  destruct (mm_innovation mm _ y) eqn:E3; simpl; [|auto].
  destruct Hf as [Hf|[Hf|[Hf|Hf]]]; try discriminate.
  rewrite (Hf y yp eq_refl eq_refl) in E3. discriminate.
Qed.
End SUKF.

Section PF.
Variable st_px : St -> X.
Variable gl_dens : NU -> RC -> LK.
Variable lk_zero1 : LK.
Notation gl_likelihood_ := (gl_likelihood st_px gl_dens).
Notation likmodel := (likmodel St LK).

(* the sensor fails at the arguments actually passed *)
Lemma gl_reports_failure_pointwise (mm : mmodel) s :
  (mm_measure mm = None \/ mm_predicted mm (st_px s) = None \/
   (forall y yp, mm_measure mm = Some y -> mm_predicted mm (st_px s) = Some yp -> mm_innovation mm yp y = None) \/
   fst (mm_noisecov mm) = false) ->
  fst (gl_likelihood_ mm s) = None.
Proof.
  unfold gl_likelihood. intros Hf.
  destruct (mm_measure mm) as [y|] eqn:E1; simpl; [|auto].
  destruct (mm_predicted mm (st_px s)) as [yp|] eqn:E2; simpl; [|auto].
  destruct (mm_innovation mm yp y) eqn:E3; simpl; [|auto].
  destruct (mm_noisecov mm) as [[|] R]; simpl in *; [|auto].
  destruct Hf as [Hf|[Hf|[Hf|Hf]]]; try discriminate.
  rewrite (Hf y yp eq_refl eq_refl) in E3. discriminate.
Qed.

(* the likelihood model under a pattern: which patterns make it fail *)
Definition lik_fails (lm : likmodel) (p : pattern) : bool :=
  match lm with LGauss => fails_any p sites4 | LCustom _ => p Likelihood end.
Notation inject_lik_ := (inject_lik lk_zero1).
Notation lik_eval_ := (lik_eval st_px gl_dens lk_zero1).

Lemma gl_fails_under_pattern (p : pattern) (mm : mmodel) s :
  fails_any p sites4 = true -> fst (gl_likelihood_ (inject p mm) s) = None.
Proof.
  intros Hf. apply gl_reports_failure_pointwise. destruct (inject_fails4 p mm Hf) as [H|[H|[H|H]]]; auto.
Qed.

Lemma lik_eval_fails (lm : likmodel) (p : pattern) (mm : mmodel) s :
  lik_fails lm p = true -> fst (lik_eval_ (inject_lik_ p lm) (inject p mm) s) = (false, lk_zero1).
Proof.
  destruct lm; simpl; intros Hf; [|now rewrite Hf].
  pose proof (gl_fails_under_pattern p mm s Hf) as E.
  destruct (gl_likelihood_ (inject p mm) s) as [o l]; simpl in *. now subst o.
Qed.

Lemma pf_get_lik_of (vl : bool * LK) : pf_get_lik (pf_state_of vl) = vl.
Proof. now destruct vl. Qed.

(* Bootstrap: output, members and call log of the step in one equation *)
Variable boot_wupd : G -> LK -> G.
Notation boot_step_ := (boot_step st_px gl_dens lk_zero1 boot_wupd).

Lemma boot_step_eq (lm : likmodel) (mm : mmodel) pred out st :
  boot_step_ lm mm pred out st =
  let le := lik_eval_ lm mm (snd pred) in
  mkRes (if fst (fst le) then (boot_wupd (fst pred) (snd (fst le)), snd pred) else pred) (pf_state_of (fst le)) (snd le).
Proof. unfold boot_step. destruct (lik_eval_ lm mm (snd pred)) as [[[|] lk] l]; reflexivity. Qed.

(* a user likelihood model that reports a value, under no fault *)
Lemma boot_no_fault_custom f (mm : mmodel) pred out st lk :
  f (snd pred) = (true, lk) ->
  boot_step_ (inject_lik_ no_fault (LCustom f)) mm pred out st =
  mkRes (boot_wupd (fst pred) lk, snd pred) (mkPfSt true lk) [Likelihood].
Proof. intros E. rewrite boot_step_eq. simpl. now rewrite E. Qed.

(* GPF *)
Variable GS : Type.
Variable gpf_sample : RNG -> G -> St -> St * RNG.
Variable gpf_wupd : pset G St -> LK -> pset G St -> G.
Notation gpf_step_ := (gpf_step st_px gl_dens lk_zero1 gpf_sample gpf_wupd).

(* the states on which the likelihood is evaluated *)
Definition gpf_states (gc : G -> G -> GS -> result G GS) (pred out : pset G St) (st : gpf_state LK RNG GS) : St :=
  fst (gpf_sample (g_rng st) (r_out (gc (fst pred) (fst out) (g_inner st))) (snd out)).

(* the step in one equation: the wrapped correction has run and the states are drawn whatever the likelihood says *)
Lemma gpf_step_eq (gc : G -> G -> GS -> result G GS) (lm : likmodel) (mm : mmodel) pred out st :
  gpf_step_ gc lm mm pred out st =
  let r := gc (fst pred) (fst out) (g_inner st) in
  let states := gpf_states gc pred out st in
  let le := lik_eval_ lm mm states in
  mkRes (if fst (fst le) then (gpf_wupd pred (snd (fst le)) (r_out r, states), states) else pred)
        (mkGpfSt (pf_state_of (fst le)) (r_st r) (snd (gpf_sample (g_rng st) (r_out r) (snd out))))
        (r_log r ++ snd le).
Proof.
  unfold gpf_step, gpf_states.
  destruct (gpf_sample _ _ _) as [states rng']. simpl.
  destruct (lik_eval_ lm mm states) as [[[|] lk] l]; reflexivity.
Qed.
End PF.

End Proofs.
Arguments inject_fails4 {Y X YP NU RC}. Arguments inject_fails3 {Y X YP NU RC}.

(* nth_ext without a default value: a non-empty list provides one *)
Lemma nth_ext_all {A} (l l' : list A) :
  length l = length l' -> (forall i d, nth i l d = nth i l' d) -> l = l'.
Proof.
  intros Hl Hn. destruct l as [|a l0]; [now destruct l'|].
  apply (nth_ext _ _ a a Hl). intros i _. apply Hn.
Qed.
