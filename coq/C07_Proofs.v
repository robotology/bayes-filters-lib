(* C07_Proofs.v — lemmas about the C07 model.  Part 1: structural facts valid
   at every arithmetic (fuel, lengths, monotone pointer, where it stops and
   what it has passed by then).  Part 2: over the
   reals (instance ROpsE e): run on any list c of cumulative weights, the
   carried pointer selects the interval (B p, B (p+1)] containing the comb
   point, for every B that c `tracks`; counts are differences of the prefix
   count `cnt`, bounded by comb_count.  Then neff, log-sum-exp, and the
   prior-mixing variant. *)
Require Import Reals ZArith List Bool Lia Lra Permutation.
Require Import BFL.Ops BFL.ListFacts BFL.C07_Model BFL.C07_ROps.
Import ListNotations.
Local Open Scope R_scope.

Lemma map_all {A B} (f : A -> B) (P : B -> Prop) l : (forall a, P (f a)) -> forall y, In y (map f l) -> P y.
Proof. intros H y Hy. apply in_map_iff in Hy. destruct Hy as [a [<- _]]. apply H. Qed.

Lemma pos_length_nonempty {A} (l : list A) : (0 < length l)%nat -> l <> [].
Proof. intros H E. rewrite E in H. inversion H. Qed.

Lemma map_const_repeat {A B} (c : B) (l : list A) : map (fun _ => c) l = repeat c (length l).
Proof. induction l; simpl; congruence. Qed.

Lemma perm_seq_In (l : list nat) n i : Permutation l (seq 0 n) -> In i l <-> (i < n)%nat.
Proof.
  intro H. split; intro Hi.
  - apply (Permutation_in _ H), in_seq in Hi. lia.
  - apply (Permutation_in _ (Permutation_sym H)), in_seq. lia.
Qed.

Lemma Rabs_le_both x a : Rabs x <= a <-> - a <= x <= a.
Proof. unfold Rabs. destruct (Rcase_abs x); split; intros; lra. Qed.

Lemma nth_repeat_lt {A} (a d : A) m j : (j < m)%nat -> nth j (repeat a m) d = a.
Proof. revert j; induction m; intros j H; [lia|]. destruct j; simpl; auto. apply IHm. lia. Qed.

(* the copy loop: entry r of the output is entry k_r of the input *)
Lemma pick_length {A} (q : list A) (k : list nat) : q <> [] ->
  length (match q with [] => [] | d :: _ => map (fun i => nth i q d) k end) = length k.
Proof. destruct q; [congruence|]. intros _. apply map_length. Qed.

Lemma pick_nth {A} (q : list A) (k : list nat) r d : (r < length k)%nat -> (nth r k 0 < length q)%nat ->
  nth r (match q with [] => [] | d0 :: _ => map (fun i => nth i q d0) k end) d = nth (nth r k 0%nat) q d.
Proof.
  intros Hr Hq. destruct q as [|p0 q']; [inversion Hq|]. rewrite (nth_map_in _ k r d 0%nat Hr). apply nth_indep, Hq.
Qed.

Section Structural.
Variable S : SOps.

Lemma keep_going_true c N u idx :
  keep_going S c N u idx = true -> (idx < N - 1)%nat /\ sltb S (nth idx c (s0 S)) u = true.
Proof. unfold keep_going. rewrite andb_true_iff, Nat.ltb_lt. tauto. Qed.

Lemma advance_ge f c N u idx : (idx <= advance S f c N u idx)%nat.
Proof.
  revert idx; induction f; intros; simpl; [lia|].
  destruct (keep_going S c N u idx); [specialize (IHf (Datatypes.S idx)); lia | lia].
Qed.

Lemma advance_le f c N u idx : (idx <= N - 1)%nat -> (advance S f c N u idx <= N - 1)%nat.
Proof.
  revert idx; induction f; intros idx H; simpl; auto.
  destruct (keep_going S c N u idx) eqn:E; auto. apply keep_going_true in E. apply IHf. lia.
Qed.

Lemma keep_going_end c N u idx : (N - 1 <= idx)%nat -> keep_going S c N u idx = false.
Proof.
  intro H. unfold keep_going. replace (idx <? N - 1)%nat with false by (symmetry; apply Nat.ltb_ge; exact H).
  apply andb_false_r.
Qed.

(* the loop ends because its guard fails, never because the fuel ran out *)
Lemma advance_stops f c N u idx :
  (N - 1 - idx <= f)%nat -> keep_going S c N u (advance S f c N u idx) = false.
Proof.
  revert idx; induction f; intros idx H; simpl.
  - apply keep_going_end. lia.
  - destruct (keep_going S c N u idx) eqn:E; auto. apply IHf. lia.
Qed.

Lemma advance_fuel c N u idx : keep_going S c N u (advance S N c N u idx) = false.
Proof. apply advance_stops. lia. Qed.

(* more fuel does not change the result *)
Lemma advance_more_fuel f k c N u idx :
  (N - 1 - idx <= f)%nat -> advance S (f + k) c N u idx = advance S f c N u idx.
Proof.
  revert idx; induction f; intros idx H; simpl.
  - destruct k; simpl; auto. rewrite keep_going_end by lia. reflexivity.
  - destruct (keep_going S c N u idx) eqn:E; auto. apply IHf. lia.
Qed.

Lemma advance_skipped f c N u idx i :
  (idx <= i < advance S f c N u idx)%nat -> sltb S (nth i c (s0 S)) u = true.
Proof.
  revert idx; induction f; intros idx H; simpl in H; [lia|].
  destruct (keep_going S c N u idx) eqn:E; [|lia]. apply keep_going_true in E.
  destruct (Nat.eq_dec i idx) as [->|]; [tauto|]. apply (IHf (Datatypes.S idx)); lia.
Qed.

Lemma advance_stay f c N u idx : sltb S (nth idx c (s0 S)) u = false -> advance S f c N u idx = idx.
Proof. intro H. destruct f; [reflexivity|]. simpl. unfold keep_going. rewrite H. reflexivity. Qed.

Lemma res_loop_length c N u1 k j idx : length (res_loop S c N u1 k j idx) = k.
Proof. revert j idx; induction k; intros; simpl; auto. Qed.

Lemma res_loop_ge c N u1 k j idx t :
  (t < k)%nat -> (idx <= nth t (res_loop S c N u1 k j idx) 0)%nat.
Proof.
  revert j idx t; induction k; intros j idx t H; [lia|]. simpl.
  pose proof (advance_ge N c N (comb S N u1 j) idx).
  destruct t; auto. specialize (IHk (Datatypes.S j) (advance S N c N (comb S N u1 j) idx) t). lia.
Qed.

Lemma res_loop_le c N u1 k j idx t :
  (idx <= N - 1)%nat -> (t < k)%nat -> (nth t (res_loop S c N u1 k j idx) 0 <= N - 1)%nat.
Proof.
  revert j idx t; induction k; intros j idx t Hi H; [lia|]. simpl.
  pose proof (advance_le N c N (comb S N u1 j) idx Hi).
  destruct t; auto. apply IHk; auto. lia.
Qed.

Lemma res_loop_mono c N u1 k j idx a b :
  (a <= b < k)%nat ->
  (nth a (res_loop S c N u1 k j idx) 0 <= nth b (res_loop S c N u1 k j idx) 0)%nat.
Proof.
  revert j idx a b; induction k; intros j idx a b H; [lia|]. simpl.
  destruct a, b; try lia.
  - apply res_loop_ge. lia.
  - apply IHk. lia.
Qed.

(* output t is where the guard fails for comb point j + t ... *)
Lemma res_loop_stops c N u1 k j idx t : (t < k)%nat ->
  keep_going S c N (comb S N u1 (j + t)) (nth t (res_loop S c N u1 k j idx) 0%nat) = false.
Proof.
  revert j idx t; induction k; intros j idx t H; [lia|]. simpl. destruct t.
  - rewrite Nat.add_0_r. apply advance_fuel.
  - rewrite <- Nat.add_succ_comm. apply IHk. lia.
Qed.

(* ... and every entry the pointer has passed by then was below comb point j + s of some earlier round s *)
Lemma res_loop_skipped c N u1 k j idx t i :
  (t < k)%nat -> (idx <= i < nth t (res_loop S c N u1 k j idx) 0)%nat ->
  exists s, (s <= t)%nat /\ sltb S (nth i c (s0 S)) (comb S N u1 (j + s)) = true.
Proof.
  revert j idx t; induction k; intros j idx t H Hi; [lia|]. simpl in Hi.
  destruct (lt_dec i (advance S N c N (comb S N u1 j) idx)) as [Hlt|Hge].
  - exists 0%nat. rewrite Nat.add_0_r. split; [lia|]. apply (advance_skipped N c N _ idx). lia.
  - destruct t; [lia|].
    destruct (IHk (Datatypes.S j) (advance S N c N (comb S N u1 j) idx) t) as [s [Hs E]]; [lia | lia |].
    exists (Datatypes.S s). rewrite <- Nat.add_succ_comm. split; [lia | exact E].
Qed.

Lemma res_parents_length lw u1 : length (res_parents S lw u1) = length lw.
Proof. apply res_loop_length. Qed.

Lemma res_parents_lt lw u1 j : (j < length lw)%nat -> (nth j (res_parents S lw u1) 0 < length lw)%nat.
Proof.
  intro H. pose proof (res_loop_le (csw S lw) (length lw) u1 (length lw) 0 0 j ltac:(lia) H).
  unfold res_parents. lia.
Qed.

Lemma resample_lengths {P} (ps : list P) lw u1 :
  ps <> [] ->
  let '(out, w, par) := @resample S _ ps lw u1 in
  length out = length lw /\ length w = length lw /\ length par = length lw.
Proof.
  intros Hps. unfold resample. rewrite pick_length, map_length, res_parents_length; auto.
Qed.

Lemma resample_copy {P} (ps : list P) lw u1 d j :
  ps <> [] -> (j < length lw)%nat -> length ps = length lw ->
  let '(out, w, par) := @resample S _ ps lw u1 in
  nth j out d = nth (nth j par 0%nat) ps d.
Proof.
  intros Hps Hj Hl. unfold resample.
  apply pick_nth; [rewrite res_parents_length; exact Hj | rewrite Hl; apply res_parents_lt; exact Hj].
Qed.

Lemma resample_uniform {P} (ps : list P) lw u1 :
  snd (fst (@resample S _ ps lw u1)) = repeat (log_uniform S (length lw)) (length lw).
Proof. unfold resample. cbn [fst snd]. rewrite map_const_repeat, res_parents_length. reflexivity. Qed.

Lemma resample_weights {P} (ps : list P) lw u1 x :
  let '(out, w, par) := @resample S _ ps lw u1 in In x w -> x = log_uniform S (length lw).
Proof. unfold resample. intro H. apply in_map_iff in H. destruct H as [? [H _]]. auto. Qed.

(* the three-member form of the loop body (Resampling.cpp:88-90) *)
Lemma copy_members_eq {A B C} (ps : list (particle A B C)) d i : copy_members ps d i = nth i ps d.
Proof. unfold copy_members. destruct (nth i ps d); reflexivity. Qed.

Lemma resample3_eq {A B C} (ps : list (particle A B C)) lw u1 :
  @resample3 S A B C ps lw u1 = @resample S _ ps lw u1.
Proof.
  unfold resample3, resample. destruct ps as [|d ps']; [reflexivity|]. f_equal. f_equal.
  apply map_ext. intro i. apply copy_members_eq.
Qed.

End Structural.

(* cntb f k = #{t < k : f t} *)
Fixpoint cntb (f : nat -> bool) (k : nat) : nat :=
  match k with O => O | Datatypes.S k' => (cntb f k' + (if f k' then 1 else 0))%nat end.

Lemma cntb_ext f g k : (forall t, (t < k)%nat -> f t = g t) -> cntb f k = cntb g k.
Proof. induction k; intro H; simpl; auto. rewrite IHk, (H k); auto. Qed.

Lemma cntb_shift f k :
  cntb f (Datatypes.S k) = ((if f 0%nat then 1 else 0) + cntb (fun t => f (Datatypes.S t)) k)%nat.
Proof. induction k; [simpl; lia|]. change (cntb f (Datatypes.S (Datatypes.S k))) with (cntb f (Datatypes.S k) + (if f (Datatypes.S k) then 1 else 0))%nat. rewrite IHk. simpl. lia. Qed.

Lemma count_occ_cntb l i :
  count_occ Nat.eq_dec l i = cntb (fun t => Nat.eqb (nth t l 0%nat) i) (length l).
Proof.
  induction l as [|a l IH]; [reflexivity|].
  change (length (a :: l)) with (Datatypes.S (length l)). rewrite cntb_shift. simpl nth.
  simpl count_occ. destruct (Nat.eq_dec a i) as [->|n].
  - rewrite Nat.eqb_refl, IH. reflexivity.
  - apply Nat.eqb_neq in n. rewrite n, IH. reflexivity.
Qed.

Definition sumR (l : list R) : R := fold_right Rplus 0 l.

Lemma fold_left_Rplus l a : fold_left Rplus l a = a + sumR l.
Proof. revert a; induction l; intro a0; simpl; [lra | rewrite IHl; lra]. Qed.

(* sum of the first i elements *)
Fixpoint psum (w : list R) (i : nat) {struct i} : R :=
  match i with
  | O => 0
  | Datatypes.S i' => match w with [] => 0 | x :: r => x + psum r i' end
  end.

Lemma psum_nil i : psum [] i = 0. Proof. destruct i; reflexivity. Qed.
Lemma psum_cons x w i : psum (x :: w) (Datatypes.S i) = x + psum w i. Proof. reflexivity. Qed.
Lemma psum_all w i : (length w <= i)%nat -> psum w i = sumR w.
Proof.
  revert i; induction w; intros i H; [apply psum_nil|]. simpl in H. destruct i; [lia|].
  simpl. rewrite IHw; [auto|lia].
Qed.
Lemma psum_step w i : psum w (Datatypes.S i) = psum w i + nth i w 0.
Proof.
  revert i; induction w; intro i; [rewrite !psum_nil; destruct i; simpl; lra|]. destruct i.
  - simpl. lra.
  - rewrite !psum_cons, IHw. simpl. lra.
Qed.
Lemma psum_mono w i j : (forall x, In x w -> 0 <= x) -> (i <= j)%nat -> psum w i <= psum w j.
Proof.
  intros Hn Hij. induction Hij as [|m _ IH]; [lra|]. rewrite psum_step.
  destruct (nth_in_or_default m w 0) as [H|H]; [apply Hn in H | rewrite H]; lra.
Qed.

Section RealsE.
Variable e : R -> R.
Notation SE := (ROpsE e).

Lemma sltb_SE a b : sltb SE a b = Rltb a b. Proof. reflexivity. Qed.
Lemma sleb_SE a b : sleb SE a b = Rleb a b. Proof. reflexivity. Qed.

Lemma comb_R N (u1 : R) j : comb SE N u1 j = u1 + INR j / INR N.
Proof. unfold comb. rewrite !sofnat_R. reflexivity. Qed.

Lemma log_uniform_R N : log_uniform SE N = - ln (INR N).
Proof. unfold log_uniform. rewrite sofnat_R. reflexivity. Qed.

Lemma ssum_R (l : list R) : ssum SE l = sumR l.
Proof. unfold ssum. change (sadd SE) with Rplus. rewrite fold_left_Rplus. apply Rplus_0_l. Qed.

Lemma csw_from_nth (acc : R) (l : list R) i :
  (i < length l)%nat -> nth i (csw_from SE acc l) 0 = acc + psum (map e l) (Datatypes.S i).
Proof.
  revert acc i; induction l as [|x l IH]; intros acc i H; [simpl in H; lia|].
  destruct i.
  - simpl. lra.
  - simpl in H. simpl csw_from. simpl nth. rewrite IH by lia. simpl map. rewrite (psum_cons (e x)). simpl. lra.
Qed.

(* the library starts the running sum at exp(w(0)), not at 0 + exp(w(0)) *)
Lemma csw_csw_from (lw : list R) : csw SE lw = csw_from SE 0 lw.
Proof.
  destruct lw as [|x l]; [reflexivity|]. cbn [csw csw_from]. change (sadd SE 0 (sexp SE x)) with (0 + e x).
  rewrite Rplus_0_l. reflexivity.
Qed.

Lemma csw_nth (lw : list R) i :
  (i < length lw)%nat -> nth i (csw SE lw : list R) 0 = psum (map e lw) (Datatypes.S i).
Proof. intro H. rewrite csw_csw_from, csw_from_nth by exact H. apply Rplus_0_l. Qed.

Lemma csw_length (lw : list R) : length (csw SE lw) = length lw.
Proof.
  destruct lw as [|x l]; auto. simpl. f_equal. generalize (e x). induction l; intro a0; simpl; auto.
Qed.

End RealsE.

(* the comb points u_j = u1 + j/N and how many of them lie below a level *)
Section Comb.
Variables (lw : list R) (u1 : R).
Notation N := (length lw).
Hypothesis Npos : (0 < N)%nat.
Hypothesis u1lo : 0 < u1.
Hypothesis u1hi : u1 * INR N < 1.

Definition u (j : nat) : R := u1 + INR j / INR N.

Lemma INRN_pos : 0 < INR N. Proof. apply lt_0_INR; exact Npos. Qed.

(* in units of 1/N beyond u1, comb point j is j *)
Lemma u_scaled j : INR N * (u j - u1) = INR j.
Proof. unfold u. field. pose proof INRN_pos. lra. Qed.

Lemma u_mono i j : (i <= j)%nat -> u i <= u j.
Proof. intro H. apply le_INR in H. pose proof INRN_pos. pose proof (u_scaled i). pose proof (u_scaled j). nra. Qed.

Lemma u_ge_u1 j : u1 <= u j.
Proof. replace u1 with (u 0) at 1. apply u_mono; lia. unfold u. simpl. unfold Rdiv. lra. Qed.

Lemma u_lt_1 j : (j < N)%nat -> u j < 1.
Proof.
  intro H. pose proof INRN_pos as HN. pose proof (u_scaled j).
  assert (INR j + 1 <= INR N) by (rewrite <- S_INR; apply le_INR; lia). nra.
Qed.

(* prefix count of comb points: cnt x k = #{t < k : u_t <= x} *)
Definition cnt (x : R) (k : nat) : nat := cntb (fun t => Rleb (u t) x) k.

Lemma cnt_prefix x k : (cnt x k <= k)%nat /\ (forall j, (j < cnt x k)%nat -> u j <= x) /\
                        (forall j, (cnt x k <= j < k)%nat -> x < u j).
Proof.
  induction k as [|k [IH1 [IH2 IH3]]]; [unfold cnt; simpl; repeat split; intros; lia|].
  change (cnt x (Datatypes.S k)) with (cnt x k + (if Rleb (u k) x then 1 else 0))%nat.
  destruct (Rleb (u k) x) eqn:E.
  - apply Rleb_true in E.
    (* u_k <= x, so all earlier comb points are counted too *)
    assert (E' : cnt x k = k).
    { destruct (Nat.eq_dec (cnt x k) k) as [|Hne]; auto. exfalso.
      pose proof (IH3 (cnt x k) ltac:(lia)). pose proof (u_mono (cnt x k) k ltac:(lia)). lra. }
    rewrite E'. repeat split; try lia. intros j Hj. pose proof (u_mono j k ltac:(lia)). lra.
  - apply Rleb_false in E. rewrite Nat.add_0_r. repeat split; try lia; auto.
    intros j Hj. destruct (Nat.eq_dec j k) as [->|]; [lra | apply IH3; lia].
Qed.

Lemma cnt_bounds x : 0 <= x <= 1 ->
  INR (cnt x N) - 1 <= INR N * (x - u1) < INR (cnt x N).
Proof.
  intros [x0 x1]. destruct (cnt_prefix x N) as [H1 [H2 H3]]. pose proof INRN_pos as HN.
  set (t := cnt x N) in *. split.
  - (* the last comb point counted, if there is one, is <= x *)
    destruct t as [|t'] eqn:Et; [simpl; nra|].
    pose proof (H2 t' ltac:(lia)). rewrite S_INR, <- (u_scaled t'). nra.
  - (* the first one not counted, if there is one, is > x *)
    destruct (Nat.eq_dec t N) as [E|NE]; [rewrite E; nra|].
    pose proof (H3 t ltac:(lia)). rewrite <- (u_scaled t). nra.
Qed.

(* the number of comb points in (a, b] differs from N (b - a) by less than one *)
Theorem comb_count a b : 0 <= a <= b -> b <= 1 ->
  Rabs (INR (cnt b N) - INR (cnt a N) - INR N * (b - a)) < 1.
Proof.
  intros Ha Hb. pose proof (cnt_bounds a ltac:(lra)). pose proof (cnt_bounds b ltac:(lra)).
  apply Rabs_def1; lra.
Qed.

Lemma cnt_interval a b k : a <= b ->
  (cnt a k + cntb (fun t => Rltb a (u t) && Rleb (u t) b) k = cnt b k)%nat.
Proof.
  clear Npos.   (* lia would put it into the proof term, and the lemma would take 0 < N for nothing *)
  intro H. unfold cnt. induction k; simpl; auto. rewrite <- IHk.
  (* u_k <= a counts on the left only, a < u_k counts on both sides iff u_k <= b *)
  destruct (Rleb (u k) a) eqn:E1.
  - apply Rleb_true in E1. rewrite (proj2 (Rltb_false a (u k)) E1), (proj2 (Rleb_true (u k) b)) by lra. simpl. lia.
  - apply Rleb_false in E1. rewrite (proj2 (Rltb_true a (u k)) E1). simpl. destruct (Rleb (u k) b); lia.
Qed.

End Comb.

(* B 0 = 0 <= B 1 <= ... <= B N = 1 are the interval bounds that the carried-pointer loop sees through the list c of
   cumulative weights: entry i < N-1 compares with every comb point (all are < 1) as B (i+1) does; the last entry is
   never decisive, there the guard idx < N-1 stops the pointer.  Instances: c = csw lw with B = the exact partial
   sums (tracks_csw), and any non-decreasing c with B = c cut at 1 (C07_Rounding.tracks_clamp). *)
Definition tracks (N : nat) (c : list R) (B : nat -> R) : Prop :=
  B 0%nat = 0 /\ B N = 1 /\ (forall i, (i < N)%nat -> B i <= B (Datatypes.S i)) /\
  forall i x, (i < N - 1)%nat -> x < 1 -> (nth i c 0 < x <-> B (Datatypes.S i) < x).

Section Selection.
Variables (e : R -> R) (lw c : list R) (u1 : R) (B : nat -> R).
Notation SE := (ROpsE e).
Notation N := (length lw).
Notation u := (u lw u1).
Notation cnt := (cnt lw u1).
Notation par := (res_loop SE c N u1 N 0 0).
Hypothesis Npos : (0 < N)%nat.
Hypothesis u1lo : 0 < u1.
Hypothesis u1hi : u1 * INR N < 1.
Hypothesis HB : tracks N c B.

(* the comb points only grow, so whatever the pointer has passed lies below the current one; hence
   the carried pointer selects the interval (B p, B (p+1)] that contains u_t *)
Lemma parent_interval t : (t < N)%nat ->
  let p := nth t par 0%nat in (p < N)%nat /\ B p < u t <= B (Datatypes.S p).
Proof.
  intros Ht p. pose proof HB as [B0 [BN [_ Bc]]].
  pose proof (res_loop_le SE c N u1 N 0 0 t ltac:(lia) Ht) as Hp. fold p in Hp.
  pose proof (u_lt_1 lw u1 Npos u1hi t Ht) as U1.
  split; [lia|]. split.
  - destruct p as [|p'] eqn:E.
    + rewrite B0. pose proof (u_ge_u1 lw u1 Npos t). lra.
    + apply Bc; [lia | exact U1 |].
      destruct (res_loop_skipped SE c N u1 N 0 0 t p' Ht) as [s [Hs G]]; [fold p; lia|].
      rewrite sltb_SE, comb_R in G. apply Rltb_true in G.
      apply Rlt_le_trans with (u s); [exact G | apply u_mono; [exact Npos | exact Hs]].
  - destruct (Nat.eq_dec p (N - 1)) as [E|E].
    + rewrite E. replace (Datatypes.S (N - 1)) with N by lia. rewrite BN. lra.
    + pose proof (res_loop_stops SE c N u1 N 0 0 t Ht) as G. fold p in G.
      unfold keep_going in G. apply andb_false_iff in G. destruct G as [G|G]; [|apply Nat.ltb_ge in G; lia].
      rewrite sltb_SE, comb_R in G. apply Rltb_false in G. change (u t <= nth p c 0) in G.
      apply Rnot_lt_le. intro H. apply Bc in H; [lra | lia | exact U1].
Qed.

(* an empty interval holds no comb point *)
Lemma empty_not_selected i : B (Datatypes.S i) = B i -> ~ In i par.
Proof.
  intros Hz Hin. destruct (In_nth _ _ 0%nat Hin) as [t [Ht E]]. rewrite res_loop_length in Ht.
  destruct (parent_interval t Ht) as [_ P]. rewrite E, Hz in P. lra.
Qed.

Lemma B_mono i j : (i <= j <= N)%nat -> B i <= B j.
Proof.
  pose proof HB as [_ [_ [Bs _]]]. intros [Hij Hj]. revert Hj. induction Hij as [|m Hm IH]; intro Hj; [lra|].
  apply Rle_trans with (B m); [apply IH; lia | apply Bs; lia].
Qed.

(* the intervals are disjoint: output t has parent i exactly when u_t lies in interval i *)
Lemma parent_iff t i : (t < N)%nat -> (i < N)%nat ->
  nth t par 0%nat = i <-> B i < u t <= B (Datatypes.S i).
Proof.
  intros Ht Hi. destruct (parent_interval t Ht) as [Hp P]. set (p := nth t par 0%nat) in *.
  split; [intros <-; exact P|]. intros [I1 I2]. destruct P as [P1 P2].
  destruct (lt_eq_lt_dec p i) as [[H|H]|H]; auto; exfalso.
  - pose proof (B_mono (Datatypes.S p) i ltac:(lia)). lra.
  - pose proof (B_mono (Datatypes.S i) p ltac:(lia)). lra.
Qed.

(* hence particle i is selected once for every comb point in (B i, B (i+1)] *)
Lemma count_is_cnt_diff i : (i < N)%nat ->
  (cnt (B i) N + count_occ Nat.eq_dec par i = cnt (B (Datatypes.S i)) N)%nat.
Proof.
  intro Hi. rewrite <- (cnt_interval lw u1 (B i) (B (Datatypes.S i)) N) by (apply B_mono; lia).
  f_equal. rewrite count_occ_cntb, res_loop_length.
  apply cntb_ext. intros t Ht. apply eq_true_iff_eq.
  rewrite Nat.eqb_eq, andb_true_iff, Rltb_true, Rleb_true. apply parent_iff; assumption.
Qed.

Theorem count_bound i : (i < N)%nat ->
  Rabs (INR (count_occ Nat.eq_dec par i) - INR N * (B (Datatypes.S i) - B i)) < 1.
Proof.
  intro Hi. pose proof HB as [B0 [BN _]].
  replace (INR (count_occ Nat.eq_dec par i)) with (INR (cnt (B (Datatypes.S i)) N) - INR (cnt (B i) N))
    by (rewrite <- (count_is_cnt_diff i Hi), plus_INR; lra).
  apply (comb_count lw u1 Npos u1lo u1hi).
  - split; [rewrite <- B0 at 1 | ]; apply B_mono; lia.
  - rewrite <- BN. apply B_mono; lia.
Qed.

(* bounds B' within delta of B move the expected count N (B (i+1) - B i) by at most 2 N delta *)
Corollary count_bound_near (B' : nat -> R) delta i : (i < N)%nat ->
  Rabs (B i - B' i) <= delta -> Rabs (B (Datatypes.S i) - B' (Datatypes.S i)) <= delta ->
  Rabs (INR (count_occ Nat.eq_dec par i) - INR N * (B' (Datatypes.S i) - B' i)) < 1 + 2 * INR N * delta.
Proof.
  intros Hi D0 D1. pose proof (count_bound i Hi) as CB. pose proof (INRN_pos lw Npos) as HN.
  apply Rabs_le_both in D0, D1. apply Rabs_def2 in CB. apply Rabs_def1; nra.
Qed.

Corollary wide_selected i : (i < N)%nat -> / INR N <= B (Datatypes.S i) - B i -> In i par.
Proof.
  intros Hi Hw. apply (count_occ_In Nat.eq_dec). pose proof (count_bound i Hi) as H.
  pose proof (INRN_pos lw Npos) as HN.
  assert (1 <= INR N * (B (Datatypes.S i) - B i)).
  { replace 1 with (INR N * / INR N) by (field; lra). apply Rmult_le_compat_l; lra. }
  destruct (count_occ Nat.eq_dec par i); [|lia]. exfalso.
  simpl in H. apply Rabs_def2 in H. lra.
Qed.

End Selection.

(* the exact partial sums of weights e(lw_i) >= 0 of sum 1, seen through csw lw *)
Lemma psum_map_step (e : R -> R) lw i : (i < length lw)%nat ->
  psum (map e lw) (Datatypes.S i) = psum (map e lw) i + e (nth i lw 0).
Proof.
  intro H. rewrite psum_step. f_equal. apply nth_map_in, H.
Qed.

Lemma tracks_csw (e : R -> R) lw : (forall x, 0 <= e x) -> sumR (map e lw) = 1 ->
  tracks (length lw) (csw (ROpsE e) lw) (psum (map e lw)).
Proof.
  intros He Hs. split; [reflexivity|]. split; [|split].
  - rewrite psum_all by (rewrite map_length; lia). exact Hs.
  - intros i _. apply psum_mono; [apply (map_all e (fun y => 0 <= y)), He | lia].
  - intros i x Hi _. rewrite csw_nth by lia. tauto.
Qed.

Lemma sumR_nonneg w : (forall y, In y w -> 0 <= y) -> 0 <= sumR w.
Proof.
  induction w; intro H; simpl; [lra|]. assert (0 <= a) by (apply H; left; auto).
  assert (0 <= sumR w) by (apply IHw; intros; apply H; right; auto). lra.
Qed.

(* for non-negative terms the sum of the squares is at most the square of the sum *)
Lemma sumsq_le_sq w : (forall y, In y w -> 0 <= y) -> sumR (map (fun x => x * x) w) <= sumR w * sumR w.
Proof.
  induction w as [|a w IH]; intro H; simpl; [lra|].
  assert (0 <= a) by (apply H; left; auto).
  assert (Hw : forall y, In y w -> 0 <= y) by (intros; apply H; right; auto).
  pose proof (sumR_nonneg w Hw). pose proof (IH Hw). nra.
Qed.

Lemma sum_centered_sq w m :
  sumR (map (fun x => (x - m) * (x - m)) w)
  = sumR (map (fun x => x * x) w) - 2 * m * sumR w + INR (length w) * m * m.
Proof.
  induction w as [|a w IH]; [simpl; lra|].
  change (length (a :: w)) with (Datatypes.S (length w)). rewrite S_INR. simpl map. simpl sumR. rewrite IH. ring.
Qed.

(* Cauchy-Schwarz with the constant vector, for sum 1 *)
Lemma sumsq_ge_inv w : w <> [] -> sumR w = 1 -> / INR (length w) <= sumR (map (fun x => x * x) w).
Proof.
  intros Hne Hs. assert (HN : 0 < INR (length w)).
  { apply lt_0_INR. destruct w; [congruence | simpl; lia]. }
  pose proof (sum_centered_sq w (/ INR (length w))) as E.
  assert (0 <= sumR (map (fun x => (x - / INR (length w)) * (x - / INR (length w))) w)).
  { apply sumR_nonneg, map_all. intro x. apply (Rle_0_sqr (x - / INR (length w))). }
  rewrite Hs in E.
  replace (INR (length w) * / INR (length w) * / INR (length w)) with (/ INR (length w)) in E by (field; lra).
  lra.
Qed.

Lemma neff_formula (e : R -> R) (lw : list R) : neff (ROpsE e) lw = 1 / sumR (map (fun x => e x * e x) lw).
Proof. unfold neff. rewrite ssum_R. reflexivity. Qed.

Lemma sumR_scal c l : sumR (map (fun a => c * a) l) = c * sumR l.
Proof. induction l; simpl; [ring | rewrite IHl; ring]. Qed.

Lemma sumR_map_pos {A} (f : A -> R) l : l <> [] -> (forall a, 0 < f a) -> 0 < sumR (map f l).
Proof.
  intros H Hf. destruct l as [|a l]; [congruence|]. simpl. pose proof (Hf a).
  assert (0 <= sumR (map f l)) by (apply sumR_nonneg, (map_all f (fun y => 0 <= y)); intro b; apply Rlt_le, Hf). lra.
Qed.

Lemma sum_exp_pos l : l <> [] -> 0 < sumR (map exp l).
Proof. intro H. exact (sumR_map_pos exp l H exp_pos). Qed.

(* utils::log_sum_exp as the library computes it: the pivot plus the logarithm of the shifted sum *)
Lemma lse_R x0 r :
  lse ROps (x0 :: r) = smaxl ROps x0 r + ln (sumR (map (fun a => exp (a - smaxl ROps x0 r)) (x0 :: r))).
Proof. unfold lse. cbv zeta. rewrite (ssum_R exp). reflexivity. Qed.

(* utils::log_sum_exp computes ln (sum exp), whatever pivot the max search returns *)
Theorem lse_spec (l : list R) : l <> [] -> lse ROps l = ln (sumR (map exp l)).
Proof.
  destruct l as [|x0 r]; [congruence|]. intros _. rewrite lse_R.
  set (mx := smaxl ROps x0 r). set (xs := x0 :: r).
  assert (E : map exp xs = map (fun a => exp mx * a) (map (fun a => exp (a - mx)) xs)).
  { rewrite map_map. apply map_ext; intro a. rewrite <- exp_plus. f_equal; ring. }
  rewrite E, sumR_scal, ln_mult, ln_exp; [reflexivity | apply exp_pos |].
  apply sumR_map_pos; [discriminate | intro a; apply exp_pos].
Qed.

Lemma lse_normalise_sum (l : list R) : l <> [] -> sumR (map exp (lse_normalise ROps l)) = 1.
Proof.
  intro H. unfold lse_normalise. rewrite lse_spec by auto. rewrite map_map.
  change (fun x : T ROps => exp (ssub ROps x (ln (sumR (map exp l))))) with (fun x => exp (x - ln (sumR (map exp l)))).
  pose proof (sum_exp_pos l H) as Hp.
  rewrite (map_ext _ (fun x => / sumR (map exp l) * exp x)).
  - rewrite <- (map_map exp (fun y => / sumR (map exp l) * y)), sumR_scal. field. lra.
  - intro a. unfold Rminus. rewrite exp_plus, exp_Ropp, exp_ln by auto. ring.
Qed.

Lemma lse_normalise_length (S : SOps) l : length (lse_normalise S l) = length l.
Proof. unfold lse_normalise. apply map_length. Qed.

Lemma lse_normalised_zero (l : list R) : l <> [] -> lse ROps (lse_normalise ROps l) = 0.
Proof.
  intro H. rewrite lse_spec, lse_normalise_sum, ln_1; auto.
  destruct l; [congruence|]. unfold lse_normalise. simpl. congruence.
Qed.

Section PriorStructural.
Variable S : SOps.

Lemma ins_perm x l : Permutation (ins S x l) (x :: l).
Proof.
  induction l as [|h t IH]; simpl; auto. destruct (sleb S (fst x) (fst h)); auto.
  apply perm_trans with (h :: x :: t); [apply perm_skip; auto | apply perm_swap].
Qed.

Lemma fold_ins_perm L : Permutation (fold_right (ins S) [] L) L.
Proof. induction L; simpl; auto. apply perm_trans with (a :: fold_right (ins S) [] L); [apply ins_perm | auto]. Qed.

Lemma sort_pairs_perm keys : Permutation (sort_pairs S keys) (combine keys (seq 0 (length keys))).
Proof. apply fold_ins_perm. Qed.

(* every pair of the sorted list is (key of i, i) for an index i *)
Lemma sort_pairs_In keys d p :
  In p (sort_pairs S keys) -> (snd p < length keys)%nat /\ fst p = nth (snd p) keys d.
Proof.
  intro H. apply (Permutation_in _ (sort_pairs_perm keys)) in H. destruct (In_nth _ _ (d, 0%nat) H) as [n [Hn E]].
  rewrite combine_length, seq_length, Nat.min_id in Hn.
  rewrite combine_nth, seq_nth in E by (rewrite ?seq_length; auto). subst p. simpl. split; [exact Hn | reflexivity].
Qed.

Lemma sort_idx_perm keys : Permutation (sort_idx S keys) (seq 0 (length keys)).
Proof.
  unfold sort_idx. rewrite <- (map_snd_combine keys (seq 0 (length keys))) at 1 by (rewrite seq_length; auto).
  apply Permutation_map, sort_pairs_perm.
Qed.

Lemma sort_idx_length keys : length (sort_idx S keys) = length keys.
Proof. rewrite (Permutation_length (sort_idx_perm keys)). apply seq_length. Qed.

Lemma sort_idx_range keys a : (a < length keys)%nat -> (nth a (sort_idx S keys) 0 < length keys)%nat.
Proof.
  intro H. apply (perm_seq_In _ _ _ (sort_idx_perm keys)), nth_In. rewrite sort_idx_length. exact H.
Qed.

Lemma floor_upto_le n x : (floor_upto S n x <= n)%nat.
Proof. induction n; simpl; auto. destruct (sleb S (sofnat S (Datatypes.S n)) x); lia. Qed.

Lemma num_prior_le N ratio : (num_prior S N ratio <= N)%nat.
Proof. apply floor_upto_le. Qed.

Section Shape.
Context {P : Type}.
Variables (init : nat -> list P) (ratio : T S) (ps : list P) (lw : list (T S)) (u1 : T S).
Notation N := (length ps).
Notation np := (num_prior S N ratio).
Notation srt := (sort_idx S (map (sexp S) lw)).
Hypothesis Hlen : length lw = N.
Hypothesis Npos : (0 < N)%nat.
(* contract of ParticleSetInitialization::initialize: the size of the set is kept *)
Hypothesis Hinit : length (init np) = np.

Definition tmp_lw : list (T S) := lse_normalise S (map (fun i => nth i lw (s0 S)) (skipn np srt)).
Definition tmp_ps : list P := match ps with [] => [] | d :: _ => map (fun i => nth i ps d) (skipn np srt) end.
Definition rpar : list nat := res_parents S tmp_lw u1.

Lemma resample_prior_eq :
  @resample_prior S P init ratio ps lw u1 =
  (mkPset (np + (N - np))
          (init np ++ fst (fst (@resample S P tmp_ps tmp_lw u1)))
          (map (fun _ => log_uniform S N)
               (repeat (sdiv S (s1 S) (sofnat S np)) np ++ map (fun _ => log_uniform S (length tmp_lw)) rpar)),
   repeat (-1)%Z np ++ map (fun p => Z.of_nat (nth (p + np) srt 0%nat)) rpar).
Proof. reflexivity. Qed.

Lemma kept_length : length (skipn np srt) = (N - np)%nat.
Proof. rewrite skipn_length, sort_idx_length, map_length, Hlen. reflexivity. Qed.
Lemma tmp_lw_length : length tmp_lw = (N - np)%nat.
Proof. unfold tmp_lw. rewrite lse_normalise_length, map_length. apply kept_length. Qed.
Lemma tmp_ps_length : length tmp_ps = (N - np)%nat.
Proof. unfold tmp_ps. rewrite pick_length; [apply kept_length | apply pos_length_nonempty, Npos]. Qed.
Lemma rpar_length : length rpar = (N - np)%nat.
Proof. unfold rpar. rewrite res_parents_length. apply tmp_lw_length. Qed.

Lemma right_length : length (fst (fst (@resample S P tmp_ps tmp_lw u1))) = (N - np)%nat.
Proof.
  unfold resample. simpl fst. pose proof tmp_ps_length as H. destruct tmp_ps.
  - simpl in H. simpl. lia.
  - rewrite map_length. apply rpar_length.
Qed.

Lemma prior_reports_N :
  let r := fst (@resample_prior S P init ratio ps lw u1) in
  pcount r = N /\ length (pparts r) = N /\ length (plw r) = N /\
  length (snd (@resample_prior S P init ratio ps lw u1)) = N.
Proof.
  rewrite resample_prior_eq. cbv zeta. cbn [fst snd pcount pparts plw]. pose proof (num_prior_le N ratio).
  split; [lia|]. split; [|split].
  - rewrite app_length, Hinit, right_length. lia.
  - rewrite map_length, app_length, repeat_length, map_length, rpar_length. lia.
  - rewrite app_length, repeat_length, map_length, rpar_length. lia.
Qed.

Lemma prior_parents_left j : (j < np)%nat ->
  nth j (snd (@resample_prior S P init ratio ps lw u1)) 0%Z = (-1)%Z.
Proof.
  intro H. rewrite resample_prior_eq. cbn [fst snd]. rewrite app_nth1 by (rewrite repeat_length; auto).
  apply nth_repeat_lt; auto.
Qed.

Lemma rpar_range j : (j < N - np)%nat -> (nth j rpar 0 < N - np)%nat.
Proof.
  pose proof (res_parents_lt S tmp_lw u1 j) as H. rewrite tmp_lw_length in H. exact H.
Qed.

(* parent of a resampled particle: the original index found at a kept position of the sorted order *)
Lemma prior_parents_right j : (j < N - np)%nat ->
  nth (np + j) (snd (@resample_prior S P init ratio ps lw u1)) 0%Z
  = Z.of_nat (nth (np + nth j rpar 0%nat) srt 0%nat)
  /\ (np + nth j rpar 0 < N)%nat /\ (nth (np + nth j rpar 0%nat) srt 0 < N)%nat.
Proof.
  clear Npos Hinit.   (* lia would put them into the proof term, and the lemma would take both for nothing *)
  intro H. pose proof (rpar_range j H) as Hr. split; [|split].
  - rewrite resample_prior_eq. cbn [fst snd]. rewrite app_nth2 by (rewrite repeat_length; lia).
    rewrite repeat_length. replace (np + j - np)%nat with j by lia.
    rewrite (nth_map_in _ rpar j 0%Z 0%nat) by (rewrite rpar_length; exact H). f_equal. f_equal. lia.
  - lia.
  - pose proof (sort_idx_range (map (sexp S) lw) (np + nth j rpar 0%nat)) as G. rewrite map_length, Hlen in G.
    apply G. lia.
Qed.

(* every resampled particle is an exact copy of the parent it reports *)
Lemma prior_copy j d : (j < N - np)%nat ->
  nth (np + j) (pparts (fst (@resample_prior S P init ratio ps lw u1))) d
  = nth (Z.to_nat (nth (np + j) (snd (@resample_prior S P init ratio ps lw u1)) 0%Z)) ps d.
Proof.
  intro H. destruct (prior_parents_right j H) as [E [R1 R2]]. rewrite E, Nat2Z.id.
  pose proof (rpar_range j H) as Hr.
  rewrite resample_prior_eq. cbn [fst pparts]. rewrite app_nth2, Hinit by lia. replace (np + j - np)%nat with j by lia.
  (* two copy loops: tmp_ps out of ps along the kept sorted indices, then the output out of tmp_ps along rpar *)
  unfold resample. cbn [fst]. fold rpar. rewrite (pick_nth tmp_ps rpar j d).
  - unfold tmp_ps. rewrite (pick_nth ps (skipn np srt) (nth j rpar 0%nat) d), nth_skipn; [reflexivity | |].
    + rewrite kept_length. exact Hr.
    + rewrite nth_skipn. exact R2.
  - rewrite rpar_length. exact H.
  - rewrite tmp_ps_length. exact Hr.
Qed.

End Shape.
End PriorStructural.

Section PriorReals.
Variable e : R -> R.
Notation SE := (ROpsE e).

Lemma floor_upto_spec n (x : R) : 0 <= x ->
  INR (floor_upto SE n x) <= x /\ (floor_upto SE n x = n \/ x < INR (floor_upto SE n x) + 1).
Proof.
  intro Hx. induction n as [|k [IH1 IH2]].
  - simpl. split; [lra | left; reflexivity].
  - change (floor_upto SE (Datatypes.S k) x)
      with (if Rleb (sofnat SE (Datatypes.S k)) x then Datatypes.S k else floor_upto SE k x).
    rewrite sofnat_R. destruct (Rleb (INR (Datatypes.S k)) x) eqn:E.
    + apply Rleb_true in E. split; auto.
    + apply Rleb_false in E. split; auto. right. destruct IH2 as [->|IH2]; auto.
      rewrite S_INR in E. exact E.
Qed.

(* num_prior_particles = floor(N * ratio), and at least one particle is resampled *)
Lemma num_prior_spec N (ratio : R) : (0 < N)%nat -> 0 <= ratio < 1 ->
  INR (num_prior SE N ratio) <= INR N * ratio < INR (num_prior SE N ratio) + 1 /\ (num_prior SE N ratio < N)%nat.
Proof.
  intros HN [r0 r1]. unfold num_prior. change (smul SE) with Rmult. rewrite sofnat_R.
  assert (HNR : 0 < INR N) by (apply lt_0_INR; auto).
  assert (Hx : 0 <= INR N * ratio) by nra.
  destruct (floor_upto_spec N (INR N * ratio) Hx) as [F1 F2].
  assert (Hlt : INR N * ratio < INR N) by nra.
  pose proof (floor_upto_le SE N (INR N * ratio)) as Fle.
  destruct F2 as [F2|F2].
  - rewrite F2 in F1. lra.
  - repeat split; auto. destruct (Nat.eq_dec (floor_upto SE N (INR N * ratio)) N) as [E|]; [|lia].
    rewrite E in F1. lra.
Qed.

End PriorReals.
