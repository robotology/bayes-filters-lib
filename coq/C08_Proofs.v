(* C08_Proofs.v — the C08 model at the MathComp instance: the Mahalanobis
   identity of the proposal draws and the composition with C01 (Kalman
   correction as the wrapped step).  Axiom-free. *)
Require Import ZArith List.
Require Import BFL.Ops BFL.Density BFL.C01_Model BFL.C08_Model BFL.ListFacts BFL.C08_Struct.
From mathcomp Require Import ssreflect ssrfun ssrbool eqtype ssrnat seq choice fintype bigop order ssralg ssrnum zmodp matrix mxalgebra.
Require Import BFL.MxOps BFL.LinAlg BFL.C01_Proofs.
Set Implicit Arguments.
Unset Strict Implicit.
Unset Printing Implicit Defensive.
Import Order.Theory GRing.Theory Num.Theory.
Local Open Scope ring_scope.

Section MahalanobisAlgebra.
Variable F : realFieldType.
Variable n : nat.
Variables (P L : 'M[F]_n).
Hypothesis spdP : spd P.
Hypothesis LLt : L *m L^T = P.

Lemma sqrt_factor_unit : L \in unitmx.
Proof.
have := spd_unit spdP; rewrite -LLt unitmx_mul; by case/andP.
Qed.

(* L^T P^-1 L = I *)
Lemma whitening : L^T *m invmx P *m L = 1%:M.
Proof.
have uL := sqrt_factor_unit. have uP := spd_unit spdP.
have -> : L^T = invmx L *m P by rewrite -LLt mulmxA (mulVmx uL) mul1mx.
by rewrite -[invmx L *m P *m invmx P]mulmxA (mulmxV uP) mulmx1 (mulVmx uL).
Qed.

Lemma mahalanobis_mx (m z : 'cV[F]_n) :
  (m + L *m z - m)^T *m invmx P *m (m + L *m z - m) = z^T *m z.
Proof.
rewrite addrC addKr trmx_mul.
have -> : z^T *m L^T *m invmx P *m (L *m z) = z^T *m (L^T *m invmx P *m L) *m z by rewrite !mulmxA.
by rewrite whitening mulmx1.
Qed.

End MahalanobisAlgebra.

Section Model.
Variable F : realFieldType.
Variable tr : Transc F.
Variable sq : forall n, 'M[F]_n -> 'M[F]_n.
Variable eg : forall n, 'M[F]_n -> 'M[F]_(n,1).
Let O := MxMat tr sq eg.
Variable n : nat.

(* the contract of the LDL^T-based square root, for one covariance *)
Definition msqrt_contract (P : 'M[F]_n) := (ldlt_sqrt (O:=O) P : 'M[F]_n) *m (ldlt_sqrt (O:=O) P : 'M[F]_n)^T = P.

Lemma get00 (A : 'M[F]_1) : mx_get A 0 0 = A 0 0.
Proof. by rewrite -(mx_get_ord A 0 0). Qed.

(* squared Mahalanobis distance of the drawn position = squared norm of the draw *)
Lemma mahalanobis (m z : M O n 1) (P : M O n n) :
  spd (P : 'M[F]_n) -> msqrt_contract P ->
  quadform (O:=O) (msub (sample_from_proposal m P z) m) (minv P) =
  quadform (O:=O) z (mid n).
Proof.
move=> sP cP; rewrite /quadform /sample_from_proposal.
change (mx_get (((m + ldlt_sqrt (O:=O) P *m z) - m)^T *m invmx P *m ((m + ldlt_sqrt (O:=O) P *m z) - m)) 0 0 = mx_get (z^T *m 1%:M *m z) 0 0).
by rewrite !get00 (mahalanobis_mx sP cP) mulmx1.
Qed.

Lemma quadform_id (z : M O n 1) :
  quadform (O:=O) z (mid n) = \sum_i (z : 'cV[F]_n) i 0 ^+ 2.
Proof.
rewrite /quadform /= get00 mulmx1 mxE; apply: eq_bigr => i _.
by rewrite mxE expr2.
Qed.

(* C01 o C08: the Kalman correction as the wrapped step *)
Section WithKF.
Variable m : nat.
Variables (H : M O m n) (R : M O m m) (y : M O m 1).
Hypothesis spdR : spd (R : 'M[F]_m).
Variable lik : list (M O n 1) -> bool * list (T (sc O)).
Variable trans : list (M O n 1) -> list (M O n 1) -> list (T (sc O)).
Variable zs : list (M O n 1).
Variables pred old : pset O n.

Let r := gpf_correct (kf_corr_gstep true H R y) lik trans zs pred old.

(* the corrected covariance of the Kalman step is SPD (inverse of the SPD information
   matrix): the guard of the Mahalanobis identity is derived *)
Lemma kf_corrected_spd (c : gcomp O n) :
  spd (gcov c : 'M[F]_n) -> spd (gcov (ko_comp (kf_correct_one H R y c)) : 'M[F]_n).
Proof.
move=> sP; rewrite (@kf_one_cov F tr sq eg n m H R y spdR c sP).
apply: spd_inv; rewrite addrC; apply: psd_spd_add; last exact: spd_inv.
have -> : H^T *m invmx R *m H = H^T *m invmx R *m (H^T)^T by rewrite trmxK.
by apply: psd_congr; apply: spd_psd; exact: spd_inv.
Qed.

Lemma kf_belief_at (i : nat) :
  length old = length pred -> (i < length pred)%coq_nat ->
  belief_at (kf_corr_gstep true H R y (gm_of pred) (gm_of old)) i =
  ko_comp (kf_correct_one H R y (pbelief (List.nth i pred (dparticle O n)))).
Proof.
move=> Hl Hi.
rewrite belief_at_nth kf_corr_gstep_beliefs ?gm_of_length //.
by rewrite map_fst_gm_of List.map_map (nth_map_in _ _ _ _ (dparticle O n)).
Qed.

(* ... so every particle the correction returns has an SPD covariance *)
Lemma kf_wrapped_spd (i : nat) d :
  fst (lik (gpf_drawn (kf_corr_gstep true H R y) zs pred old)) = true ->
  length old = length pred ->
  List.Forall (fun p : particle O n => spd (pcov p : 'M[F]_n)) pred ->
  (i < length pred)%coq_nat ->
  spd (pcov (List.nth i (cr_particles r) d) : 'M[F]_n).
Proof.
move=> Hv Hl Hspd Hi.
rewrite /r (@correct_particle O n _ lik trans zs pred old Hv i d Hi) /= (kf_belief_at Hl Hi).
by apply: kf_corrected_spd; move/List.Forall_forall: Hspd; apply; exact: List.nth_In.
Qed.

Lemma kf_wrapped_mahalanobis (i : nat) d :
  fst (lik (gpf_drawn (kf_corr_gstep true H R y) zs pred old)) = true ->
  length old = length pred ->
  List.Forall (fun p : particle O n => spd (pcov p : 'M[F]_n)) pred ->
  (i < length pred)%coq_nat ->
  let p := List.nth i (cr_particles r) d in
  msqrt_contract (pcov p) ->
  spd (pcov p : 'M[F]_n) /\
  quadform (O:=O) (msub (pstate p) (pmean p)) (minv (pcov p)) =
  quadform (O:=O) (List.nth i zs (mzero n 1)) (mid n).
Proof.
move=> Hv Hl Hspd Hi p cP; have sP : spd (pcov p : 'M[F]_n) by exact: kf_wrapped_spd.
split=> //; move: sP cP.
rewrite /p /r (@correct_particle O n _ lik trans zs pred old Hv i d Hi) /=.
exact: mahalanobis.
Qed.

End WithKF.
End Model.
