(* C03_RFun.v — the C03 model at a matrix instance over Coq's reals (World B with matrices).
   RF sq eg is a MatOps whose scalars are C19's ROps and whose matrices are functions
   nat -> nat -> R read through their declared dimensions (out of range: 0, as in every
   instance); sq / eg are the square-root and eigenvector oracles, left abstract.  minv / mdet
   are not used by any function of C03_Model and are dummies here.
   This file: the instance, finite sums, and what wsum, wouter, x -> A x + b, a column of the scaled
   factor and chunk compute entry by entry (the layout-driven add_mean, offsets, out_mean: C03_Sigma.v).
   Axioms: the four standard axioms of Coq's Reals (no other; no functional extensionality is
   used: every statement is about entries). *)
Require Import ZArith Reals Lra Lia List Bool Arith.
Require Import BFL.Ops BFL.ListFacts BFL.C03_Model BFL.C19_ROps.
Import ListNotations.
Local Open Scope R_scope.

Definition fmx : Type := nat -> nat -> R.
Definition inb (m n i j : nat) : bool := (i <? m)%nat && (j <? n)%nat.
Definition fget (m n : nat) (A : fmx) (i j : nat) : R := if inb m n i j then A i j else 0.
Definition fbuild (m n : nat) (f : nat -> nat -> R) : fmx := fun i j => if inb m n i j then f i j else 0.
Fixpoint rsum (n : nat) (f : nat -> R) : R :=
  match n with O => 0 | Datatypes.S k => rsum k f + f k end.

Definition RF (sq eg : nat -> fmx -> fmx) : MatOps :=
  mkMatOps ROps (fun _ _ => fmx)
    fbuild
    fget
    (fun _ _ => fun _ _ => 0)
    (fun n => fbuild n n (fun i j => if Nat.eqb i j then 1 else 0))
    (fun m n A B => fbuild m n (fun i j => A i j + B i j))
    (fun m n A B => fbuild m n (fun i j => A i j - B i j))
    (fun m n A => fbuild m n (fun i j => - A i j))
    (fun m n c A => fbuild m n (fun i j => c * A i j))
    (fun m n p A B => fbuild m p (fun i j => rsum n (fun k => A i k * B k j)))
    (fun m n A => fbuild n m (fun i j => A j i))
    (fun m n1 n2 A B => fbuild m (n1 + n2) (fun i j => if (j <? n1)%nat then A i j else B i (j - n1)%nat))
    (fun m1 m2 n A B => fbuild (m1 + m2) n (fun i j => if (i <? m1)%nat then A i j else B (i - m1)%nat j))
    (fun _ A => A) (fun _ _ => 0)
    sq eg.

Lemma rsum_ext n f g : (forall k, (k < n)%nat -> f k = g k) -> rsum n f = rsum n g.
Proof.
  induction n as [|n IH]; intros H; simpl; [reflexivity|].
  rewrite IH, (H n) by (intros; try apply H; lia). reflexivity.
Qed.
Lemma rsum_0 n : rsum n (fun _ => 0) = 0.
Proof. induction n; simpl; [reflexivity|]. rewrite IHn. lra. Qed.
Lemma rsum_plus n f g : rsum n (fun k => f k + g k) = rsum n f + rsum n g.
Proof. induction n; simpl; [lra|]. rewrite IHn. lra. Qed.
Lemma rsum_scal n c f : rsum n (fun k => c * f k) = c * rsum n f.
Proof. induction n; simpl; [lra|]. rewrite IHn. lra. Qed.
Lemma rsum_scal_r n c f : rsum n (fun k => f k * c) = rsum n f * c.
Proof. induction n; simpl; [lra|]. rewrite IHn. lra. Qed.
Lemma rsum_opp n f : rsum n (fun k => - f k) = - rsum n f.
Proof. induction n; simpl; [lra|]. rewrite IHn. lra. Qed.
Lemma rsum_swap n m (f : nat -> nat -> R) :
  rsum n (fun i => rsum m (fun j => f i j)) = rsum m (fun j => rsum n (fun i => f i j)).
Proof.
  induction n as [|n IH]; simpl; [now rewrite rsum_0|].
  rewrite IH, <- rsum_plus. reflexivity.
Qed.
Lemma rsum_const n c : rsum n (fun _ => c) = INR n * c.
Proof. induction n as [|n IH]; [simpl; lra|]. rewrite S_INR. simpl rsum. rewrite IH. lra. Qed.
Lemma rsum_nonneg n f : (forall k, (k < n)%nat -> 0 <= f k) -> 0 <= rsum n f.
Proof.
  induction n as [|n IH]; intros H; simpl; [lra|].
  assert (0 <= rsum n f) by (apply IH; intros; apply H; lia). assert (0 <= f n) by (apply H; lia). lra.
Qed.
Lemma rsum_le n f g : (forall k, (k < n)%nat -> f k <= g k) -> rsum n f <= rsum n g.
Proof.
  induction n as [|n IH]; intros H; simpl; [lra|].
  assert (rsum n f <= rsum n g) by (apply IH; intros; apply H; lia). assert (f n <= g n) by (apply H; lia). lra.
Qed.
Lemma rsum_term_le n f k : (forall j, (j < n)%nat -> 0 <= f j) -> (k < n)%nat -> f k <= rsum n f.
Proof.
  induction n as [|n IH]; intros H Hk; [lia|]. simpl.
  assert (0 <= rsum n f) by (apply rsum_nonneg; intros; apply H; lia). assert (0 <= f n) by (apply H; lia).
  destruct (Nat.eq_dec k n) as [->|Hne]; [lra|].
  assert (f k <= rsum n f) by (apply IH; [intros; apply H; lia | lia]). lra.
Qed.

(* sums over lists *)
Fixpoint lsumR {A} (g : A -> R) (l : list A) : R :=
  match l with [] => 0 | x :: l' => g x + lsumR g l' end.
Lemma lsumR_app {A} (g : A -> R) l1 l2 : lsumR g (l1 ++ l2) = lsumR g l1 + lsumR g l2.
Proof. induction l1; simpl; [lra|]. rewrite IHl1. lra. Qed.
Lemma lsumR_map {A B} (g : B -> R) (f : A -> B) l : lsumR g (map f l) = lsumR (fun x => g (f x)) l.
Proof. induction l; simpl; [reflexivity|]. now rewrite IHl. Qed.
Lemma lsumR_ext {A} (g h : A -> R) l : (forall x, In x l -> g x = h x) -> lsumR g l = lsumR h l.
Proof.
  induction l as [|x l IH]; intros H; simpl; [reflexivity|].
  rewrite (H x), IH by (try (now left); intros; apply H; now right). reflexivity.
Qed.
Lemma lsumR_seq {A} (g : A -> R) (f : nat -> A) n : lsumR g (map f (seq 0 n)) = rsum n (fun k => g (f k)).
Proof.
  induction n as [|n IH]; [reflexivity|].
  rewrite seq_S, map_app, lsumR_app, IH. simpl. lra.
Qed.
Section Entries.
Variables sq eg : nat -> fmx -> fmx.
Notation O := (RF sq eg).

Lemma inb_true m n i j : (i < m)%nat -> (j < n)%nat -> inb m n i j = true.
Proof. intros Hi Hj. unfold inb. now rewrite (proj2 (Nat.ltb_lt _ _) Hi), (proj2 (Nat.ltb_lt _ _) Hj). Qed.

(* inside its declared dimensions a matrix is read, and built, entry by entry *)
Lemma mget_entry m n (A : fmx) i j : (i < m)%nat -> (j < n)%nat -> @mget O m n A i j = A i j.
Proof. intros Hi Hj. simpl. unfold fget. now rewrite inb_true. Qed.

Lemma build_entry m n f i j : (i < m)%nat -> (j < n)%nat -> @mbuild O m n f i j = f i j.
Proof. intros Hi Hj. simpl. unfold fbuild. now rewrite inb_true. Qed.

Lemma colget_entry r (x : fmx) i : (i < r)%nat -> colget (O:=O) (r:=r) x i = x i 0%nat.
Proof. intros Hi. apply mget_entry; [assumption | lia]. Qed.

Lemma colget_build r f i : (i < r)%nat -> colget (O:=O) (@mbuild O r 1 f) i = f i 0%nat.
Proof. intros Hi. rewrite colget_entry, build_entry by lia. reflexivity. Qed.

Lemma fget_add m n (A B : fmx) i j :
  fget m n (@madd O m n A B) i j = fget m n A i j + fget m n B i j.
Proof. simpl. unfold fget, fbuild. destruct (inb m n i j); lra. Qed.

(* accumulation loops acc += g p *)
Lemma fold_add_get {A} m n (g : A -> fmx) (l : list A) (a : fmx) i j :
  fget m n (fold_left (fun acc p => @madd O m n acc (g p)) l a) i j =
  fget m n a i j + lsumR (fun p => fget m n (g p) i j) l.
Proof.
  revert a. induction l as [|x l IH]; intros a; cbn [fold_left lsumR]; [lra|].
  rewrite IH, fget_add. lra.
Qed.

(* Y * w, row i *)
Lemma wsum_get r ws (xs : list fmx) i : (i < r)%nat ->
  colget (O:=O) (wsum (O:=O) (r:=r) ws xs) i = lsumR (fun p => fst p * snd p i 0%nat) (combine ws xs).
Proof.
  intros Hi. unfold colget, wsum. change (@mget O r 1) with (fget r 1).
  rewrite fold_add_get. simpl. unfold fget at 1. rewrite inb_true by lia.
  rewrite Rplus_0_l. apply lsumR_ext. intros p _. unfold fget, fbuild. rewrite inb_true by lia. reflexivity.
Qed.

(* U diag(w) V^T, entry (i, j) *)
Lemma wouter_get a b ws (us vs : list fmx) i j : (i < a)%nat -> (j < b)%nat ->
  @mget O a b (wouter (O:=O) (a:=a) (b:=b) ws us vs) i j =
  lsumR (fun p => fst p * (fst (snd p) i 0%nat * snd (snd p) j 0%nat)) (combine ws (combine us vs)).
Proof.
  intros Hi Hj. unfold wouter. change (@mget O a b) with (fget a b).
  rewrite fold_add_get. simpl. unfold fget at 1. rewrite inb_true by assumption.
  rewrite Rplus_0_l. apply lsumR_ext. intros [w [u v]] _. unfold fget, fbuild. rewrite !inb_true by (assumption || lia).
  simpl. lra.
Qed.

(* one column through x -> A x + b *)
Lemma affine_get d p (Am b x : fmx) i : (i < p)%nat ->
  @madd O p 1 (@mmul O p d 1 Am x) b i 0%nat = rsum d (fun j => Am i j * x j 0%nat) + b i 0%nat.
Proof. intros Hi. simpl. unfold fget, fbuild. rewrite !inb_true by lia. reflexivity. Qed.

(* a column of the scaled square-root factor *)
Lemma pert_get dc s (A : fmx) k i : (i < dc)%nat -> (k < dc)%nat ->
  @mcol O dc dc k (@mscale O dc dc s A) i 0%nat = s * A i k.
Proof.
  intros Hi Hk. unfold mcol. rewrite build_entry by lia. simpl. unfold fget, fbuild.
  rewrite !inb_true by assumption. reflexivity.
Qed.
End Entries.

Lemma chunk_concatR {A} (b : nat) (ls : list (list A)) (i : nat) :
  (forall l, In l ls -> length l = b) -> (i < length ls)%nat ->
  chunk b i (concat ls) = nth i ls [].
Proof. exact (firstn_skipn_concat b ls i). Qed.

Lemma chunk_mapR {A B} (f : A -> B) b i l : chunk b i (map f l) = map f (chunk b i l).
Proof. unfold chunk. now rewrite skipn_map, firstn_map. Qed.

Lemma map_indexedR {A B} (h : nat -> A -> B) (l : list A) (d : A) (e : B) i : (i < length l)%nat ->
  nth i (map (fun ic : nat * A => h (fst ic) (snd ic)) (combine (seq 0 (length l)) l)) e = h i (nth i l d).
Proof.
  assert (G : forall a i, (i < length l)%nat ->
     nth i (map (fun ic : nat * A => h (fst ic) (snd ic)) (combine (seq a (length l)) l)) e = h (a + i)%nat (nth i l d)).
  { induction l as [|x l IH]; intros a j Hj; simpl in *; [lia|].
    destruct j as [|j]; [now rewrite Nat.add_0_r|].
    rewrite IH by lia. f_equal. lia. }
  intros Hi. now rewrite G.
Qed.
