(* Properties_C20.v — property C20: the type-erased container bfl::any::any
   (= bfl::Data) is type-safe, value-semantic and leak-free.  The statements,
   each proved from the lemmas of C20_Proofs.  They are about `step` / `run` /
   `destroy_all` of C20_Model, the functions that are extracted and run
   against the library.  All hold for every pool size n and every operation
   word w (constructor / member tokens on a wrong index are skipped by `step`). *)
Require Import ZArith List Bool Arith Lia Permutation.
Require Import BFL.C20_Model BFL.C20_Proofs.
Import ListNotations.

(* Ownership: after any word, every live holder is referenced by exactly one
   live container; no container references a freed location; keys are unique. *)
Theorem C20_ownership_inv (n : nat) (w : list op) :
  let st := exec w (init n) in
  (forall l c, hget l (st_heap st) = Some c ->
     exists d, pget d st = Live (Some l) /\ forall e, pget e st = Live (Some l) -> e = d) /\
  (forall d l, pget d st = Live (Some l) ->
     (exists c, hget l (st_heap st) = Some c) /\ ~ In l (st_dlog st)) /\
  NoDup (keys (st_heap st)).
Proof.
  pose proof (exec_inv n w) as I. simpl. split; [|split].
  - intros l c H. destruct (inv_no_orphan _ _ _ I H) as [d Hd]. exists d. split; auto.
    intros e He. eapply inv_unique; eauto.
  - intros d l H. split; [eapply inv_owned; eauto | eapply inv_owned_not_deleted; eauto].
  - apply inv_keys_nodup; auto.
Qed.

(* the invariant behind it is inductive: it holds initially and every operation preserves it *)
Theorem C20_invariant_inductive :
  (forall n, inv (init n)) /\ (forall o st, inv st -> inv (fst (step o st))).
Proof. split; [apply inv_init | intros o st I; apply (step_refines_spec st o I)]. Qed.

(* nothing is deleted twice; what was deleted is gone; the DoubleFree branch of the model is never taken *)
Theorem C20_no_double_free (n : nat) (w : list op) :
  let st := exec w (init n) in
  NoDup (st_dlog st) /\
  (forall l, In l (st_dlog st) -> hget l (st_heap st) = None) /\
  (forall l, ~ In (DoubleFree l) (st_faults st)).
Proof.
  pose proof (exec_inv n w) as I. simpl. split; [|split].
  - apply cnt_nodup. intro x. apply inv_dlog_once; auto.
  - intros l H. apply cnt_In in H. apply hget_none_cnt.
    pose proof (ix_log _ _ I l). pose proof (ix_once _ _ I l). lia.
  - intros l H. rewrite (ix_nofault _ _ I) in H. destruct H.
Qed.

(* no fault of any kind is recorded, no operation of the word answers RFault, no container dangles *)
Theorem C20_no_use_after_free (n : nat) (w : list op) :
  let st := exec w (init n) in
  st_faults st = [] /\
  (forall f, ~ In (RFault f) (snd (run w (init n)))) /\
  (forall d l, view_of d st <> VDangling l).
Proof.
  pose proof (exec_inv n w) as I. simpl. split; [|split].
  - apply (ix_nofault _ _ I).
  - intro f. apply run_no_fault, inv_init.
  - intros d l. apply inv_no_dangling; auto.
Qed.

(* after destroying all containers the heap is empty and the destruction log is a
   duplicate-free permutation of the allocation log: every holder destroyed exactly once *)
Theorem C20_no_leak (n : nat) (w : list op) :
  let st := destroy_all (exec w (init n)) in
  st_heap st = [] /\ Permutation (st_dlog st) (st_alog st) /\ NoDup (st_dlog st) /\ st_faults st = [].
Proof.
  destruct (destroy_all_dead _ (exec_inv n w)) as [I D]. destruct (inv_all_dead _ I D) as [H [P N]]. simpl.
  repeat split; auto. apply (ix_nofault _ _ I).
Qed.

(* value semantics: the heap machine is observationally a pool of plain values
   (spec_step: copy = copy of the value, move = transfer and empty source, casts
   compare the type first), result by result, and the number of live holders of
   a type is the number of containers holding that type *)
Theorem C20_value_semantics (n : nat) (w : list op) :
  views (exec w (init n)) = fst (spec_run w (repeat VDead n)) /\
  snd (run w (init n)) = snd (spec_run w (repeat VDead n)) /\
  (forall t, live_count t (exec w (init n)) = spec_count t (fst (spec_run w (repeat VDead n)))).
Proof.
  destruct (run_refines_spec w (init n) (inv_init n)) as [I [V R]]. rewrite views_init in *.
  unfold exec. split; [|split]; auto. intro t. rewrite <- V. apply live_count_spec; auto.
Qed.

Theorem C20_step_refines_spec (st : state) (o : op) : inv st ->
  inv (fst (step o st)) /\
  views (fst (step o st)) = fst (spec_step o (views st)) /\
  snd (step o st) = snd (spec_step o (views st)).
Proof. exact (step_refines_spec st o). Qed.

(* a cast to the stored type yields the stored object, in all eight read forms; the pointer
   and reference forms change nothing, the forms that return T by value copy-construct one T *)
Theorem C20_cast_ok (st : state) (d : cid) (t : tag) (x : hval) : view_of d st = VHolds t x ->
  step (OCastPtr d t) st = (st, RPtr (Some x)) /\ step (OCastCPtr d t) st = (st, RPtr (Some x)) /\
  step (OCastPtrCq d t) st = (st, RPtr (Some x)) /\
  step (OCastRef d t) st = (st, RVal x) /\ step (OCastRefCq d t) st = (st, RVal x) /\
  step (OCastVal d t) st = (note_ctor (t, false) st, RVal x) /\
  step (OCastCVal d t) st = (note_ctor (t, false) st, RVal x) /\
  step (OCastRVal d t) st = (note_ctor (t, false) st, RVal x).
Proof.
  intro V. pose proof (view_is_live _ _ _ V eq_refl) as L.
  simpl. unfold any_cast_cptr, any_cast_cref, any_cast_rval, any_cast_ptr_cq, read_val_copy.
  change (any_cast_ref_cq d t st) with (any_cast_ref d t st).
  rewrite L, cast_ptr_spec, cast_val_spec, V by auto. simpl. rewrite Nat.eqb_refl. repeat split; auto.
Qed.

(* a cast to any other type fails: pointer forms null, value and reference forms throw
   (also the T&& form); a write through such a cast writes nothing (no reinterpretation) *)
Theorem C20_cast_wrong_type (st : state) (d : cid) (t : tag) (x : hval) (t' : tag) (v' : value) :
  view_of d st = VHolds t x -> t' <> t ->
  step (OCastPtr d t') st = (st, RPtr None) /\ step (OCastCPtr d t') st = (st, RPtr None) /\
  step (OCastPtrCq d t') st = (st, RPtr None) /\
  step (OCastVal d t') st = (st, RThrow) /\ step (OCastRef d t') st = (st, RThrow) /\
  step (OCastCVal d t') st = (st, RThrow) /\ step (OCastRVal d t') st = (st, RThrow) /\
  step (OCastRefCq d t') st = (st, RThrow) /\
  (forall asg mvt, step (OCastXVal asg d t' mvt) st = (st, RThrow)) /\
  step (OSetPtr d t' v') st = (st, RBool false) /\ step (OSetRef d t' v') st = (st, RThrow).
Proof.
  intros V ne. pose proof (view_is_live _ _ _ V eq_refl) as L.
  assert (C : any_cast_ptr d t' st = PNull).
  { apply cast_ptr_miss; rewrite V; [apply Nat.eqb_neq; auto | discriminate]. }
  simpl. unfold any_cast_cptr, any_cast_cref, any_cast_rval, any_cast_ref_cq, any_cast_ptr_cq, any_cast_ref, read_val_copy.
  rewrite L, C. simpl. repeat split; auto.
Qed.

(* the pointer forms accept a null operand *)
Theorem C20_cast_null_operand (st : state) (d : cid) (t : tag) : view_of d st = VDead ->
  step (OCastPtr d t) st = (st, RPtr None) /\ step (OCastCPtr d t) st = (st, RPtr None) /\
  step (OCastPtrCq d t) st = (st, RPtr None).
Proof. intro V. simpl. unfold any_cast_cptr, any_cast_ptr_cq. rewrite cast_ptr_spec, V. auto. Qed.

(* the form the library itself uses, T x = any_cast<T&&>(std::move(a)) (asg: x = ... for an
   existing x): the caller receives the value; the container still has a value of the same
   type (has_value, type unchanged) which is moved-from when T's move takes the value away
   (mvt); no other container changes; nothing is allocated or destroyed; exactly one move
   construction and no copy (none at all for the assignment shape); asking again yields a
   moved-from object, not the value: the value is transferred exactly once *)
Theorem C20_rvalue_ref_cast (st : state) (asg : bool) (d : cid) (t : tag) (x : hval) (mvt : bool) :
  inv st -> view_of d st = VHolds t x ->
  let st1 := fst (step (OCastXVal asg d t mvt) st) in
  snd (step (OCastXVal asg d t mvt) st) = RVal x /\
  inv st1 /\
  view_of d st1 = VHolds t (if mvt then None else x) /\
  (forall e, e <> d -> view_of e st1 = view_of e st) /\
  step (OHasValue d) st1 = (st1, RBool true) /\ step (OType d) st1 = (st1, RType (Some t)) /\
  (mvt = true -> forall asg' mvt', snd (step (OCastXVal asg' d t mvt') st1) = RVal None) /\
  st_alog st1 = st_alog st /\ st_dlog st1 = st_dlog st /\
  st_ctors st1 = (if asg then st_ctors st else (t, true) :: st_ctors st).
Proof.
  intros I V. pose proof (view_is_live _ _ _ V eq_refl) as L.
  destruct (cast_ptr_hit _ _ _ _ V) as [l [C [P H]]].
  (* the step writes the holder of d, and notes the caller's move construction *)
  destruct (write_ok _ _ _ _ _ (if mvt then None else x) I P H) as [I1 V1].
  set (w := write_at l t (if mvt then None else x) st) in *.
  assert (E : step (OCastXVal asg d t mvt) st = (if asg then w else note_ctor (t, true) w, RVal x)).
  { simpl. unfold any_cast_rval, any_cast_ref. rewrite L, C, H. auto. }
  rewrite E. clear E. cbn [fst snd]. set (st1 := if asg then w else note_ctor (t, true) w).
  assert (I2 : inv st1) by (unfold st1; destruct asg; [|apply inv_note]; auto).
  assert (V2 : views st1 = upd d (VHolds t (if mvt then None else x)) (views st)) by (unfold st1; destruct asg; auto).
  assert (Vd : view_of d st1 = VHolds t (if mvt then None else x)).
  { rewrite <- nth_views, V2. apply nth_upd_same. rewrite length_views. apply is_live_lt; auto. }
  pose proof (view_is_live _ _ _ Vd eq_refl) as L1.
  split; [auto | split; [auto | split; [auto | split; [| split; [| split; [| split]]]]]].
  - intros e ne. rewrite <- nth_views, V2, nth_upd_other, nth_views; auto.
  - simpl. rewrite L1, has_value_spec, Vd; auto.
  - simpl. rewrite L1, type_spec, Vd; auto.
  - intros -> asg' mvt'. destruct (step_refines_spec st1 (OCastXVal asg' d t mvt') I2) as [_ [_ R]].
    rewrite R. simpl. unfold vget. rewrite nth_views, Vd. simpl. rewrite Nat.eqb_refl. auto.
  - unfold st1. destruct asg; auto.
Qed.

(* constructions of held-type objects: value construction / assignment performs exactly one,
   a move for the rvalue form (mv = true) and a copy otherwise; copying a non-empty container
   performs one copy; moves, swap, reset and the destructor perform none *)
Theorem C20_constructions (st : state) :
  (forall mv d t v, is_free d st = true ->
     st_ctors (fst (step (OValue mv d t v) st)) = (t, mv) :: st_ctors st) /\
  (forall mv d t v, is_live d st = true ->
     st_ctors (fst (step (OValueAssign mv d t v) st)) = (t, mv) :: st_ctors st) /\
  (forall d s, st_ctors (fst (step (OMoveCtor d s) st)) = st_ctors st) /\
  (forall d s, st_ctors (fst (step (OMoveAssign d s) st)) = st_ctors st) /\
  (forall b d s, st_ctors (fst (step (OSwap b d s) st)) = st_ctors st) /\
  (forall d, st_ctors (fst (step (OReset d) st)) = st_ctors st) /\
  (forall d, st_ctors (fst (step (ODestroy d) st)) = st_ctors st) /\
  (forall d s t x, is_free d st = true -> view_of s st = VHolds t x ->
     st_ctors (fst (step (OCopyCtor d s) st)) = (t, false) :: st_ctors st) /\
  (forall d s t x, is_live d st = true -> view_of s st = VHolds t x ->
     st_ctors (fst (step (OCopyAssign d s) st)) = (t, false) :: st_ctors st) /\
  (forall d s, view_of s st = VEmpty ->
     st_ctors (fst (step (OCopyCtor d s) st)) = st_ctors st /\
     st_ctors (fst (step (OCopyAssign d s) st)) = st_ctors st).
Proof.
  repeat apply conj.
  - intros mv d t v F. simpl. rewrite F. reflexivity.
  - intros mv d t v L. simpl. rewrite L. simpl. unfold m_value_assign. simpl. rewrite ctors_delete. reflexivity.
  - intros d s. simpl. destruct (is_free d st && is_live s st); reflexivity.
  - intros d s. simpl. destruct (is_live d st && is_live s st); simpl; auto.
    unfold m_move_assign. destruct (Nat.eqb d s); auto. rewrite ctors_delete. reflexivity.
  - intros b d s. simpl. destruct (is_live d st && is_live s st); reflexivity.
  - intros d. simpl. destruct (is_live d st); simpl; auto. unfold m_reset. rewrite ctors_delete. reflexivity.
  - intros d. simpl. destruct (is_live d st); simpl; auto. unfold m_destroy. simpl. rewrite ctors_delete. reflexivity.
  - intros d s t x F V. pose proof (view_is_live _ _ _ V eq_refl) as L.
    simpl. rewrite F, L. simpl. rewrite ctors_copy_ctor, V; auto.
  - intros d s t x Ld V. pose proof (view_is_live _ _ _ V eq_refl) as L.
    simpl. rewrite Ld, L. simpl. rewrite ctors_copy_assign, V; auto.
  - intros d s V. pose proof (view_is_live _ _ _ V eq_refl) as L. simpl. split.
    + destruct (is_free d st && is_live s st); simpl; auto. rewrite ctors_copy_ctor, V; auto.
    + destruct (is_live d st && is_live s st); simpl; auto. rewrite ctors_copy_assign, V; auto.
Qed.

(* strong exception guarantee: when the copy constructor of the type to be copied throws
   (value construction / assignment from a const lvalue, copy construction / assignment from a
   container holding that type), the exception leaves the member and the whole state - values,
   heap, logs - is exactly what it was: nothing changed, nothing leaked *)
Theorem C20_strong_guarantee (st : state) :
  (forall d t v, is_free d st = true -> step (OValueThrow d t v) st = (st, RExn)) /\
  (forall d t v, is_live d st = true -> step (OValueAssignThrow d t v) st = (st, RExn)) /\
  (forall d s tx x, is_free d st = true -> view_of s st = VHolds tx x ->
     step (OCopyCtorArmed d s tx) st = (st, RExn)) /\
  (forall d s tx x, is_live d st = true -> view_of s st = VHolds tx x ->
     step (OCopyAssignArmed d s tx) st = (st, RExn)).
Proof.
  repeat split.
  - intros d t v F. simpl. rewrite F. auto.
  - intros d t v L. simpl. rewrite L. auto.
  - intros d s tx x F V. pose proof (view_is_live _ _ _ V eq_refl) as L.
    simpl. rewrite F, L, holds_type_spec, V by auto. simpl. rewrite Nat.eqb_refl. auto.
  - intros d s tx x Ld V. pose proof (view_is_live _ _ _ V eq_refl) as L.
    simpl. rewrite Ld, L, holds_type_spec, V by auto. simpl. rewrite Nat.eqb_refl. auto.
Qed.

(* copies are deep and independent: the copy has its own holder, and a write through a
   cast of the copy leaves the source unchanged and vice versa (copy constructor) *)
Theorem C20_copy_independent (st : state) (d s : cid) :
  inv st -> is_free d st = true -> is_live s st = true ->
  let st1 := fst (step (OCopyCtor d s) st) in
  view_of d st1 = view_of s st /\ view_of s st1 = view_of s st /\
  (forall l, content s st1 = Some l -> content d st1 <> Some l) /\
  forall t v,
    view_of s (fst (step (OSetPtr d t v) st1)) = view_of s st /\
    view_of s (fst (step (OSetRef d t v) st1)) = view_of s st /\
    view_of d (fst (step (OSetPtr s t v) st1)) = view_of s st /\
    view_of d (fst (step (OSetRef s t v) st1)) = view_of s st.
Proof.
  intros I F L. simpl. rewrite F, L. destruct (copy_ctor_ok _ _ _ I F L).
  apply copied_independent; auto. apply is_free_lt; auto. eapply free_live_ne; eauto.
Qed.

(* the same for copy assignment between two different containers *)
Theorem C20_copy_assign_independent (st : state) (d s : cid) :
  inv st -> is_live d st = true -> is_live s st = true -> d <> s ->
  let st1 := fst (step (OCopyAssign d s) st) in
  view_of d st1 = view_of s st /\ view_of s st1 = view_of s st /\
  (forall l, content s st1 = Some l -> content d st1 <> Some l) /\
  forall t v,
    view_of s (fst (step (OSetPtr d t v) st1)) = view_of s st /\
    view_of s (fst (step (OSetRef d t v) st1)) = view_of s st /\
    view_of d (fst (step (OSetPtr s t v) st1)) = view_of s st /\
    view_of d (fst (step (OSetRef s t v) st1)) = view_of s st.
Proof.
  intros I Ld L ne. simpl. rewrite Ld, L. destruct (copy_assign_ok _ _ _ I Ld L).
  apply copied_independent; auto. apply is_live_lt; auto.
Qed.

(* in general a write through a cast of one container changes no other container *)
Theorem C20_write_frame (st : state) (d e : cid) (t : tag) (v : value) : inv st -> d <> e ->
  view_of e (fst (step (OSetPtr d t v) st)) = view_of e st /\
  view_of e (fst (step (OSetRef d t v) st)) = view_of e st.
Proof. exact (write_frame st d e t v). Qed.

(* a moved-from container is empty and the target has the value; nothing is allocated or destroyed *)
Theorem C20_moved_from_empty (st : state) (d s : cid) :
  inv st -> is_free d st = true -> is_live s st = true ->
  let st1 := fst (step (OMoveCtor d s) st) in
  view_of s st1 = VEmpty /\ view_of d st1 = view_of s st /\
  st_alog st1 = st_alog st /\ st_dlog st1 = st_dlog st /\ st_heap st1 = st_heap st.
Proof.
  intros I F L. simpl. rewrite F, L. destruct (move_ctor_ok _ _ _ I F L) as [_ V].
  destruct (moved_views _ _ _ _ _ V) as [A B]; auto.
  - eapply free_live_ne; eauto.
  - apply is_free_lt; auto.
  - apply is_live_lt; auto.
Qed.

Theorem C20_move_assigned_from_empty (st : state) (d s : cid) :
  inv st -> is_live d st = true -> is_live s st = true -> d <> s ->
  let st1 := fst (step (OMoveAssign d s) st) in
  view_of s st1 = VEmpty /\ view_of d st1 = view_of s st /\ st_alog st1 = st_alog st.
Proof.
  intros I Ld L ne. pose proof (proj2 (Nat.eqb_neq d s) ne) as E. simpl. rewrite Ld, L.
  destruct (move_assign_ok _ _ _ I Ld L) as [_ V]. rewrite E in V.
  destruct (moved_views _ _ _ _ _ V) as [A B]; auto using is_live_lt.
  split; [auto | split; auto]. unfold m_move_assign. rewrite E.
  destruct (content s (m_swap s d st)); simpl; auto. destruct (hget _ _); auto.
Qed.

(* self-assignment is harmless: copy-assigning a container to itself keeps every value
   (and the invariant); move-assigning it to itself changes nothing at all (the
   `this == &rhs` test of any.h:170); swapping it with itself keeps every value *)
Theorem C20_self_assign_harmless (st : state) (d : cid) : inv st -> is_live d st = true ->
  (inv (fst (step (OCopyAssign d d) st)) /\ views (fst (step (OCopyAssign d d) st)) = views st /\
   snd (step (OCopyAssign d d) st) = RUnit) /\
  step (OMoveAssign d d) st = (st, RUnit) /\
  (forall b, views (fst (step (OSwap b d d) st)) = views st).
Proof.
  intros I L. simpl. rewrite L. simpl. split; [|split].
  - destruct (copy_assign_ok _ _ _ I L L) as [I1 V]. rewrite V, upd_views_same. auto.
  - unfold m_move_assign. rewrite Nat.eqb_refl. auto.
  - intros _. destruct (swap_ok _ _ _ I L L) as [_ V]. rewrite V, !upd_views_same. auto.
Qed.

(* an empty container reports the void type, has no value, and every cast of it fails *)
Theorem C20_empty_type_void (st : state) (d : cid) (t : tag) : view_of d st = VEmpty ->
  step (OType d) st = (st, RType None) /\ step (OHasValue d) st = (st, RBool false) /\
  step (OCastPtr d t) st = (st, RPtr None) /\ step (OCastCPtr d t) st = (st, RPtr None) /\
  step (OCastPtrCq d t) st = (st, RPtr None) /\
  step (OCastVal d t) st = (st, RThrow) /\ step (OCastRef d t) st = (st, RThrow) /\
  step (OCastCVal d t) st = (st, RThrow) /\ step (OCastRVal d t) st = (st, RThrow) /\
  step (OCastRefCq d t) st = (st, RThrow) /\
  (forall asg mvt, step (OCastXVal asg d t mvt) st = (st, RThrow)).
Proof.
  intro V. pose proof (view_is_live _ _ _ V eq_refl) as L.
  assert (C : any_cast_ptr d t st = PNull) by (apply cast_ptr_miss; rewrite V; [auto | discriminate]).
  simpl. unfold any_cast_cptr, any_cast_cref, any_cast_rval, any_cast_ref_cq, any_cast_ptr_cq, any_cast_ref, read_val_copy.
  rewrite L, C, has_value_spec, type_spec, V by auto. simpl. repeat split; auto.
Qed.

(* non-vacuity: a concrete word over a pool of 3 — value-construct a string-typed 7 in 0,
   copy it to 1, overwrite the copy through a cast pointer, self-move-assign and
   self-copy-assign 0, move 0 into 2, take the value out of 2 through the T&& cast,
   copy-assign 1 to 0 while the copy constructor throws — reaches a state that satisfies the
   hypotheses used above (inv, a live holder, an empty moved-from container, a free index). *)
Definition c20_word : list op :=
  [OValue false 0 2 7%Z; OCopyCtor 1 0; OSetPtr 1 2 9%Z; OMoveAssign 0 0; OCopyAssign 0 0; OMoveCtor 2 0;
   OCastXVal false 2 2 true; OCopyAssignArmed 0 1 2].

Example C20_concrete :
  let st := exec c20_word (init 3) in
  views st = [VEmpty; VHolds 2 (Some 9%Z); VMoved 2] /\
  snd (run c20_word (init 3)) = [RUnit; RUnit; RBool true; RUnit; RUnit; RUnit; RVal (Some 7%Z); RExn] /\
  st_ctors st = [(2, true); (2, false); (2, false); (2, false)] /\
  length (st_heap st) = 2 /\ st_dlog st = [0] /\ st_faults st = [] /\
  snd (step (OCastVal 1 2) st) = RVal (Some 9%Z) /\ snd (step (OCastRefCq 2 2) st) = RVal None /\ snd (step (OCastVal 1 0) st) = RThrow /\
  snd (step (OType 0) st) = RType None /\
  st_heap (destroy_all st) = [] /\ length (st_alog (destroy_all st)) = 3 /\
  is_free 0 (fst (step (ODestroy 0) st)) = true /\ is_live 1 st = true.
Proof. vm_compute. repeat split; reflexivity. Qed.

Example C20_inv_satisfiable : inv (exec c20_word (init 3)).
Proof. exact (exec_inv 3 c20_word). Qed.

Print Assumptions C20_ownership_inv.
Print Assumptions C20_invariant_inductive.
Print Assumptions C20_no_double_free.
Print Assumptions C20_no_use_after_free.
Print Assumptions C20_no_leak.
Print Assumptions C20_value_semantics.
Print Assumptions C20_step_refines_spec.
Print Assumptions C20_cast_ok.
Print Assumptions C20_cast_wrong_type.
Print Assumptions C20_cast_null_operand.
Print Assumptions C20_rvalue_ref_cast.
Print Assumptions C20_constructions.
Print Assumptions C20_strong_guarantee.
Print Assumptions C20_copy_independent.
Print Assumptions C20_copy_assign_independent.
Print Assumptions C20_write_frame.
Print Assumptions C20_moved_from_empty.
Print Assumptions C20_move_assigned_from_empty.
Print Assumptions C20_self_assign_harmless.
Print Assumptions C20_empty_type_void.
