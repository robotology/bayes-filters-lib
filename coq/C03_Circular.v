(* C03_Circular.v — layouts with Euler-circular rows at the MathComp instance: the predicate
   used by the statement about the first sigma point of every layout
   (Properties_C03.C03_first_sigma_point_partial).  Moment preservation and affine exactness
   on circular / quaternion rows need the scalar facts wrap x = x (mod 2 pi), atan2 polar
   form (C19) and the quaternion exp/log round trip (C18): they are proved over Coq's reals
   in C03_Euler.v / C03_Spread.v / C03_Quat.v (statements in Properties_C03_Real.v). *)
From mathcomp Require Import ssreflect ssrbool ssrnat.
Require Import BFL.C03_Model.

(* is storage row i one of the Euler-angle rows of the layout *)
Definition euler_row (L : layout) (i : nat) : bool :=
  ~~ l_quat L && (l_lin L <= i)%N && (i < l_lin L + l_circ L)%N.
