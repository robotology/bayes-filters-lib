(* C11_Access.v — the accessors of the belief containers, read AND write, tied to the
   storage model and to the algorithm-level view (list of components); what the accessor
   theorems of Properties_C11.v rest on:
     - the columns of a well-formed matrix and of the covariance blocks (the view determines
       the storage);
     - the list-of-components view of a particle set;
     - a write through a non-const overload, at matrix level: what is written is read back,
       every other column is unchanged;
     - the state part and the noise part of every component after ANY number of noise
       augmentations.
   Plain lists and lia; no axioms. *)
Require Import ZArith List Bool Arith Lia.
Require Import BFL.Ops BFL.ListFacts BFL.C11_Model BFL.C11_Proofs.
Import ListNotations.

Section C11.
Variable S : SOps.
Variable junk : T S.
Local Notation A := (T S).
Local Notation zero := (s0 S).
Local Notation mx := (mx S).
Local Notation gm := (gm S).
Local Notation pset := (pset S).
Local Notation mk := (mk S).
Local Notation get := (get S).
Local Notation shape := (shape S).
Local Notation Consistent := (Consistent S).
Local Notation Consistent_ps := (Consistent_ps S).

(* the columns of a well-formed matrix *)
Lemma mdata_columns m r c : shape m r c ->
  mdata S m = map (fun j => map (fun i => get m i j) (seq 0 r)) (seq 0 c).
Proof.
  intros (R & C & W). rewrite <- (mk_get_id S m W) at 1. rewrite R, C. reflexivity.
Qed.

Lemma concat_map_singleton {X Y} (f : X -> Y) l : concat (map (fun x => [f x]) l) = map f l.
Proof. induction l; simpl; auto. f_equal. auto. Qed.

(* a range of v * n columns is n blocks of v columns *)
Lemma seq_offset a v : seq a v = map (fun k => a + k) (seq 0 v).
Proof.
  revert a. induction v as [|v IH]; intros a; simpl; [reflexivity|].
  rewrite Nat.add_0_r. f_equal. rewrite <- (seq_shift v 0), map_map, IH. apply map_ext. intros k. lia.
Qed.

Lemma seq_blocks v n : seq 0 (v * n) = concat (map (fun i => map (fun k => v * i + k) (seq 0 v)) (seq 0 n)).
Proof.
  induction n as [|n IH].
  - rewrite Nat.mul_0_r. reflexivity.
  - rewrite seq_S, map_app, concat_app, <- IH. simpl. rewrite app_nil_r.
    replace (v * Datatypes.S n) with (v * n + v) by lia. rewrite seq_app. f_equal. apply seq_offset.
Qed.

(* the algorithm-level view of a particle set: (particle state, mean, covariance, weight) per component *)
Definition ps_comps (p : pset) : list (mx * mx * mx * A) :=
  map (fun i => (ps_state S p i, gm_mean S (base S p) i, gm_cov S (base S p) i, gm_weight S (base S p) i))
      (seq 0 (components S (base S p))).

Lemma ps_comps_length p : length (ps_comps p) = components S (base S p).
Proof. unfold ps_comps. rewrite map_length, seq_length. reflexivity. Qed.

Lemma ps_comps_nth p i d : i < components S (base S p) ->
  nth i (ps_comps p) d = (ps_state S p i, gm_mean S (base S p) i, gm_cov S (base S p) i, gm_weight S (base S p) i).
Proof. intros H. unfold ps_comps. rewrite nth_map_seq by exact H. reflexivity. Qed.

Definition same_layout (g g' : gm) : Prop :=
  components S g' = components S g /\ use_quat S g' = use_quat S g /\ dcc S g' = dcc S g /\ dim S g' = dim S g
  /\ dl S g' = dl S g /\ dc S g' = dc S g /\ dn S g' = dn S g /\ dcov S g' = dcov S g.

Lemma same_layout_with g m c w : same_layout g (gm_with S g m c w).
Proof. unfold same_layout, gm_with; simpl. repeat split. Qed.

(* m(j, i) = x seen through the column accessor *)
Lemma e_set_col_spec m i j x : j < mrows S m -> i < mcols S m ->
  let m' := e_set S m j i x in
  get m' j i = x /\ get (e_col S m' i) j 0 = x
  /\ (forall i' j', i' < mcols S m -> j' < mrows S m -> (i' <> i \/ j' <> j) -> get m' j' i' = get m j' i')
  /\ (forall i', i' < mcols S m -> i' <> i -> e_col S m' i' = e_col S m i').
Proof.
  intros Hj Hi. cbv zeta. split; [apply get_e_set_eq; auto|].
  split; [rewrite get_e_col by exact Hj; apply get_e_set_eq; auto|]. split.
  - intros i' j' Hi' Hj' NE. apply get_e_set_neq; lia.
  - intros i' Hi' NE. rewrite !e_col_as_middle. apply e_middle_cols_set_other; lia.
Qed.

(* m.col(i) = v *)
Lemma e_set_block_col_spec m i v : shape v (mrows S m) 1 -> i < mcols S m ->
  e_col S (e_set_block S m 0 i v) i = v
  /\ forall i', i' < mcols S m -> i' <> i -> e_col S (e_set_block S m 0 i v) i' = e_col S m i'.
Proof.
  intros Hv Hi. destruct (e_middle_cols_set_block S m i 1 v Hv) as [E O]; [lia|].
  split; [rewrite e_col_as_middle; exact E|]. intros i' Hi' NE. rewrite !e_col_as_middle. apply O; lia.
Qed.

(* state part and noise part of a component, after any number of augmentations *)
Local Notation vcat := (vcat S).
Local Notation blockdiag := (blockdiag S).

Lemma rows_from_vcat m z a : a <= mrows S m ->
  e_rows_from S (vcat m z) a = vcat (e_rows_from S m a) z.
Proof.
  intros Ha. unfold e_rows_from, C11_Proofs.vcat. cbn [mrows mcols C11_Model.mk].
  replace (mrows S m + mrows S z - a) with (mrows S m - a + mrows S z) by lia.
  apply mk_ext. intros i j Hi Hj. rewrite get_mk by lia.
  destruct (Nat.ltb_spec (a + i) (mrows S m)); destruct (Nat.ltb_spec i (mrows S m - a)); try lia.
  - rewrite get_mk by lia. reflexivity.
  - f_equal. lia.
Qed.

Lemma rows_upto_vcat m z a : a <= mrows S m -> e_rows_upto S (vcat m z) a = e_rows_upto S m a.
Proof.
  intros Ha. unfold e_rows_upto, C11_Proofs.vcat. cbn [mrows mcols C11_Model.mk].
  apply mk_ext. intros i j Hi Hj. rewrite get_mk by lia.
  destruct (Nat.ltb_spec i (mrows S m)); [reflexivity|lia].
Qed.

Lemma block_br_blockdiag P q a n : mrows S P = a + n -> mcols S P = a + n -> mrows S q = mcols S q ->
  e_block S (blockdiag P q) a a (n + mrows S q) (n + mrows S q) = blockdiag (e_block S P a a n n) q.
Proof.
  intros RP CP Hq. unfold e_block, C11_Proofs.blockdiag. cbn [mrows mcols C11_Model.mk]. rewrite <- Hq.
  apply mk_ext. intros i j Hi Hj. rewrite get_mk by lia. rewrite RP, CP.
  destruct (Nat.ltb_spec (a + i) (a + n)); destruct (Nat.ltb_spec i n); try lia;
  destruct (Nat.ltb_spec (a + j) (a + n)); destruct (Nat.ltb_spec j n); try lia; try reflexivity.
  - rewrite get_mk by lia. reflexivity.
  - f_equal; lia.
Qed.

Lemma block_tl_blockdiag P q h w : h <= mrows S P -> w <= mcols S P ->
  e_block S (blockdiag P q) 0 0 h w = e_block S P 0 0 h w.
Proof.
  intros Hh Hw. unfold e_block, C11_Proofs.blockdiag.
  apply mk_ext. intros i j Hi Hj. cbn [Nat.add]. rewrite get_mk by lia.
  destruct (Nat.ltb_spec i (mrows S P)); [|lia]. destruct (Nat.ltb_spec j (mcols S P)); [reflexivity|lia].
Qed.

Lemma mrows_gm_noise_mean g i : Consistent g -> mrows S (gm_noise_mean S g i) = dn S g.
Proof.
  intros (H1 & _ & _ & (R4 & _) & _). unfold gm_noise_mean, e_rows_from, gm_mean, e_col. cbn [mrows C11_Model.mk].
  rewrite R4. lia.
Qed.

(* one augmentation, in terms of the parts *)
Lemma gm_augment_parts q g : Consistent g -> 1 <= components S g -> mrows S q = mcols S q ->
  let g' := snd (gm_augment S q g) in
  forall i, i < components S g ->
    gm_state_mean S g' i = gm_state_mean S g i
    /\ gm_noise_mean S g' i = vcat (gm_noise_mean S g i) (e_zero S (mrows S q) 1)
    /\ gm_state_cov S g' i = gm_state_cov S g i
    /\ gm_noise_cov S g' i = blockdiag (gm_noise_cov S g i) q.
Proof.
  intros HC Hc Hq. cbv zeta. intros i Hi.
  destruct (gm_augment_content S q g HC Hc Hq) as (_ & _ & _ & _ & _ & _ & En & Ed & Ev & Hcomp).
  destruct (Hcomp i Hi) as (Em & Ec & _).
  pose proof HC as (H1 & H2 & H3 & (Rm & _) & (Rc & _) & _).
  assert (Rm' : mrows S (gm_mean S g i) = dim S g) by exact Rm.
  assert (Rc' : mrows S (gm_cov S g i) = dcov S g) by exact Rc.
  assert (Cc' : mcols S (gm_cov S g i) = dcov S g) by reflexivity.
  unfold gm_state_mean, gm_noise_mean, gm_state_cov, gm_noise_cov. rewrite Em, Ec, En, Ed, Ev.
  replace (dim S g + mrows S q - (dn S g + mrows S q)) with (dim S g - dn S g) by lia.
  replace (dcov S g + mrows S q - (dn S g + mrows S q)) with (dcov S g - dn S g) by lia.
  split; [apply rows_upto_vcat; lia|]. split; [apply rows_from_vcat; lia|].
  split; [apply block_tl_blockdiag; lia|]. apply block_br_blockdiag; auto; lia.
Qed.

Definition gm_augment_all (qs : list mx) (g : gm) : gm := fold_left (fun g q => snd (gm_augment S q g)) qs g.
Definition all_square (qs : list mx) : Prop := Forall (fun q => mrows S q = mcols S q) qs.
Definition add_zero_rows (m q : mx) : mx := vcat m (e_zero S (mrows S q) 1).

(* it is the history GAugment q1; ...; GAugment qk *)
Lemma gm_augment_all_is_run qs g : 1 <= components S g ->
  gm_run S junk (map (GAugment S) qs) g = Some (gm_augment_all qs g).
Proof.
  revert g. induction qs as [|q r IH]; intros g Hc; [reflexivity|].
  change (gm_run S junk (map (GAugment S) (q :: r)) g)
    with (if gm_augment_defined S q g then gm_run S junk (map (GAugment S) r) (snd (gm_augment S q g)) else None).
  rewrite (gm_augment_defined_ok S q g Hc). apply IH. rewrite gm_augment_components. exact Hc.
Qed.

Theorem gm_augment_all_content qs g : Consistent g -> 1 <= components S g -> all_square qs ->
  let g' := gm_augment_all qs g in
  let R := list_sum (map (mrows S) qs) in
  Consistent g' /\ components S g' = components S g /\ dl S g' = dl S g /\ dc S g' = dc S g
  /\ use_quat S g' = use_quat S g /\ dcc S g' = dcc S g
  /\ dn S g' = dn S g + R /\ dim S g' = dim S g + R /\ dcov S g' = dcov S g + R
  /\ forall i, i < components S g ->
       gm_mean S g' i = fold_left add_zero_rows qs (gm_mean S g i)
       /\ gm_cov S g' i = fold_left blockdiag qs (gm_cov S g i)
       /\ gm_weight S g' i = gm_weight S g i
       /\ gm_state_mean S g' i = gm_state_mean S g i
       /\ gm_noise_mean S g' i = fold_left add_zero_rows qs (gm_noise_mean S g i)
       /\ gm_state_cov S g' i = gm_state_cov S g i
       /\ gm_noise_cov S g' i = fold_left blockdiag qs (gm_noise_cov S g i).
Proof.
  revert g. induction qs as [|q r IH]; intros g HC Hc Hq; cbv zeta.
  - simpl. rewrite !Nat.add_0_r. split; [exact HC|]. do 8 (split; [reflexivity|]). intros i Hi. repeat split.
  - inversion Hq as [|? ? Hq1 Hqr]; subst.
    destruct (gm_augment_content S q g HC Hc Hq1) as (_ & E1 & E2 & E3 & E4 & E5 & En & Ed & Ev & Hcomp).
    pose proof (gm_augment_consistent S q g HC) as HC1.
    assert (Hc1 : 1 <= components S (snd (gm_augment S q g))) by (rewrite E1; exact Hc).
    specialize (IH _ HC1 Hc1 Hqr). cbv zeta in IH.
    destruct IH as (I0 & I1 & I2 & I3 & I4 & I5 & In & Id & Iv & Icomp).
    unfold gm_augment_all in *. simpl fold_left. simpl map. simpl list_sum.
    split; [exact I0|]. split; [congruence|]. split; [congruence|]. split; [congruence|].
    split; [congruence|]. split; [congruence|]. split; [lia|]. split; [lia|]. split; [lia|].
    intros i Hi. assert (Hi1 : i < components S (snd (gm_augment S q g))) by (rewrite E1; exact Hi).
    destruct (Icomp i Hi1) as (J1 & J2 & J3 & J4 & J5 & J6 & J7).
    destruct (Hcomp i Hi) as (K1 & K2 & K3).
    destruct (gm_augment_parts q g HC Hc Hq1 i Hi) as (P1 & P2 & P3 & P4).
    rewrite J1, J2, J3, J4, J5, J6, J7, K1, K2, K3, P1, P2, P3, P4. repeat split.
Qed.

(* after augmentations of a noise-free mixture the noise part of every mean is zero *)
Lemma add_zero_rows_zero qs m : mcols S m = 1 -> (forall r, r < mrows S m -> get m r 0 = zero) ->
  let m' := fold_left add_zero_rows qs m in
  mcols S m' = 1 /\ forall r, r < mrows S m' -> get m' r 0 = zero.
Proof.
  revert m. induction qs as [|q r IH]; intros m Hc Hz; cbv zeta; simpl; [auto|].
  apply IH; [exact Hc|]. intros x Hx. unfold add_zero_rows, C11_Proofs.vcat in *. cbn [mrows mcols C11_Model.mk] in *.
  change (mrows S (e_zero S (mrows S q) 1)) with (mrows S q) in *.
  rewrite get_mk by lia. destruct (Nat.ltb_spec x (mrows S m)); [apply Hz; exact H|]. apply get_e_zero; lia.
Qed.

End C11.
