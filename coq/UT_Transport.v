(* UT_Transport.v — shared infrastructure of the transport theorems for the steps that call
   an oracle (C03_Transport.v, C04_Transport.v, C05_Transport.v, C16_Transport.v).
   The executed instance is  ListMat (FOps tr) sqL egL  for ARBITRARY list-level oracles
   sqL / egL (the OCaml driver supplies them), the theorem instance is  MxMat tr sq eg.
   The structural operations are covered by the repr_* lemmas of C02_Transport.v; here: the
   inverse and determinant, and the helpers of Ops.v that are "mbuild over mget".  The two
   oracle fields are the only ones that differ between the instances; they never appear
   here: the model-level files carry their correspondence as an explicit per-call premise.
   A representing list is the table of its matrix (of_mx), so a list oracle that keeps
   well-formedness has a matrix-level counterpart (oracle_counterpart_exists); the identity /
   zero oracles of the Examples correspond (IdOracles).
   Axiom-free. *)
Require Import ZArith List Bool Arith.
Require Import BFL.Ops BFL.ListOps.
From mathcomp Require Import ssreflect ssrfun ssrbool eqtype ssrnat seq choice fintype bigop order ssralg ssrnum zmodp matrix mxalgebra.
Require Import BFL.MxOps BFL.LinAlg BFL.ListOpsCorrect BFL.ListGauss BFL.C02_Transport BFL.C01_Transport.
Set Implicit Arguments.
Unset Strict Implicit.
Unset Printing Implicit Defensive.
Import GRing.Theory.
Local Open Scope ring_scope.

Section T.
Variable F : realFieldType.
Variable tr : Transc F.
Variable sq : forall n, 'M[F]_n -> 'M[F]_n.
Variable eg : forall n, 'M[F]_n -> 'M[F]_(n,1).
Variables sqL egL : nat -> lmxF F -> lmxF F.
Let S := FOps tr.
Let OL := ListMat S sqL egL.
Let OM := MxMat tr sq eg.
Notation repr m n l A := (@C02_Transport.repr F m n l A) (only parsing).

(* Gauss-Jordan inverse / determinant of the executed instance, on an invertible input *)
Lemma r_inv n l (A : 'M[F]_n) : repr n n l A -> A \in unitmx ->
  repr n n (@minv OL n l) (@minv OM n A).
Proof. exact: (repr_minv tr). Qed.

Lemma r_det n l (A : 'M[F]_n) : repr n n l A -> A \in unitmx -> @mdet OL n l = @mdet OM n A.
Proof. exact: (repr_mdet tr). Qed.

(* the structural helpers of Ops.v *)
Lemma r_slice m n r0 c0 r c l (A : 'M[F]_(m,n)) : repr m n l A ->
  repr r c (@mslice OL m n r0 c0 r c l) (@mslice OM m n r0 c0 r c A).
Proof. exact: rbuild_get. Qed.

Lemma r_col m n j l (A : 'M[F]_(m,n)) : repr m n l A ->
  repr m 1 (@mcol OL m n j l) (@mcol OM m n j A).
Proof. exact: rbuild_get. Qed.

Lemma r_row m n i l (A : 'M[F]_(m,n)) : repr m n l A ->
  repr 1 n (@mrow OL m n i l) (@mrow OM m n i A).
Proof. exact: rbuild_get. Qed.

Lemma r_diag_of n (d : nat -> F) : repr n n (mdiag_of OL n d) (mdiag_of OM n d).
Proof. exact: rbuild. Qed.

Lemma repr_inj_mx m n l (A B : 'M[F]_(m,n)) : repr m n l A -> repr m n l B -> A = B.
Proof. by move=> [_ <-] [_ <-]. Qed.

Definition of_mx m n (A : 'M[F]_(m,n)) : lmxF F := lbuild S m n (fun i j => mx_get A i j).
Lemma of_mx_repr m n (A : 'M[F]_(m,n)) : repr m n (of_mx A) A.
Proof.
by split; [exact: lbuild_wf | apply: toM_lbuildE => i j; exact: mx_get_ord].
Qed.

Lemma repr_of_mx m n l (A : 'M[F]_(m,n)) : repr m n l A -> l = of_mx A.
Proof.
move=> rA; rewrite -[LHS](lbuild_lget tr (proj1 rA)) /of_mx /lbuild.
apply: List.map_ext_in => i _; apply: List.map_ext_in => j _.
exact: (rget tr sq eg sqL egL rA).
Qed.

(* Any list-level oracle that returns well-formed matrices on well-formed inputs has a
   matrix-level counterpart to which it corresponds on ALL inputs: the correspondence
   premises of the transport theorems exclude no list-level oracle. *)
Lemma oracle_counterpart_exists (fL : nat -> lmxF F -> lmxF F) (c : nat -> nat) :
  (forall n l, wf n n l -> wf n (c n) (fL n l)) ->
  exists fM : forall n, 'M[F]_n -> 'M[F]_(n, c n),
    forall n l A, repr n n l A -> repr n (c n) (fL n l) (fM n A).
Proof.
move=> Hwf; exists (fun n A => toM n (c n) (fL n (of_mx A))) => n l A rA.
rewrite -(repr_of_mx rA); split=> //.
by apply: Hwf; case: rA.
Qed.

Definition repr_list m n (ls : list (lmxF F)) (As : list 'M[F]_(m,n)) : Prop :=
  List.Forall2 (fun l A => repr m n l A) ls As.

End T.

(* the oracle pairs of the non-vacuity examples: identity functions as square-root oracles
   (exact on an identity covariance), constant zero columns as eigenvector oracles *)
Section IdOracles.
Variable F : realFieldType.
Variable tr : Transc F.
Definition id_sq : forall n, 'M[F]_n -> 'M[F]_n := fun _ A => A.
Definition zero_eg : forall n, 'M[F]_n -> 'M[F]_(n,1) := fun _ _ => 0.
Definition id_sqL : nat -> lmxF F -> lmxF F := fun _ l => l.
Definition zero_egL : nat -> lmxF F -> lmxF F := fun n _ => lbuild (FOps tr) n 1 (fun _ _ => 0).

Lemma id_oracles_correspond n l (A : 'M[F]_n) : @C02_Transport.repr F n n l A ->
  @C02_Transport.repr F n n (id_sqL n l) (id_sq A) /\ @C02_Transport.repr F n 1 (zero_egL n l) (zero_eg A).
Proof. by move=> rA; split=> //; exact: (repr_mzero tr). Qed.
End IdOracles.
