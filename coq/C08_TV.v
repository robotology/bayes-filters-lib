(* C08_TV.v — histories whose operands change from step to step.
   The model of C08 is a function of the state before a step (the two buffers, valid_likelihood_,
   likelihood_) and of the inputs OF THAT STEP; step_in already carries per-step wrapped steps,
   likelihood and transition models (C08_multi_step quantifies over arbitrary lists of them).
   Here the statement is spelled out for the concrete operand families the correspondence
   check varies: a time-varying linear-Gaussian model (state model F_k, Q_k; measurement model of
   size m_k with H_k, R_k and reading y_k; likelihood scale s_k; transition model Ft_k, Qt_k).
   At step k every formula mentions the operands of step k only: nothing computed from
   R_j, H_j, F_j, ... (j < k) survives into step k.  (A GaussianLikelihood that keeps the inverse
   of the first noise covariance it saw — seeded change C08-r3 — violates clause (e) of
   tv_step_formulae.) *)
Require Import List.
Require Import BFL.Ops BFL.Density BFL.C01_Model BFL.C08_Model BFL.ListFacts BFL.C08_Struct.
Import ListNotations.

Section TV.
Variable O : MatOps.
Notation S := (sc O).
Variable n : nat.
Notation dpart := (dparticle O n).

Lemma tv_step_shape (p : tv_ops O n) :
  shape_ok O n (si_gp (tv_step_in p)) /\ shape_ok O n (si_gc (tv_step_in p)).
Proof. split; cbn; [apply kf_pred_gstep_shape | apply kf_corr_gstep_shape]. Qed.

Lemma tv_shapes (ps : list (tv_ops O n)) :
  Forall (fun s => shape_ok O n (si_gp s) /\ shape_ok O n (si_gc s)) (map tv_step_in ps).
Proof. apply Forall_forall. intros s Hs. apply in_map_iff in Hs. destruct Hs as (p & <- & _). apply tv_step_shape. Qed.

Lemma tv_run_lengths N st (ps : list (tv_ops O n)) :
  length (fs_pred st) = N -> length (fs_corr st) = N ->
  length (fs_pred (tv_run st ps)) = N /\ length (fs_corr (tv_run st ps)) = N.
Proof. intros Lp Lc. unfold tv_run. apply gpf_run_lengths; auto using tv_shapes. Qed.

(* what step k of a time-varying history establishes, in terms of the operands of step k *)
Definition tv_step_formulae (N : nat) (st1 : fstate O n) (p : tv_ops O n) (st2 : fstate O n) : Prop :=
  length (fs_pred st2) = N /\ length (fs_corr st2) = N /\
  (* (a) prediction: positions and log-weights of the previous corrected set ... *)
  map pstate (fs_pred st2) = map pstate (fs_corr st1) /\
  map plw (fs_pred st2) = map plw (fs_corr st1) /\
  (* (b) ... beliefs F_k m, F_k P F_k^T + Q_k *)
  map pbelief (fs_pred st2) = map (kf_pred_comp (tv_F p) (tv_Q p)) (map pbelief (fs_corr st1)) /\
  (* (c) the likelihood is valid *)
  fs_valid st2 = true /\
  (* (d) corrected beliefs: the Kalman correction with H_k, R_k, y_k *)
  map pbelief (fs_corr st2) =
    map (fun c => ko_comp (kf_correct_one (tv_H p) (tv_R p) (tv_y p) c)) (map pbelief (fs_pred st2)) /\
  (* (e) likelihood values: s_k N(y_k - H_k x_i; 0, R_k) at the drawn positions, R_k the noise covariance OF THIS STEP *)
  fs_lik st2 =
    map (fun x => smul S (tv_scale p)
                    (density (lin_innovation (lin_predicted (tv_H p) x) (tv_y p)) (mzero (tv_m p) 1) (tv_R p)))
        (map pstate (fs_corr st2)) /\
  (* (f) positions m_i + L_i z_i and the weight update with the transition density N(x_i; Ft_k xprev_i, Qt_k) *)
  forall i, i < N ->
    let q := nth i (fs_corr st2) dpart in
    pstate q = sample_from_proposal (pmean q) (pcov q) (nth i (tv_zs p) (mzero n 1)) /\
    plw q = gpf_weight S (plw (nth i (fs_pred st2) dpart)) (nth i (fs_lik st2) (s0 S))
              (density (msub (pstate q) (mmul (tv_Ft p) (pstate (nth i (fs_pred st2) dpart)))) (mzero n 1) (tv_Qt p))
              (density (pstate q) (pmean q) (pcov q)).

Lemma tv_one_step N st (p : tv_ops O n) :
  length (fs_pred st) = N -> length (fs_corr st) = N ->
  tv_step_formulae N st p (gpf_step st (tv_step_in p)).
Proof.
  intros Lp Lc. destruct (tv_step_shape p) as [Sp Sc].
  destruct (gpf_step_formulae O n N st (tv_step_in p) Lp Lc Sp Sc) as (L1 & L2 & Hst & Hlw & Hbel & Hlik & _ & Hval).
  set (st2 := gpf_step st (tv_step_in p)) in *.
  cbn [tv_step_in si_gp si_gc si_lik si_trans si_zs] in Hbel, Hlik, Hval.
  rewrite gauss_lik_valid in Hlik.
  pose proof (f_equal fst Hlik) as Hv. pose proof (f_equal snd Hlik) as Hl. cbn [fst snd] in Hv, Hl.
  destruct (Hval Hv) as (Hcb & Hpos & _).
  (* lengths, (a) and (c) are at hand; (b), (d), (e), (f) follow *)
  refine (conj L1 (conj L2 (conj Hst (conj Hlw (conj _ (conj Hv (conj _ (conj _ _)))))))).
  - rewrite Hbel, kf_pred_gstep_beliefs by (rewrite !gm_of_length; congruence). now rewrite map_fst_gm_of.
  - rewrite Hcb, kf_corr_gstep_beliefs by (rewrite !gm_of_length; congruence). now rewrite map_fst_gm_of.
  - rewrite Hpos. exact Hl.
  - (* particle i as the correction builds it; its transition value is entry i of lin_trans *)
    intros i Hi. rewrite <- L1 in Hi. cbv zeta. rewrite Hl.
    unfold st2, gpf_step. cbn [fs_pred fs_corr tv_step_in si_gp si_gc si_lik si_trans si_zs].
    rewrite (correct_particle O n _ (gauss_lik (tv_scale p) true (tv_H p) (tv_R p) (tv_y p)) _ _ _ _ eq_refl i dpart Hi). cbn [pstate pmean pcov plw].
    split; [reflexivity|]. f_equal.
    rewrite lin_trans_nth, (drawn_nth O n _ _ _ _ i _ Hi), (nth_map_in pstate _ i _ dpart) by
      (rewrite ?drawn_length, ?map_length; auto).
    reflexivity.
Qed.

End TV.
