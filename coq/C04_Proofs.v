(* C04_Proofs.v — the unscented Kalman steps at the MathComp instance: on linear
   models they are the Kalman steps (corollaries of C03's affine exactness). *)
Require Import ZArith List Bool Lia.
Require Import BFL.Ops BFL.Density BFL.C01_Model BFL.ListFacts BFL.C02_Model BFL.C03_Model BFL.C04_Model.
From mathcomp Require Import ssreflect ssrfun ssrbool eqtype ssrnat seq choice fintype bigop order ssralg ssrnum zmodp matrix mxalgebra.
Require Import BFL.MxOps BFL.LinAlg BFL.C03_Proofs.
Set Implicit Arguments.
Unset Strict Implicit.
Unset Printing Implicit Defensive.
Import Order.Theory GRing.Theory Num.Theory.
Local Open Scope ring_scope.

(* a layout without circular components and without noise rows, n linear rows *)
Definition plain_layout (L : layout) (n : nat) : Prop :=
  [/\ l_lin L = n, l_circ L = 0%N & l_noise L = 0%N].

Section Generic.
Variable O : MatOps.
(* a skipped correction (GaussianCorrection::skip_) hands back the predicted belief and
   touches nothing; a correction that finds no measurement hands back the predicted
   belief, clears the innovations and keeps Pyy, so no likelihood is reported afterwards *)
Lemma ukf_correct_additive_idle n m (Ld Lm : layout) a b k (skip : bool) (y : option (M O m 1)) f g (R : M O m m)
      (pred old : mixture O n n) st :
  (skip -> ukf_correct_additive Ld Lm a b k skip y f g R pred old st = (pred, st, [::])) /\
  (~~ skip -> y = None ->
   ukf_correct_additive Ld Lm a b k skip y f g R pred old st = (pred, mkUkfState [::] (us_Pyy st), [::])).
Proof. by rewrite /ukf_correct_additive; split=> [->|/negbTE ->] // ->. Qed.

Lemma ukf_correct_generic_idle n q m (Ld Lm : layout) a b k (skip : bool) (y : option (M O m 1)) f g (R : M O q q)
      (pred old : mixture O n n) st :
  (skip -> ukf_correct_generic Ld Lm a b k skip y f g R pred old st = (pred, st, [::])) /\
  (~~ skip -> y = None ->
   ukf_correct_generic Ld Lm a b k skip y f g R pred old st = (pred, mkUkfState [::] (us_Pyy st), [::])).
Proof. by rewrite /ukf_correct_generic; split=> [->|/negbTE ->] // ->. Qed.
End Generic.

Section UKFMx.
Variable F : realFieldType.
Variable tr : Transc F.
Variable sq : forall n, 'M[F]_n -> 'M[F]_n.
Variable eg : forall n, 'M[F]_n -> 'M[F]_(n,1).
Let O := MxMat tr sq eg.

Lemma linear_cols_affine d p (A : 'M[F]_(p,d)) X :
  linear_cols (O:=O) A X = affine_cols (O:=O) A 0 X.
Proof. by apply: map_ext => x /=; rewrite addr0. Qed.

Lemma sel_id n : sel F n n = 1%:M.
Proof. by apply/matrixP=> i j; rewrite !mxE. Qed.

Lemma plain_linear L n : plain_layout L n -> linear_layout L n.
Proof. by case=> H1 H2 H3; split=> //; rewrite H1 H3; lia. Qed.

Lemma plain_noiseless L n : l_lin L = n -> l_circ L = 0%N -> plain_layout (l_noiseless L) n.
Proof. by move=> H1 H2; split. Qed.

Lemma add_noise_linear L n q : plain_layout L n -> linear_layout (l_add_noise L q) (n + q).
Proof. by case=> H1 H2 H3; split=> //=; rewrite H1 H3 -plusE; lia. Qed.

Lemma dcov_plain L n : plain_layout L n -> l_dcov L = n.
Proof. by case=> H1 H2 H3; rewrite /l_dcov /l_dx H1 H2 H3; lia. Qed.

Lemma dcov_noiseless L n : l_lin L = n -> l_circ L = 0%N -> l_dcov (l_noiseless L) = n.
Proof. by move=> Hl Hc; exact: dcov_plain (plain_noiseless Hl Hc). Qed.

Section Predict.
Variables (n : nat) (alpha beta kappa : F).
Variable prev : mixture O n n.
Hypothesis prev_plain : plain_layout (mx_layout prev) n.
Variable Lstate : layout.
Hypothesis Lstate_lin : l_lin Lstate = n.
Hypothesis Lstate_circ : l_circ Lstate = 0%N.
Let k := length (mx_comps prev).

(* additive model x' = F x + b + w (b: a constant exogenous input; b = 0 without one), the
   propagation function given up to pointwise equality *)
Lemma ukf_predict_additive_affine g (Ft Q : 'M[F]_n) (b : 'cV[F]_n) q :
  (forall X, g X = affine_cols (O:=O) Ft b X) ->
  let w := ut_weights (O:=O) n alpha beta kappa in
  w_c w != 0 -> t_sqrt tr (w_c w) * t_sqrt tr (w_c w) = w_c w ->
  (forall mc, In mc (mx_comps prev) -> sq mc.2 *m (sq mc.2)^T = mc.2) ->
  ukf_predict_additive (O:=O) Lstate alpha beta kappa false false g Q q prev =
  mkMix (O:=O) (l_noiseless Lstate)
        (List.map (fun xP => (Ft *m xP.1 + b, kf_predict_cov (O:=O) Ft Q xP.2)) (mx_comps prev))
        (repeat (1 / k%:R) k).
Proof.
move=> Hg w cp sc fo; rewrite /ukf_predict_additive /= /ut_weights_of.
rewrite (dcov_noiseless (L:=additive_input_description Lstate q) Lstate_lin Lstate_circ).
rewrite /ut_additive_state /ut_state Hg.
rewrite (ut_core_affine (plain_linear prev_plain) _ _ cp sc _ _ fo) //; last by case: prev_plain.
by rewrite add_noise_affine /mix_of_result /= map_map.
Qed.

End Predict.

(* the slice Pxy.middleCols(m * i, m) of the stored cross-covariance is component i *)
Lemma cross_slice n m (cs : list 'M[F]_(n,m)) (i : nat) : (i < length cs)%coq_nat ->
  mslice (O:=O) 0 (Nat.mul m i) n m (cross_storage (O:=O) cs) = List.nth i cs 0.
Proof.
move=> Hi; apply/matrixP=> r c; rewrite /mslice /cross_storage /= mxE.
have Hm : (0 < m)%coq_nat by case: c => c' /= /ssrnat.ltP; lia.
have Hc : (c < m)%coq_nat by apply/ssrnat.ltP.
rewrite mx_get_build /=; last 2 first.
- by [].
- by apply/ssrnat.ltP; nia.
have -> : Nat.div (Nat.add (Nat.mul m i) c) m = i.
  by rewrite Nat.mul_comm Nat.div_add_l ?Nat.div_small //; lia.
have -> : Nat.modulo (Nat.add (Nat.mul m i) c) m = c.
  by rewrite Nat.add_comm Nat.mul_comm Nat.mod_add ?Nat.mod_small //; lia.
exact: mx_get_ord.
Qed.

Lemma combine_self_map A B (g : A -> B) (l : list A) :
  combine l (List.map g l) = List.map (fun x => (x, g x)) l.
Proof. by elim: l => [|x l IH] //=; rewrite IH. Qed.

Section Correct.
Variables (n m : nat) (H : 'M[F]_(m,n)) (Reff : 'M[F]_m) (y : 'cV[F]_m).
Variables (pred old : mixture O n n) (st : ukf_state O m).
Let comps := mx_comps pred.

(* what the transform through a linear measurement model returns, per component *)
Definition meas_image (xP : 'cV[F]_n * 'M[F]_n) : ut_comp O m m n :=
  mkUtComp (O:=O) (H *m xP.1 : 'cV[F]_m) (H *m xP.2 *m H^T + Reff) (xP.2 *m H^T).

Let kf_outs := kf_correct (O:=O) H Reff y (List.map (fun xP => mkGcomp (O:=O) xP.1 xP.2) comps).

Lemma ukf_correct_comp_kf (cs : list 'M[F]_(n,m)) i (xP : 'cV[F]_n * 'M[F]_n) :
  (i < length cs)%coq_nat -> List.nth i cs 0 = xP.2 *m H^T ->
  ukf_correct_comp (O:=O) (cross_storage (O:=O) cs) m i xP (H *m xP.2 *m H^T + Reff)
                   (lin_innovation (O:=O) (H *m xP.1 : 'cV[F]_m) y) =
  kf_correct_one (O:=O) H Reff y (mkGcomp (O:=O) xP.1 xP.2).
Proof.
by move=> Hi Hn; rewrite /ukf_correct_comp /ukf_gain (cross_slice Hi) Hn.
Qed.

Lemma ukf_correct_loop_kf ws :
  ukf_correct_loop (O:=O) m comps (mkUtResult (O:=O) (List.map meas_image comps) ws)
                   (List.map (fun yp : 'cV[F]_m => lin_innovation (O:=O) yp y)
                             (List.map (fun u : ut_comp O m m n => uc_mean u) (List.map meas_image comps))) = kf_outs.
Proof.
rewrite /ukf_correct_loop /kf_outs /kf_correct ![ur_comps _]/=.
set cs := List.map (fun u => uc_cross u) _.
rewrite (map_map (fun u : ut_comp O m m n => uc_mean u)) combine_self_map map_map.
rewrite combine_self_map combine_map_r !map_map /=.
pose h (i : nat) (xP : 'cV[F]_n * 'M[F]_n) : kf_out O n m :=
  ukf_correct_comp (O:=O) (cross_storage (O:=O) cs) m i xP (H *m xP.2 *m H^T + Reff)
                   (lin_innovation (O:=O) (H *m xP.1 : 'cV[F]_m) y).
apply: (@map_indexed _ _ h (fun xP => kf_correct_one (O:=O) H Reff y (mkGcomp (O:=O) xP.1 xP.2)) comps (0, 0)).
move=> i Hi; rewrite /h; apply: ukf_correct_comp_kf; first by rewrite /cs !map_length.
by rewrite /cs map_map (nth_map_in _ _ _ _ (0, 0) Hi).
Qed.

Lemma ukf_correct_finish_kf ws :
  ukf_correct_finish (O:=O) m y (lin_innovation_cols (O:=O))
                     (Some (mkUtResult (O:=O) (List.map meas_image comps) ws)) pred old st =
  (mkMix (O:=O) (mx_layout old)
         (overwrite_prefix (List.map (fun o => (gmean (ko_comp o), gcov (ko_comp o))) kf_outs) (mx_comps old))
         (mx_weights old),
   mkUkfState (O:=O) (List.map (fun o => ko_innov o) kf_outs) (List.map (fun o => ko_Py o) kf_outs),
   kf_outs).
Proof.
rewrite /ukf_correct_finish /lin_innovation_cols ![ur_comps _]/=.
rewrite ukf_correct_loop_kf.
congr (_, _, _); congr mkUkfState; rewrite /kf_outs /kf_correct !map_map; apply: map_ext => xP //.
Qed.
End Correct.

Section CorrectTop.
Variables (n m : nat) (alpha beta kappa : F).
Variables (H : 'M[F]_(m,n)) (y : 'cV[F]_m).
Variables (pred old : mixture O n n) (st : ukf_state O m).
Hypothesis pred_plain : plain_layout (mx_layout pred) n.
Variable Lmeas : layout.
(* the measurement description: m linear components, no circular ones; its noise
   components are irrelevant (the transformed mixture drops them) *)
Hypothesis Lmeas_lin : l_lin Lmeas = m.
Hypothesis Lmeas_circ : l_circ Lmeas = 0%N.
Let comps := mx_comps pred.
Let gcomps := List.map (fun xP : 'cV[F]_n * 'M[F]_n => mkGcomp (O:=O) xP.1 xP.2) comps.

Definition kf_result (Reff : 'M[F]_m) : mixture O n n * ukf_state O m * list (kf_out O n m) :=
  let outs := kf_correct (O:=O) H Reff y gcomps in
  (mkMix (O:=O) (mx_layout old)
         (overwrite_prefix (List.map (fun o => (gmean (ko_comp o), gcov (ko_comp o))) outs) (mx_comps old))
         (mx_weights old),
   mkUkfState (O:=O) (List.map (fun o => ko_innov o) outs) (List.map (fun o => ko_Py o) outs),
   outs).

(* the predicted belief through y = H x + v *)
Lemma ut_additive_meas_linear (Ldesc : layout) (R : 'M[F]_m) :
  l_lin Ldesc = n -> l_circ Ldesc = 0%N ->
  let w := ut_weights (O:=O) n alpha beta kappa in
  w_c w != 0 -> t_sqrt tr (w_c w) * t_sqrt tr (w_c w) = w_c w ->
  (forall mc, In mc (mx_comps pred) -> sq mc.2 *m (sq mc.2)^T = mc.2) ->
  ut_additive_meas (O:=O) (mx_layout pred) (l_noiseless Lmeas) m n
                   (ut_weights_of (O:=O) (l_noiseless Ldesc) alpha beta kappa) comps
                   (fun X => Some (linear_cols (O:=O) H X)) R =
  Some (mkUtResult (O:=O) (List.map (meas_image H R) comps) (repeat (1 / (length comps)%:R) (length comps))).
Proof.
move=> Hl Hc w cp sc fo; rewrite /ut_weights_of (dcov_noiseless Hl Hc).
rewrite /ut_additive_meas /ut_generic linear_cols_affine.
have Hn : l_lin (mx_layout pred) = n by case: pred_plain.
have Hm : l_lin (l_noiseless Lmeas) = m by [].
rewrite (ut_core_affine (plain_linear pred_plain) Hn Hm cp sc _ _ fo) add_noise_affine.
congr (Some (mkUtResult _ _)); apply: map_ext => xP.
by rewrite /affine_image /meas_image sel_id mul1mx addr0.
Qed.

Lemma ukf_correct_additive_linear (Ldesc : layout) (R : 'M[F]_m) :
  l_lin Ldesc = n -> l_circ Ldesc = 0%N ->
  let w := ut_weights (O:=O) n alpha beta kappa in
  w_c w != 0 -> t_sqrt tr (w_c w) * t_sqrt tr (w_c w) = w_c w ->
  (forall mc, In mc (mx_comps pred) -> sq mc.2 *m (sq mc.2)^T = mc.2) ->
  ukf_correct_additive (O:=O) Ldesc Lmeas alpha beta kappa false (Some y)
                       (fun X => Some (linear_cols (O:=O) H X)) (lin_innovation_cols (O:=O))
                       R pred old st = kf_result R.
Proof.
move=> Hl Hc w cp sc fo.
rewrite /ukf_correct_additive (dcov_noiseless Lmeas_lin Lmeas_circ) (ut_additive_meas_linear R Hl Hc cp sc fo).
exact: ukf_correct_finish_kf.
Qed.

Lemma ukf_correct_generic_linear q (Ldesc : layout) (D : 'M[F]_(m,q)) (Rv : 'M[F]_q) :
  l_dcov Ldesc = (n + q)%N ->
  let w := ut_weights (O:=O) (n + q) alpha beta kappa in
  w_c w != 0 -> t_sqrt tr (w_c w) * t_sqrt tr (w_c w) = w_c w ->
  (forall mc, In mc (mx_comps pred) ->
     sq (block_mx mc.2 0 0 Rv) *m (sq (block_mx mc.2 0 0 Rv))^T = block_mx mc.2 0 0 Rv) ->
  ukf_correct_generic (O:=O) Ldesc Lmeas alpha beta kappa false (Some y)
                      (fun X => Some (linear_cols (O:=O) (row_mx H D) X)) (lin_innovation_cols (O:=O))
                      Rv pred old st = kf_result (D *m Rv *m D^T).
Proof.
move=> Hd w cp sc fo; rewrite /ukf_correct_generic /ut_weights_of (dcov_noiseless Lmeas_lin Lmeas_circ) Hd.
rewrite /ut_meas /ut_generic linear_cols_affine.
have Hx : l_lin (l_add_noise (mx_layout pred) q) = n by case: pred_plain.
have Hm : l_lin (l_noiseless Lmeas) = m by [].
rewrite (ut_core_affine_augmented (add_noise_linear q pred_plain) Hx Hm cp sc _ _ _ fo).
rewrite (map_ext _ (meas_image H (D *m Rv *m D^T))); last first.
  by move=> xP; rewrite /augmented_image /meas_image !addr0.
exact: ukf_correct_finish_kf.
Qed.

(* the likelihood reported afterwards is the Kalman one *)
Lemma ukf_likelihood_kf (Reff : 'M[F]_m) : comps <> [::] ->
  ukf_likelihood (O:=O) (kf_result Reff).1.2 =
  Some (List.map (kf_likelihood (O:=O)) (kf_correct (O:=O) H Reff y gcomps)).
Proof.
rewrite /kf_result /ukf_likelihood /= /kf_correct /gcomps => Hne.
set outs := List.map (kf_correct_one (O:=O) H Reff y) _.
have : outs <> [::] by rewrite /outs; case: (comps) Hne.
by case: outs => [|o os] // _; rewrite combine_map2 map_map.
Qed.

(* the innovation covariance the step inverts is invertible when R is SPD *)
Lemma ukf_Pyy_unit (Reff : 'M[F]_m) (P : 'M[F]_n) : psd P -> spd Reff ->
  H *m P *m H^T + Reff \in unitmx.
Proof. by move=> pP sR; apply: spd_unit; apply: psd_spd_add => //; apply: psd_congr. Qed.
End CorrectTop.

End UKFMx.
