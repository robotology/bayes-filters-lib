(* Properties_C11.v — property C11: belief containers keep their declared shape
   consistent with their storage.  The invariant, the Eigen storage idioms and the
   pool machinery are in C11_Proofs, the accessor views ps_comps in C11_Access, gm_comps in C11_Proofs.  All theorems
   hold for every scalar record S, every value `junk` of an uninitialised cell,
   every layout and every operation sequence of any length.

   DEFINEDNESS.  The model functions are total; the C++ is not.  Histories are
   therefore quantified through gm_run / gauss_run / ps_run, which execute an
   operation only if gop_defined / gaussop_defined / pop_defined holds:
   augmentWithNoise with a square matrix needs components >= 1 (the loop bound
   `components - 1` is unsigned: GaussianMixture g(0,2); g.augmentWithNoise(I)
   asserts / segfaults); `+=` and `+` need a DISTINCT right operand of equal dim
   and dim_covariance (otherwise an Eigen assertion, undefined with NDEBUG);
   the aliased calls p += p (PConcatSelf) and g.augmentWithNoise(g.covariance())
   (G/N/PAugmentSelf: the argument refers to storage that is reallocated before
   it is read) are defined only when nothing is reallocated.  Such operations are
   outside the property: the check reports a failure of the library only where the
   model says DEFINED; where the model says undefined it stops comparing that
   sequence and only counts whether the library failed or accepted. *)
Require Import ZArith QArith List Bool Arith Lia.
Require Import BFL.Ops BFL.ListOps BFL.C11_Model BFL.C11_Proofs BFL.C11_Access.
Import ListNotations.
Local Open Scope nat_scope.

Section C11.
Variable S : SOps.
Variable junk : T S.

(* constructors (all overloads delegate to the 4-argument one) *)
Theorem C11_ctor_consistent c l ci q :
  Consistent S (gm_ctor S c l ci q) /\ Gaussian_ok S (gauss_ctor S l ci q) /\ Consistent_ps S (ps_ctor S c l ci q).
Proof. exact (conj (gm_ctor_consistent S c l ci q) (conj (conj (gm_ctor_consistent S 1 l ci q) eq_refl) (ps_ctor_consistent S c l ci q))). Qed.

(* new mixtures start with uniform weights 1/components *)
Theorem C11_ctor_uniform_weights c l ci q i : i < c ->
  gm_weight S (gm_ctor S c l ci q) i = sdiv S (s1 S) (sofnat S c).
Proof. intros H. unfold gm_weight. rewrite gm_ctor_weight. apply get_mk; lia. Qed.

(* every operation that is defined preserves the invariant (the premise marks where the
   transcription is faithful; the proof does not need it) ... *)
Theorem C11_inv o g : Consistent S g -> gop_defined S o g = true -> Consistent S (gm_apply S junk o g).
Proof. exact (fun H _ => gm_apply_consistent S junk o g H). Qed.

(* ... hence it holds after every operation sequence along which the C++ is defined *)
Theorem C11_reachable ops c l ci q g' :
  gm_run S junk ops (gm_ctor S c l ci q) = Some g' -> Consistent S g'.
Proof. exact (gm_run_consistent S junk ops _ g' (gm_ctor_consistent S c l ci q)). Qed.

(* a Gaussian stays a consistent mixture; it stays a ONE-component object as long as it is not
   resized to another component count through a GaussianMixture& (NResizeBase c, c <> 1) *)
Theorem C11_gauss_reachable ops l ci q g' :
  gauss_run S junk ops (gauss_ctor S l ci q) = Some g' ->
  Consistent S g' /\ (forallb (gaussop_single S) ops = true -> Gaussian_ok S g').
Proof.
  exact (fun R => conj (gauss_run_consistent S junk ops _ g' (gm_ctor_consistent S 1 l ci q) R)
                       (fun Hs => gauss_run_ok S junk ops _ g' (conj (gm_ctor_consistent S 1 l ci q) eq_refl) Hs R)).
Qed.

(* particle sets: including the state storage, including noise augmentation and concatenation *)
Theorem C11_pset_inv o p : Consistent_ps S p -> pop_defined S junk o p = true -> Consistent_ps S (ps_apply S junk o p).
Proof. exact (fun H _ => ps_apply_consistent S junk o p H). Qed.

Theorem C11_pset_reachable ops c l ci q p' :
  ps_run S junk ops (ps_ctor S c l ci q) = Some p' -> Consistent_ps S p'.
Proof. exact (ps_run_consistent S junk ops _ p' (ps_ctor_consistent S c l ci q)). Qed.

(* POOLS OF OBJECTS.  Several objects live side by side (gm_pool0: built by constructor calls of any
   layouts); a sequence mixes the single-object operations on any of them (KOn) with the special member
   functions: copy construction / copy assignment from another object or from itself (KCopy), move
   construction / move assignment (KMove; the moved-from source is not available afterwards until it is
   the target of a construction or assignment) and construction / assignment from a temporary (KTemp):
   X(...), f(x) for a function returning a modified copy by value, a + b.  Every object of the pool,
   whatever it was before and whatever it was assigned from, satisfies the invariant ... *)
Theorem C11_pool_reachable ks ls p' : gm_krun S junk ks (gm_pool0 S ls) = Some p' ->
  length p' = length ls /\ forall i g b, nth_error p' i = Some (g, b) -> Consistent S g.
Proof.
  exact (fun R => let H := gm_krun_consistent S junk ks _ p' (pool0_all _ _ ls (gm_fresh_consistent S)) R in
                  conj (eq_trans (proj2 H) (map_length _ ls)) (proj1 H)).
Qed.

Theorem C11_gauss_pool_reachable ks ls p' : gauss_krun S junk ks (gauss_pool0 S ls) = Some p' ->
  length p' = length ls /\ (forall i g b, nth_error p' i = Some (g, b) -> Consistent S g)
  /\ (forallb (kop_all (gaussop_single S)) ks = true -> forall i g b, nth_error p' i = Some (g, b) -> Gaussian_ok S g).
Proof.
  exact (fun R => let H := gauss_krun_consistent S junk ks _ p' (pool0_all _ _ ls (fun f => proj1 (gauss_fresh_ok S f))) R in
                  conj (eq_trans (proj2 H) (map_length _ ls))
                       (conj (proj1 H) (fun Hs => proj1 (gauss_krun_ok S junk ks _ p' (pool0_all _ _ ls (gauss_fresh_ok S)) Hs R)))).
Qed.

Theorem C11_pset_pool_reachable ks ls p' : ps_krun S junk ks (ps_pool0 S ls) = Some p' ->
  length p' = length ls /\ forall i x b, nth_error p' i = Some (x, b) -> Consistent_ps S x.
Proof.
  exact (fun R => let H := ps_krun_consistent S junk ks _ p' (pool0_all _ _ ls (ps_fresh_consistent S)) R in
                  conj (eq_trans (proj2 H) (map_length _ ls)) (proj1 H)).
Qed.

(* ... and a copy IS the source: after `X n(s)` / `t = s` (also t = s itself: self-assignment) the target
   reports exactly the source's descriptors and data, and no other object (in particular the source)
   changes.  Stated for mixtures (Gaussians are mixtures: gauss_kstep has the same clauses) and particle sets. *)
Theorem C11_copy_exact t s :
  (forall p p' g, slot_get p s = Some g -> gm_kstep S junk (KCopy t s) p = Some p' ->
     slot_get p' t = Some g /\ (forall i, i <> t -> nth_error p' i = nth_error p i))
  /\ (forall p p' g, slot_get p s = Some g -> gauss_kstep S junk (KCopy t s) p = Some p' ->
     slot_get p' t = Some g /\ (forall i, i <> t -> nth_error p' i = nth_error p i))
  /\ (forall p p' x, slot_get p s = Some x -> ps_kstep S junk (KCopy t s) p = Some p' ->
     slot_get p' t = Some x /\ (forall i, i <> t -> nth_error p' i = nth_error p i)).
Proof.
  exact (conj (fun p p' g => kstep_copy_exact _ _ _ _ _ _ _ _ _ (gm_copy_id S) t s p p' g)
        (conj (fun p p' g => kstep_copy_exact _ _ _ _ _ _ _ _ _ (gm_copy_id S) t s p p' g)
              (fun p p' x => kstep_copy_exact _ _ _ _ _ _ _ _ _ (ps_copy_id S) t s p p' x))).
Qed.

(* move construction / move assignment (`X n(std::move(s))`, `t = std::move(s)`): the target is the
   source's value; the source is moved-from (no longer available: valid but unspecified in C++, so
   nothing is claimed about it and the check does not look at it); third objects do not change *)
Theorem C11_move_exact t s :
  (forall p p' g, slot_get p s = Some g -> gm_kstep S junk (KMove t s) p = Some p' ->
     slot_get p' t = Some g /\ (t <> s -> slot_get p' s = None)
     /\ (forall i, i <> t -> i <> s -> nth_error p' i = nth_error p i))
  /\ (forall p p' g, slot_get p s = Some g -> gauss_kstep S junk (KMove t s) p = Some p' ->
     slot_get p' t = Some g /\ (t <> s -> slot_get p' s = None)
     /\ (forall i, i <> t -> i <> s -> nth_error p' i = nth_error p i))
  /\ (forall p p' x, slot_get p s = Some x -> ps_kstep S junk (KMove t s) p = Some p' ->
     slot_get p' t = Some x /\ (t <> s -> slot_get p' s = None)
     /\ (forall i, i <> t -> i <> s -> nth_error p' i = nth_error p i)).
Proof.
  exact (conj (fun p p' g => kstep_move_exact _ _ _ _ _ _ _ _ _ (gm_copy_id S) t s p p' g)
        (conj (fun p p' g => kstep_move_exact _ _ _ _ _ _ _ _ _ (gm_copy_id S) t s p p' g)
              (fun p p' x => kstep_move_exact _ _ _ _ _ _ _ _ _ (ps_copy_id S) t s p p' x))).
Qed.

(* construction / assignment from a temporary: the target is the value of the expression, whatever the
   target was before; nothing else changes *)
Theorem C11_temporary_exact t :
  (forall e p p', gm_kstep S junk (KTemp t e) p = Some p' ->
     (exists g, gm_eval S junk p e = Some g /\ slot_get p' t = Some g) /\ (forall i, i <> t -> nth_error p' i = nth_error p i))
  /\ (forall e p p', gauss_kstep S junk (KTemp t e) p = Some p' ->
     (exists g, gauss_eval S junk p e = Some g /\ slot_get p' t = Some g) /\ (forall i, i <> t -> nth_error p' i = nth_error p i))
  /\ (forall e p p', ps_kstep S junk (KTemp t e) p = Some p' ->
     (exists x, ps_eval S junk p e = Some x /\ slot_get p' t = Some x) /\ (forall i, i <> t -> nth_error p' i = nth_error p i)).
Proof.
  exact (conj (fun e p p' => kstep_temp_exact _ _ _ _ _ _ _ _ _ t e p p')
        (conj (fun e p p' => kstep_temp_exact _ _ _ _ _ _ _ _ _ t e p p')
              (fun e p p' => kstep_temp_exact _ _ _ _ _ _ _ _ _ t e p p'))).
Qed.

(* in particular `t = f(s)` for a function returning a resized / augmented / ... copy of the named object s
   by value (s = t: assignment between an object and a modified copy of itself) gives exactly the
   object the operation gives on s (so C11_augment_content, C11_resize_components_preserves, ... describe it),
   and `t = a + b` gives the concatenation of a and b (C11_concat_content) *)
Theorem C11_assign_function_result t s :
  (forall o p p' g, slot_get p s = Some g -> gm_kstep S junk (KTemp t (EOp o (ESlot s))) p = Some p' ->
     gop_defined S o g = true /\ slot_get p' t = Some (gm_apply S junk o g)
     /\ (forall i, i <> t -> nth_error p' i = nth_error p i))
  /\ (forall o p p' g, slot_get p s = Some g -> gauss_kstep S junk (KTemp t (EOp o (ESlot s))) p = Some p' ->
     gaussop_defined S o g = true /\ slot_get p' t = Some (gauss_apply S junk o g)
     /\ (forall i, i <> t -> nth_error p' i = nth_error p i))
  /\ (forall o p p' x, slot_get p s = Some x -> ps_kstep S junk (KTemp t (EOp o (ESlot s))) p = Some p' ->
     pop_defined S junk o x = true /\ slot_get p' t = Some (ps_apply S junk o x)
     /\ (forall i, i <> t -> nth_error p' i = nth_error p i)).
Proof.
  exact (conj (fun o p p' g => kstep_temp_op_slot _ _ _ _ _ _ _ _ _ (gm_copy_id S) t s o p p' g)
        (conj (fun o p p' g => kstep_temp_op_slot _ _ _ _ _ _ _ _ _ (gm_copy_id S) t s o p p' g)
              (fun o p p' x => kstep_temp_op_slot _ _ _ _ _ _ _ _ _ (ps_copy_id S) t s o p p' x))).
Qed.

Theorem C11_assign_sum t a b p p' x y : slot_get p a = Some x -> slot_get p b = Some y ->
  ps_kstep S junk (KTemp t (EBin (ESlot a) (ESlot b))) p = Some p' ->
  ps_concat_defined S junk y x = true /\ slot_get p' t = Some (ps_concat S junk y x)
  /\ (forall i, i <> t -> nth_error p' i = nth_error p i).
Proof.
  rewrite <- (ps_plus_is_concat S junk x y).
  exact (kstep_temp_bin_slots _ _ _ _ _ _ _ _ _ (ps_copy_id S) t a b p p' x y).
Qed.

(* a pool of one object on which only single-object operations run is the history of C11_reachable *)
Theorem C11_pool_single_history ops c l ci q :
  gm_krun S junk (map (KOn 0) ops) (gm_pool0 S [(c, l, ci, q)]) =
  match gm_run S junk ops (gm_ctor S c l ci q) with Some g => Some [(g, true)] | None => None end.
Proof. exact (krun_single _ _ _ _ _ _ _ _ _ ops (gm_ctor S c l ci q)). Qed.

(* copy construction / assignment (and "move": no move constructor exists) reproduce every field.
   DEFINITIONAL: gm_copy is the member-wise copy, so this is the eta-rule of the record; the
   content of the clause is on the correspondence side (the harness copies real objects). *)
Theorem C11_copy_is_identity g p : gm_copy S g = g /\ ps_copy S p = p.
Proof. exact (conj (gm_copy_id S g) (ps_copy_id S p)). Qed.

(* the invariant is the executable check the driver prints after every step *)
Theorem C11_invariant_executable g p :
  (gm_consistentb S g = true <-> Consistent S g) /\ (ps_consistentb S p = true <-> Consistent_ps S p).
Proof. exact (conj (gm_consistentb_iff S g) (ps_consistentb_iff S p)). Qed.

(* accessors of a consistent container are in range (that part is the theorem: no Eigen assertion,
   correct shapes) and address exactly component i's block (those cell equations are DEFINITIONAL:
   the accessors are transcribed as mean_.col(i), covariance_.middleCols(dcov*i, dcov), ... and
   close by unfolding; what ties them to the code is the harness, which calls every overload) *)
Theorem C11_accessors g i : Consistent S g -> i < components S g ->
  (i < mcols S (mean_ S g) /\ dcov S g * i + dcov S g <= mcols S (cov_ S g) /\ i < mrows S (weight_ S g))
  /\ shape S (gm_mean S g i) (dim S g) 1 /\ shape S (gm_cov S g i) (dcov S g) (dcov S g)
  /\ (forall r, r < dim S g ->
        get S (gm_mean S g i) r 0 = get S (mean_ S g) r i /\ gm_mean_el S g i r = get S (mean_ S g) r i)
  /\ (forall r k, r < dcov S g -> k < dcov S g ->
        get S (gm_cov S g i) r k = get S (cov_ S g) r (dcov S g * i + k)
        /\ gm_cov_el S g i r k = get S (cov_ S g) r (dcov S g * i + k))
  /\ gm_weight S g i = get S (weight_ S g) i 0.
Proof.
  intros (H1 & H2 & H3 & H4 & H5 & H6) Hi.
  pose proof H4 as (R4 & C4 & _). pose proof H5 as (R5 & C5 & _). pose proof H6 as (R6 & _).
  split; [split; [lia|split; [rewrite C5; apply block_le, Hi|lia]]|].
  split; [eapply shape_e_col, H4|]. split; [eapply shape_e_middle_cols, H5|].
  split; [|split; [|reflexivity]].
  - intros r Hr. split; [|reflexivity]. apply get_e_col. lia.
  - intros r k Hr Hk. split; [|reflexivity]. apply get_e_middle_cols; lia.
Qed.

Theorem C11_pset_accessors p i : Consistent_ps S p -> i < components S (base S p) ->
  i < mcols S (state_ S p) /\ shape S (ps_state S p i) (dim S (base S p)) 1
  /\ (forall r, r < dim S (base S p) ->
        get S (ps_state S p i) r 0 = get S (state_ S p) r i /\ ps_state_el S p i r = get S (state_ S p) r i).
Proof.
  intros [_ Hs] Hi. pose proof Hs as (R & C & _). split; [lia|]. split; [eapply shape_e_col, Hs|].
  intros r Hr. split; [|reflexivity]. apply get_e_col. lia.
Qed.

(* Gaussian::mean() / mean(i) / weight() are component 0 by definition; Gaussian::covariance()
   returns the WHOLE storage, which is component 0's block only because components = 1 *)
Theorem C11_gauss_accessors g : Gaussian_ok S g ->
  gauss_mean S g = gm_mean S g 0 /\ gauss_weight S g = gm_weight S g 0
  /\ (forall i, gauss_mean_el S g i = gm_mean_el S g 0 i)
  /\ (forall i j, gauss_cov_el S g i j = gm_cov_el S g 0 i j)
  /\ gauss_cov S g = gm_cov S g 0.
Proof.
  intros [(H1 & H2 & H3 & H4 & H5 & H6) Hc]. split; [reflexivity|]. split; [reflexivity|].
  split; [reflexivity|]. split; [intros i j; unfold gauss_cov_el, gm_cov_el; rewrite Nat.mul_0_r; reflexivity|].
  unfold gauss_cov, gm_cov. rewrite Hc, Nat.mul_1_r in H5. pose proof H5 as (R5 & C5 & W5).
  eapply mx_ext; [exact H5|eapply shape_e_middle_cols; exact H5|].
  intros i j Hi Hj. rewrite get_e_middle_cols by lia. f_equal. lia.
Qed.

(* the blocks of distinct components are disjoint and cover the covariance storage *)
Theorem C11_storage_is_concatenation_of_blocks g c : Consistent S g -> c < mcols S (cov_ S g) ->
  exists i k, i < components S g /\ k < dcov S g /\ c = dcov S g * i + k
              /\ (forall i' k', k' < dcov S g -> c = dcov S g * i' + k' -> i' = i /\ k' = k).
Proof.
  intros (H1 & H2 & H3 & H4 & (R5 & C5 & W5) & H6) Hc. rewrite C5 in Hc.
  assert (Hd : dcov S g <> 0) by (intro E; rewrite E in Hc; simpl in Hc; lia).
  exists (c / dcov S g), (c mod dcov S g).
  pose proof (Nat.div_mod c (dcov S g) Hd) as E. pose proof (Nat.mod_upper_bound c (dcov S g) Hd) as U.
  split; [apply Nat.div_lt_upper_bound; auto|]. split; [exact U|]. split; [exact E|].
  intros i' k' Hk' E'. apply (divmod_inj (dcov S g)); auto. lia.
Qed.

(* the list-of-components view used by the algorithm-level models of C01-C08 *)
Theorem C11_components_view g i d : i < components S g ->
  length (gm_comps S g) = components S g
  /\ nth i (gm_comps S g) d = (gm_mean S g i, gm_cov S g i, gm_weight S g i).
Proof. exact (fun H => conj (gm_comps_length S g) (gm_comps_nth S g i d H)). Qed.

(* ... and of a particle set: (particle state, mean, covariance, weight) of every component *)
Theorem C11_pset_components_view p i d : i < components S (base S p) ->
  length (ps_comps S p) = components S (base S p)
  /\ nth i (ps_comps S p) d = (ps_state S p i, gm_mean S (base S p) i, gm_cov S (base S p) i, gm_weight S (base S p) i).
Proof. exact (fun H => conj (ps_comps_length S p) (ps_comps_nth S p i d H)). Qed.

(* the view determines the storage: the backing matrices are exactly the concatenation, component after
   component, of what the per-component accessors return (no cell outside every component's block) *)
Theorem C11_view_determines_storage g p : Consistent S g -> Consistent_ps S p ->
  mdata S (mean_ S g) = concat (map (fun i => mdata S (gm_mean S g i)) (seq 0 (components S g)))
  /\ mdata S (cov_ S g) = concat (map (fun i => mdata S (gm_cov S g i)) (seq 0 (components S g)))
  /\ mdata S (weight_ S g) = [map (fun i => gm_weight S g i) (seq 0 (components S g))]
  /\ mdata S (state_ S p) = concat (map (fun i => mdata S (ps_state S p i)) (seq 0 (components S (base S p)))).
Proof.
  intros (_ & _ & _ & H4 & H5 & H6) [_ H]. split; [|split; [|split]].
  - pose proof H4 as (R & C & W). rewrite (mdata_columns S _ _ _ H4).
    unfold gm_mean, e_col, C11_Model.mk. simpl. rewrite R. rewrite concat_map_singleton. reflexivity.
  - pose proof H5 as (R & C & W). rewrite (mdata_columns S _ _ _ H5).
    rewrite seq_blocks, concat_map, map_map. f_equal. apply map_ext. intros i.
    unfold gm_cov, e_middle_cols, C11_Model.mk. simpl. rewrite R, map_map. reflexivity.
  - rewrite (mdata_columns S _ _ _ H6). reflexivity.
  - pose proof H as (R & C & W). rewrite (mdata_columns S _ _ _ H).
    unfold ps_state, e_col, C11_Model.mk. simpl. rewrite R. rewrite concat_map_singleton. reflexivity.
Qed.

(* THE NON-CONST OVERLOADS return references to the same cells as the const ones: what is written through
   mean(i, j) / covariance(i, j, k) / weight(i) / state(i, j) is what every overload reads back for that cell,
   every other cell of every accessor and every descriptor is unchanged, the invariant is kept *)
Theorem C11_write_mean_el g i j x : Consistent S g -> i < components S g -> j < dim S g ->
  let g' := gm_set_mean_el S g i j x in
  Consistent S g' /\ same_layout S g g' /\ cov_ S g' = cov_ S g /\ weight_ S g' = weight_ S g
  /\ gm_mean_el S g' i j = x /\ get S (gm_mean S g' i) j 0 = x
  /\ (forall i' j', i' < components S g -> j' < dim S g -> (i' <> i \/ j' <> j) ->
        gm_mean_el S g' i' j' = gm_mean_el S g i' j')
  /\ (forall i', i' < components S g -> i' <> i -> gm_mean S g' i' = gm_mean S g i').
Proof.
  intros HC Hi Hj. pose proof HC as (_ & _ & _ & (R4 & C4 & _) & _). cbv zeta.
  split; [apply gm_with_consistent; try apply shape_e_set; apply HC|]. split; [apply same_layout_with|].
  split; [reflexivity|]. split; [reflexivity|].
  rewrite <- R4 in Hj |- *. rewrite <- C4 in Hi |- *. exact (e_set_col_spec S (mean_ S g) i j x Hj Hi).
Qed.

Theorem C11_write_cov_el g i j k x : Consistent S g -> i < components S g -> j < dcov S g -> k < dcov S g ->
  let g' := gm_set_cov_el S g i j k x in
  Consistent S g' /\ same_layout S g g' /\ mean_ S g' = mean_ S g /\ weight_ S g' = weight_ S g
  /\ gm_cov_el S g' i j k = x /\ get S (gm_cov S g' i) j k = x
  /\ (forall i' j' k', i' < components S g -> j' < dcov S g -> k' < dcov S g -> (i' <> i \/ j' <> j \/ k' <> k) ->
        gm_cov_el S g' i' j' k' = gm_cov_el S g i' j' k')
  /\ (forall i', i' < components S g -> i' <> i -> gm_cov S g' i' = gm_cov S g i').
Proof.
  intros HC Hi Hj Hk. pose proof HC as (_ & _ & _ & _ & (R5 & C5 & _) & _). cbv zeta.
  split; [apply gm_with_consistent; try apply shape_e_set; apply HC|]. split; [apply same_layout_with|].
  split; [reflexivity|]. split; [reflexivity|].
  unfold gm_cov_el, gm_cov, gm_set_cov_el, gm_with; simpl.
  pose proof (block_le (dcov S g) i _ Hi) as Bi.
  split; [apply get_e_set_eq; auto; lia|].
  split; [rewrite get_e_middle_cols by (simpl; lia); apply get_e_set_eq; auto; lia|].
  split.
  - intros i' j' k' Hi' Hj' Hk' NE.
    pose proof (block_le (dcov S g) i' _ Hi'). apply get_e_set_neq; [lia|lia|]. intros [Ej E].
    rewrite !(Nat.mul_comm (dcov S g)) in E. apply divmod_inj in E; lia.
  - intros i' Hi' NE. pose proof (block_le (dcov S g) i' _ Hi'). apply e_middle_cols_set_other; [lia|].
    destruct (blocks_apart (dcov S g) i i' NE); lia.
Qed.

Theorem C11_write_weight g i x : Consistent S g -> i < components S g ->
  let g' := gm_set_weight S g i x in
  Consistent S g' /\ same_layout S g g' /\ mean_ S g' = mean_ S g /\ cov_ S g' = cov_ S g
  /\ gm_weight S g' i = x
  /\ (forall i', i' < components S g -> i' <> i -> gm_weight S g' i' = gm_weight S g i').
Proof.
  intros HC Hi. pose proof HC as (_ & _ & _ & _ & _ & (R6 & C6 & _)). cbv zeta.
  split; [apply gm_with_consistent; try apply shape_e_set; apply HC|]. split; [apply same_layout_with|].
  split; [reflexivity|]. split; [reflexivity|].
  unfold gm_weight, gm_set_weight, gm_with; simpl.
  split; [apply get_e_set_eq; auto; lia|]. intros i' Hi' NE. apply get_e_set_neq; lia.
Qed.

Theorem C11_write_state_el p i j x : Consistent_ps S p -> i < components S (base S p) -> j < dim S (base S p) ->
  let p' := ps_set_state_el S p i j x in
  Consistent_ps S p' /\ base S p' = base S p
  /\ ps_state_el S p' i j = x /\ get S (ps_state S p' i) j 0 = x
  /\ (forall i' j', i' < components S (base S p) -> j' < dim S (base S p) -> (i' <> i \/ j' <> j) ->
        ps_state_el S p' i' j' = ps_state_el S p i' j')
  /\ (forall i', i' < components S (base S p) -> i' <> i -> ps_state S p' i' = ps_state S p i').
Proof.
  intros [HC Hs] Hi Hj. pose proof Hs as (Rs & Cs & _). cbv zeta.
  split; [split; simpl; [exact HC|apply shape_e_set; exact Hs]|]. split; [reflexivity|].
  rewrite <- Rs in Hj |- *. rewrite <- Cs in Hi |- *. exact (e_set_col_spec S (state_ S p) i j x Hj Hi).
Qed.

(* ... and block-wise: mean(i) = v, covariance(i) = m, state(i) = v *)
Theorem C11_write_blocks g p i v m : Consistent S g -> Consistent_ps S p ->
  (i < components S g -> shape S v (dim S g) 1 ->
     let g' := gm_set_mean S g i v in
     Consistent S g' /\ same_layout S g g' /\ cov_ S g' = cov_ S g /\ weight_ S g' = weight_ S g /\ gm_mean S g' i = v
     /\ (forall i', i' < components S g -> i' <> i -> gm_mean S g' i' = gm_mean S g i'))
  /\ (i < components S g -> shape S m (dcov S g) (dcov S g) ->
     let g' := gm_set_cov S g i m in
     Consistent S g' /\ same_layout S g g' /\ mean_ S g' = mean_ S g /\ weight_ S g' = weight_ S g /\ gm_cov S g' i = m
     /\ (forall i', i' < components S g -> i' <> i -> gm_cov S g' i' = gm_cov S g i'))
  /\ (i < components S (base S p) -> shape S v (dim S (base S p)) 1 ->
     let p' := ps_set_state S p i v in
     Consistent_ps S p' /\ base S p' = base S p /\ ps_state S p' i = v
     /\ (forall i', i' < components S (base S p) -> i' <> i -> ps_state S p' i' = ps_state S p i')).
Proof.
  intros HC HP. split; [|split].
  - intros Hi Hv. pose proof HC as (_ & _ & _ & (R4 & C4 & _) & _). cbv zeta.
    split; [apply gm_with_consistent; try apply shape_e_set_block; apply HC|]. split; [apply same_layout_with|].
    split; [reflexivity|]. split; [reflexivity|].
    rewrite <- R4 in Hv. rewrite <- C4 in Hi |- *. exact (e_set_block_col_spec S (mean_ S g) i v Hv Hi).
  - intros Hi Hm. pose proof HC as (_ & _ & _ & _ & (R5 & C5 & _) & _). cbv zeta.
    split; [apply gm_with_consistent; try apply shape_e_set_block; apply HC|]. split; [apply same_layout_with|].
    split; [reflexivity|]. split; [reflexivity|].
    destruct (e_middle_cols_set_block S (cov_ S g) (dcov S g * i) (dcov S g) m) as [E O];
      [rewrite R5; exact Hm|rewrite C5; apply block_le, Hi|].
    unfold gm_cov, gm_set_cov, gm_with; simpl.
    split; [exact E|]. intros i' Hi' NE. apply O; [rewrite C5; apply block_le, Hi'|apply blocks_apart, NE].
  - intros Hi Hv. destruct HP as [HB Hs]. pose proof Hs as (Rs & Cs & _). cbv zeta.
    split; [split; simpl; [exact HB|apply shape_e_set_block; exact Hs]|]. split; [reflexivity|].
    rewrite <- Rs in Hv. rewrite <- Cs in Hi |- *. exact (e_set_block_col_spec S (state_ S p) i v Hv Hi).
Qed.

(* filling a container cell by cell through the element accessors of every component (GFillEl), or component
   by component through the block accessors (GFillBlk), gives the object that filling the backing matrices
   through the whole-matrix accessors gives (GFill): the three families of accessors address the same storage *)
Theorem C11_fill_through_accessors b g p : Consistent S g -> Consistent_ps S p ->
  gm_fill_el S b g = gm_fill S b g /\ gm_fill_blk S b g = gm_fill S b g
  /\ ps_fill_el S b p = ps_fill S b p /\ ps_fill_blk S b p = ps_fill S b p.
Proof.
  exact (fun Hg Hp => conj (gm_fill_el_is_fill S b g Hg) (conj (gm_fill_blk_is_fill S b g Hg)
                      (conj (ps_fill_el_is_fill S b p Hp) (ps_fill_blk_is_fill S b p Hp)))).
Qed.

(* changing only the number of components preserves the surviving components; the cells of new
   components are unspecified (junk: Eigen's conservativeResize does not initialise them).
   "Only the number of components" means: same linear and circular sizes AND no noise part
   (dn = 0).  resize(c, dl, dc) of an AUGMENTED mixture describes the noise-free layout: it also
   shrinks dim and dim_covariance, takes the full-resize branch and does not preserve anything
   (C11_resize_components_preserves_with_noise_refuted) - outside this clause of the property. *)
Theorem C11_resize_components_preserves c g : Consistent S g -> dn S g = 0 ->
  let g' := gm_resize S junk c (dl S g) (dc S g) g in
  components S g' = c /\ dim S g' = dim S g /\ dcov S g' = dcov S g /\ dl S g' = dl S g /\ dc S g' = dc S g
  /\ dn S g' = 0 /\ use_quat S g' = use_quat S g /\ dcc S g' = dcc S g
  /\ (forall i, i < c -> i < components S g ->
        gm_mean S g' i = gm_mean S g i /\ gm_cov S g' i = gm_cov S g i /\ gm_weight S g' i = gm_weight S g i)
  /\ (forall i r, components S g <= i -> i < c -> r < dim S g -> get S (mean_ S g') r i = junk).
Proof.
  intros HC Hn. pose proof HC as (H1 & H2 & H3 & (R4 & C4 & W4) & (R5 & C5 & W5) & (R6 & C6 & W6)). cbv zeta.
  unfold gm_resize. rewrite !Nat.eqb_refl. simpl.
  destruct (Nat.eqb_spec (components S g) c) as [E|E]; simpl.
  - subst c. repeat split; auto. intros. lia.
  - assert (E1 : dim S g = dl S g + dc S g * dcc S g) by lia.
    assert (E2 : dcov S g = (if use_quat S g then dl S g + dc S g * (dcc S g - 1) else dl S g + dc S g * dcc S g)).
    { rewrite H3, H2, Hn. destruct (use_quat S g); simpl; lia. }
    rewrite <- E2, <- E1, !Nat.eqb_refl. simpl.
    do 8 (split; [reflexivity|]). split.
    + intros i Hi Hi'. unfold gm_mean, gm_cov, gm_weight; simpl. split; [|split].
      * apply e_col_cresize_cols; lia.
      * apply e_middle_cols_cresize_cols; [rewrite C5|]; apply block_le; assumption.
      * rewrite get_e_cresize_vec by lia. rewrite (proj2 (Nat.ltb_lt _ _)) by lia. reflexivity.
    + intros i r Hi Hi' Hr. rewrite get_e_cresize_cols by lia. rewrite (proj2 (Nat.ltb_ge _ _)) by lia. reflexivity.
Qed.

Theorem C11_pset_resize_components_preserves c p : Consistent_ps S p -> dn S (base S p) = 0 ->
  let p' := ps_resize S junk c (dl S (base S p)) (dc S (base S p)) p in
  base S p' = gm_resize S junk c (dl S (base S p)) (dc S (base S p)) (base S p)
  /\ (forall i, i < c -> i < components S (base S p) -> ps_state S p' i = ps_state S p i).
Proof.
  intros [HC (Rs & Cs & _)] Hn. pose proof HC as (H1 & H2 & H3 & _). cbv zeta. unfold ps_resize.
  rewrite !Nat.eqb_refl. simpl.
  destruct (Nat.eqb_spec (components S (base S p)) c) as [E|E]; simpl.
  - subst c. unfold gm_resize. rewrite !Nat.eqb_refl. simpl. auto.
  - split; [reflexivity|].
    assert (E1 : dim S (base S p) = dl S (base S p) + dc S (base S p) * dcc S (base S p)) by lia.
    rewrite <- E1, Nat.eqb_refl. simpl. intros i Hi Hi'. apply e_col_cresize_cols; lia.
Qed.

(* noise augmentation: [m_i; 0] and blockdiag(P_i, Q) for every component, weights kept *)
Theorem C11_augment_content q g : Consistent S g -> 1 <= components S g -> mrows S q = mcols S q ->
  let g' := snd (gm_augment S q g) in
  fst (gm_augment S q g) = true
  /\ components S g' = components S g /\ dl S g' = dl S g /\ dc S g' = dc S g
  /\ use_quat S g' = use_quat S g /\ dcc S g' = dcc S g
  /\ dn S g' = dn S g + mrows S q /\ dim S g' = dim S g + mrows S q /\ dcov S g' = dcov S g + mrows S q
  /\ forall i, i < components S g ->
       gm_mean S g' i = vcat S (gm_mean S g i) (e_zero S (mrows S q) 1)
       /\ gm_cov S g' i = blockdiag S (gm_cov S g i) q
       /\ gm_weight S g' i = gm_weight S g i.
Proof. exact (gm_augment_content S q g). Qed.

(* a non-square noise covariance is refused and nothing changes *)
Theorem C11_augment_nonsquare q g : mrows S q <> mcols S q -> gm_augment S q g = (false, g).
Proof. intros H. unfold gm_augment. destruct (Nat.eqb_spec (mrows S q) (mcols S q)); [contradiction|reflexivity]. Qed.

(* also when applied to an already augmented mixture *)
Theorem C11_augment_twice_content q1 q2 g :
  Consistent S g -> 1 <= components S g -> mrows S q1 = mcols S q1 -> mrows S q2 = mcols S q2 ->
  let g2 := snd (gm_augment S q2 (snd (gm_augment S q1 g))) in
  dn S g2 = dn S g + mrows S q1 + mrows S q2
  /\ forall i, i < components S g ->
       gm_mean S g2 i = vcat S (vcat S (gm_mean S g i) (e_zero S (mrows S q1) 1)) (e_zero S (mrows S q2) 1)
       /\ gm_cov S g2 i = blockdiag S (blockdiag S (gm_cov S g i) q1) q2.
Proof.
  intros HC Hc H1 H2. cbv zeta.
  destruct (gm_augment_all_content S [q1; q2] g HC Hc (Forall_cons _ H1 (Forall_cons _ H2 (Forall_nil _))))
    as (_ & _ & _ & _ & _ & _ & En & _ & _ & Hi).
  cbn [gm_augment_all fold_left map list_sum fold_right] in En, Hi.
  split; [lia|]. intros i Hlt. destruct (Hi i Hlt) as (M & V & _). exact (conj M V).
Qed.

(* ANY number of augmentations (the history GAugment q1; ...; GAugment qk), and the parts the algorithms address
   through the descriptors: state part = the first dim - dim_noise rows / the top-left block of that size, noise
   part = mean(i).tail(dim_noise) / covariance(i).bottomRightCorner(dim_noise, dim_noise).  The state parts
   never change; every augmentation appends zero rows to the noise mean and Q, block-diagonally, to the noise
   covariance *)
Theorem C11_augment_repeated_content qs g : Consistent S g -> 1 <= components S g -> all_square S qs ->
  let g' := gm_augment_all S qs g in
  let R := list_sum (map (mrows S) qs) in
  gm_run S junk (map (GAugment S) qs) g = Some g'
  /\ Consistent S g' /\ components S g' = components S g /\ dl S g' = dl S g /\ dc S g' = dc S g
  /\ use_quat S g' = use_quat S g /\ dcc S g' = dcc S g
  /\ dn S g' = dn S g + R /\ dim S g' = dim S g + R /\ dcov S g' = dcov S g + R
  /\ forall i, i < components S g ->
       gm_mean S g' i = fold_left (add_zero_rows S) qs (gm_mean S g i)
       /\ gm_cov S g' i = fold_left (blockdiag S) qs (gm_cov S g i)
       /\ gm_weight S g' i = gm_weight S g i
       /\ gm_state_mean S g' i = gm_state_mean S g i
       /\ gm_noise_mean S g' i = fold_left (add_zero_rows S) qs (gm_noise_mean S g i)
       /\ gm_state_cov S g' i = gm_state_cov S g i
       /\ gm_noise_cov S g' i = fold_left (blockdiag S) qs (gm_noise_cov S g i).
Proof. exact (fun HC Hc Hq => conj (gm_augment_all_is_run S junk qs g Hc) (gm_augment_all_content S qs g HC Hc Hq)). Qed.

(* in particular the noise part of every mean of a mixture that started without noise is zero *)
Theorem C11_noise_mean_zero qs g i : Consistent S g -> 1 <= components S g -> all_square S qs -> dn S g = 0 ->
  i < components S g ->
  forall r, r < dn S (gm_augment_all S qs g) -> get S (gm_noise_mean S (gm_augment_all S qs g) i) r 0 = s0 S.
Proof.
  intros HC Hc Hq Hn Hi r Hr.
  destruct (gm_augment_all_content S qs g HC Hc Hq) as (HC' & _ & _ & _ & _ & _ & _ & _ & _ & Hcomp).
  destruct (Hcomp i Hi) as (_ & _ & _ & _ & EN & _).
  rewrite <- (mrows_gm_noise_mean S _ i HC') in Hr. rewrite EN in *.
  apply (add_zero_rows_zero S qs (gm_noise_mean S g i)); [reflexivity| |exact Hr].
  (* the noise part of the start has no rows *)
  intros x Hx. rewrite (mrows_gm_noise_mean S g i HC), Hn in Hx. lia.
Qed.

(* a particle set: the Gaussian part as above, particle states become [x_i; 0] *)
Theorem C11_pset_augment_content q p : Consistent_ps S p -> 1 <= components S (base S p) -> mrows S q = mcols S q ->
  let p' := snd (ps_augment S q p) in
  fst (ps_augment S q p) = true /\ base S p' = snd (gm_augment S q (base S p))
  /\ forall i, i < components S (base S p) -> ps_state S p' i = vcat S (ps_state S p i) (e_zero S (mrows S q) 1).
Proof.
  intros [HC (Rs & Cs & _)] Hc Hsq. cbv zeta. unfold ps_augment.
  destruct (gm_augment_content S q (base S p) HC Hc Hsq) as (E & E1 & _ & _ & _ & _ & _ & E2 & _).
  rewrite E. simpl. split; [reflexivity|]. split; [reflexivity|]. intros i Hi.
  unfold ps_state. cbn [state_]. rewrite E1, E2. apply e_col_append_zero_rows; lia.
Qed.

(* the particles' own state and noise parts *)
Theorem C11_pset_augment_parts q p : Consistent_ps S p -> 1 <= components S (base S p) -> mrows S q = mcols S q ->
  let p' := snd (ps_augment S q p) in
  forall i, i < components S (base S p) ->
    ps_state_part S p' i = ps_state_part S p i
    /\ ps_noise_part S p' i = vcat S (ps_noise_part S p i) (e_zero S (mrows S q) 1).
Proof.
  intros HP Hc Hq. cbv zeta. intros i Hi.
  destruct (C11_pset_augment_content q p HP Hc Hq) as (_ & Eb & Hst).
  destruct HP as [HC Hs].
  destruct (gm_augment_content S q (base S p) HC Hc Hq) as (_ & _ & _ & _ & _ & _ & En & Ed & _ & _).
  assert (Rm : mrows S (ps_state S p i) = dim S (base S p)) by apply Hs.
  pose proof HC as (H1 & _).
  unfold ps_state_part, ps_noise_part. rewrite (Hst i Hi), Eb, En, Ed.
  replace (dim S (base S p) + mrows S q - (dn S (base S p) + mrows S q)) with (dim S (base S p) - dn S (base S p)) by lia.
  split; [apply rows_upto_vcat; lia|apply rows_from_vcat; lia].
Qed.

(* concatenation: the components of both operands in order, layout descriptors of the left operand *)
Theorem C11_concat_content rhs p : Consistent_ps S p -> concat_ok S rhs p ->
  let p' := ps_concat S junk rhs p in
  let g := base S p in let r := base S rhs in let g' := base S p' in
  components S g' = components S g + components S r
  /\ dim S g' = dim S g /\ dcov S g' = dcov S g /\ dl S g' = dl S g /\ dc S g' = dc S g /\ dn S g' = dn S g
  /\ use_quat S g' = use_quat S g /\ dcc S g' = dcc S g
  /\ (forall i, i < components S g ->
        gm_mean S g' i = gm_mean S g i /\ gm_cov S g' i = gm_cov S g i
        /\ gm_weight S g' i = gm_weight S g i /\ ps_state S p' i = ps_state S p i)
  /\ (forall i, i < components S r ->
        gm_mean S g' (components S g + i) = gm_mean S r i /\ gm_cov S g' (components S g + i) = gm_cov S r i
        /\ gm_weight S g' (components S g + i) = gm_weight S r i
        /\ ps_state S p' (components S g + i) = ps_state S rhs i).
Proof.
  intros [HC Hs] ([HCr Hsr] & Ed & Ev).
  pose proof HC as (_ & _ & _ & (R4 & C4 & _) & (R5 & C5 & _) & (R6 & C6 & _)).
  pose proof HCr as (_ & _ & _ & (R4r & C4r & _) & (R5r & C5r & _) & (R6r & C6r & _)).
  destruct Hs as (Rs & Cs & _). destruct Hsr as (Rsr & Csr & _).
  cbv zeta. unfold ps_concat, gm_mean, gm_cov, gm_weight, ps_state. cbn [base state_ mean_ cov_ weight_ dcov components dim dl dc dn use_quat dcc].
  autorewrite with mxdim.
  set (n1 := components S (base S p)) in *. set (n2 := components S (base S rhs)) in *.
  set (dv := dcov S (base S p)) in *.
  repeat (split; [reflexivity|]).
  split; intros i Hi; (split; [|split; [|split]]).
  - rewrite !e_col_as_middle. apply e_middle_cols_append_left; lia.
  - pose proof (block_le dv i n1 Hi). apply e_middle_cols_append_left; lia.
  - apply get_append_vec_left; lia.
  - rewrite !e_col_as_middle. apply e_middle_cols_append_left; lia.
  - rewrite !e_col_as_middle. apply e_middle_cols_append_right; lia.
  - rewrite Ev in *. pose proof (block_le dv i n2 Hi). apply e_middle_cols_append_right; lia.
  - rewrite get_append_vec_right by lia. f_equal; lia.
  - rewrite !e_col_as_middle. apply e_middle_cols_append_right; lia.
Qed.

Theorem C11_plus_is_concat lhs rhs : ps_plus S junk lhs rhs = ps_concat S junk rhs lhs.
Proof. exact (ps_plus_is_concat S junk lhs rhs). Qed.

(* for a right operand that is a DISTINCT object (the model passes it by value), the premise of
   C11_concat_content is exactly "no Eigen assertion in operator+=" ... *)
Theorem C11_concat_defined_iff rhs p : Consistent_ps S p -> Consistent_ps S rhs -> 1 <= components S (base S rhs) ->
  (ps_concat_defined S junk rhs p = true <-> concat_ok S rhs p).
Proof.
  intros [HC Hs] [HCr Hsr] Hn.
  pose proof HC as (_ & _ & _ & (R4 & C4 & _) & (R5 & C5 & _) & (R6 & C6 & _)).
  pose proof HCr as (_ & _ & _ & (R4r & C4r & _) & (R5r & C5r & _) & (R6r & C6r & _)).
  pose proof Hs as (Rs & Cs & _). pose proof Hsr as (Rsr & Csr & _).
  unfold ps_concat_defined. rewrite !andb_true_iff, !blk_ok_iff. autorewrite with mxdim.
  rewrite mcols_e_cresize_vec by exact C6. split.
  - intros (((_ & E1 & _) & E2 & _) & _). split; [split; assumption|]. split; lia.
  - intros (_ & Ed & Ev). rewrite Ev in *. repeat split; lia.
Qed.

(* ... whereas the aliased call p += p (the operand is enlarged by the first conservativeResize
   before it is read) is defined only for an empty set *)
Theorem C11_concat_self_defined_iff p : Consistent_ps S p ->
  (ps_concat_self_defined S junk p = true <-> components S (base S p) = 0).
Proof.
  intros [HC Hs].
  pose proof HC as (_ & _ & _ & (R4 & C4 & _) & (R5 & C5 & _) & (R6 & C6 & _)). destruct Hs as (Rs & Cs & _).
  unfold ps_concat_self_defined. rewrite !andb_true_iff, !blk_ok_iff. autorewrite with mxdim.
  rewrite mcols_e_cresize_vec by exact C6. split.
  - intros (_ & E & _). lia.
  - intros E. rewrite E, !Nat.mul_0_r. repeat split; lia.
Qed.

End C11.

(* what is NOT true of the code (witnesses over Z, replayed on the library by the corpus cases) *)
(* Resizing an AUGMENTED mixture to its noise-free layout with another component count is not
   "changing only the number of components": dim and dim_covariance shrink, the full-resize branch
   is taken, and because Eigen's resize keeps a buffer of unchanged size (3x2 -> 2x3) the old
   cells reappear at other positions.  Premise dn = 0 of C11_resize_components_preserves is needed. *)
Theorem C11_resize_components_preserves_with_noise_refuted :
  exists (g : gm ZOps) (c i r : nat),
    Consistent ZOps g /\ dn ZOps g = 1 /\ i < c /\ i < components ZOps g /\ r < dl ZOps g + dc ZOps g * dcc ZOps g
    /\ gm_mean_el ZOps (gm_resize ZOps 0%Z c (dl ZOps g) (dc ZOps g) g) i r <> gm_mean_el ZOps g i r.
Proof.
  exists (snd (gm_augment ZOps (mk ZOps 1 1 (fun _ _ => 9%Z)) (gm_fill ZOps 1%Z (gm_ctor ZOps 2 2 0 false)))), 3, 1, 0.
  split; [apply gm_augment_consistent; apply gm_fill_consistent; apply gm_ctor_consistent|].
  split; [reflexivity|]. split; [lia|]. split; [vm_compute; lia|]. split; [vm_compute; lia|].
  vm_compute. intro H. discriminate H.
Qed.

(* A Gaussian resized through a GaussianMixture& (the virtual 3-argument resize, hidden but not
   overridden by Gaussian::resize) stops being a one-component object; Gaussian::covariance()
   then returns the storage of all components. *)
Theorem C11_gauss_base_resize_refuted :
  exists (g : gm ZOps) (c l ci : nat),
    Gaussian_ok ZOps g /\ Consistent ZOps (gauss_apply ZOps 0%Z (NResizeBase ZOps c l ci) g)
    /\ ~ Gaussian_ok ZOps (gauss_apply ZOps 0%Z (NResizeBase ZOps c l ci) g)
    /\ gauss_cov ZOps (gauss_apply ZOps 0%Z (NResizeBase ZOps c l ci) g)
        <> gm_cov ZOps (gauss_apply ZOps 0%Z (NResizeBase ZOps c l ci) g) 0.
Proof.
  exists (gauss_ctor ZOps 2 0 false), 3, 2, 0.
  split; [split; [apply gm_ctor_consistent|reflexivity]|].
  split; [apply gauss_apply_consistent; apply gm_ctor_consistent|].
  split; [intros [_ H]; vm_compute in H; discriminate H|].
  (* 6 columns against 2 *)
  intro H. apply (f_equal (mcols ZOps)) in H. vm_compute in H. discriminate H.
Qed.

(* non-vacuity: a concrete run over exact rationals.  A 3-component mixture (1 linear, 1 circular
   Euler state) filled with 1..21, augmented with Q = (9), then again with a 2x2 Q, then only its
   number of components changed (noise counted as linear): the invariant holds at each step and component 1 is
   [m;0;0;0], blockdiag(blockdiag(P1, 9), Q2). *)
Definition QJ : Q := (-1 # 1)%Q.
Example C11_concrete_Q :
  let g0 := gm_fill QOps 1%Z (gm_ctor QOps 3 1 1 false) in
  let q1 := mk QOps 1 1 (fun _ _ => 9%Q) in
  let q2 := mk QOps 2 2 (fun i j => inject_Z (20 + Z.of_nat (2 * j + i))) in
  let g1 := snd (gm_augment QOps q1 g0) in
  let g2 := snd (gm_augment QOps q2 g1) in
  let g3 := gm_resize QOps QJ 2 (dl QOps g2 + dn QOps g2) (dc QOps g2) g2 in
  gm_consistentb QOps g0 && gm_consistentb QOps g1 && gm_consistentb QOps g2 && gm_consistentb QOps g3
  && (dim QOps g2 =? 5) && (dn QOps g2 =? 3) && (dn QOps g3 =? 0) && (dim QOps g3 =? 5)
  && qmx_eqb (mdata QOps (gm_mean QOps g2 1)) [[3; 4; 0; 0; 0]]%Q
  && qmx_eqb (mdata QOps (gm_cov QOps g2 1))
             [[11; 12; 0; 0; 0]; [13; 14; 0; 0; 0]; [0; 0; 9; 0; 0]; [0; 0; 0; 20; 21]; [0; 0; 0; 22; 23]]%Q
  && qmx_eqb (mdata QOps (gm_cov QOps g3 1)) (mdata QOps (gm_cov QOps g2 1))
  = true.
Proof. vm_compute. reflexivity. Qed.

(* ... and a particle set: (2; 2 linear) filled, augmented, then `+=` an equal-sized set *)
Example C11_concrete_pset_Q :
  let p0 := ps_fill QOps 1%Z (ps_ctor QOps 2 2 0 false) in
  let p1 := snd (ps_augment QOps (mk QOps 1 1 (fun _ _ => 9%Q)) p0) in
  let r := ps_fill QOps 100%Z (ps_ctor QOps 1 3 0 false) in
  let p2 := ps_concat QOps QJ r p1 in
  ps_consistentb QOps p1 && ps_consistentb QOps p2 && ps_concat_defined QOps QJ r p1
  && (components QOps (base QOps p2) =? 3)
  && qmx_eqb (mdata QOps (state_ QOps p2)) [[15; 16; 0]; [17; 18; 0]; [113; 114; 115]]%Q
  = true.
Proof. vm_compute. reflexivity. Qed.

(* ... and guarded runs: a defined history ends in Some consistent object; the histories on which the
   C++ is undefined are rejected: square augmentation of a 0-component mixture, x += x, += of a set of
   another size, augmentation of a single Gaussian with its own covariance() *)
Example C11_runs_Q :
  let q1 := mk QOps 1 1 (fun _ _ => 9%Q) in
  let r3 := ps_fill QOps 100%Z (ps_ctor QOps 1 3 0 false) in
  (match gm_run QOps QJ [GFill QOps 1%Z; GAugment QOps q1; GAugmentSelf QOps; GResize QOps 2 2 1]
                (gm_ctor QOps 3 1 1 false) with Some g => gm_consistentb QOps g && (components QOps g =? 2) | None => false end)
  && (match gm_run QOps QJ [GAugment QOps q1] (gm_ctor QOps 0 2 0 false) with None => true | Some _ => false end)
  && (match gm_run QOps QJ [GFill QOps 1%Z; GAugmentSelf QOps] (gm_ctor QOps 1 2 0 false) with None => true | Some _ => false end)
  && (match ps_run QOps QJ [PFill QOps 1%Z; PConcatSelf QOps] (ps_ctor QOps 2 2 0 false) with None => true | Some _ => false end)
  && (match ps_run QOps QJ [PConcat QOps r3] (ps_ctor QOps 2 2 0 false) with None => true | Some _ => false end)
  && (match ps_run QOps QJ [PConcatSelf QOps; PAugment QOps q1] (ps_ctor QOps 0 2 0 false) with None => true | Some _ => false end)
  && (match ps_run QOps QJ [PAugment QOps q1; PConcat QOps r3; PPlus QOps r3] (ps_ctor QOps 2 2 0 false)
      with Some p => ps_consistentb QOps p && (components QOps (base QOps p) =? 4) | None => false end)
  = true.
Proof. vm_compute. reflexivity. Qed.

(* ... and pools: a mixture filled and augmented, copied into a slot of another layout, moved on into a third
   one (the source is then unavailable: looking at it is outside the premises), a slot re-initialised from a
   temporary of a quaternion layout, an object assigned an augmented copy of ITSELF, a self-assignment; and
   r = a + b for two augmented particle sets a, b and an unrelated r (descriptors and data of the sum) *)
Example C11_pool_runs_Q :
  let q1 := mk QOps 1 1 (fun _ _ => 9%Q) in
  let gl := [(2, 1, 1, false); (1, 3, 0, false); (4, 0, 2, true)] in
  (match gm_krun QOps QJ [KOn 0 (GFill QOps 1%Z); KOn 0 (GAugment QOps q1); KCopy 1 0; KMove 2 1;
                          KTemp 1 (EFresh (3, 2, 1, true)); KTemp 0 (EOp (GAugment QOps q1) (ESlot 0)); KCopy 2 2]
                 (gm_pool0 QOps gl) with
   | Some p => forallb (fun s => gm_consistentb QOps (fst s)) p
               && (match slot_get p 0 with Some g => (dn QOps g =? 2) && (dim QOps g =? 4) | None => false end)
               && (match slot_get p 1 with Some g => (dn QOps g =? 0) && (components QOps g =? 3) && (dcov QOps g =? 5) | None => false end)
               && (match slot_get p 2 with
                   | Some g => (dn QOps g =? 1) && (components QOps g =? 2) && qmx_eqb (mdata QOps (gm_mean QOps g 1)) [[3; 4; 0]]%Q
                   | None => false end)
   | None => false end)
  && (match gm_krun QOps QJ [KMove 1 0; KLook 0] (gm_pool0 QOps gl) with None => true | Some _ => false end)
  && (match gm_krun QOps QJ [KMove 1 0; KCopy 0 1; KLook 0] (gm_pool0 QOps gl) with Some _ => true | None => false end)
  && (match ps_krun QOps QJ [KOn 0 (PFill QOps 1%Z); KOn 1 (PFill QOps 100%Z); KOn 0 (PAugment QOps q1); KOn 1 (PAugment QOps q1);
                             KTemp 2 (EBin (ESlot 0) (ESlot 1))]
                 (ps_pool0 QOps [(2, 2, 0, false); (1, 2, 0, false); (1, 1, 0, false)]) with
      | Some p => forallb (fun s => ps_consistentb QOps (fst s)) p
                  && (match slot_get p 2 with
                      | Some x => (components QOps (base QOps x) =? 3) && (dn QOps (base QOps x) =? 1) && (dim QOps (base QOps x) =? 3)
                                  && qmx_eqb (mdata QOps (state_ QOps x)) [[15; 16; 0]; [17; 18; 0]; [107; 108; 0]]%Q
                      | None => false end)
      | None => false end)
  = true.
Proof. vm_compute. reflexivity. Qed.

Print Assumptions C11_ctor_consistent.
Print Assumptions C11_ctor_uniform_weights.
Print Assumptions C11_inv.
Print Assumptions C11_reachable.
Print Assumptions C11_gauss_reachable.
Print Assumptions C11_pset_inv.
Print Assumptions C11_pset_reachable.
Print Assumptions C11_pool_reachable.
Print Assumptions C11_gauss_pool_reachable.
Print Assumptions C11_pset_pool_reachable.
Print Assumptions C11_copy_exact.
Print Assumptions C11_move_exact.
Print Assumptions C11_temporary_exact.
Print Assumptions C11_assign_function_result.
Print Assumptions C11_assign_sum.
Print Assumptions C11_pool_single_history.
Print Assumptions C11_copy_is_identity.
Print Assumptions C11_invariant_executable.
Print Assumptions C11_accessors.
Print Assumptions C11_pset_accessors.
Print Assumptions C11_gauss_accessors.
Print Assumptions C11_storage_is_concatenation_of_blocks.
Print Assumptions C11_components_view.
Print Assumptions C11_pset_components_view.
Print Assumptions C11_view_determines_storage.
Print Assumptions C11_write_mean_el.
Print Assumptions C11_write_cov_el.
Print Assumptions C11_write_weight.
Print Assumptions C11_write_state_el.
Print Assumptions C11_write_blocks.
Print Assumptions C11_fill_through_accessors.
Print Assumptions C11_resize_components_preserves.
Print Assumptions C11_pset_resize_components_preserves.
Print Assumptions C11_augment_content.
Print Assumptions C11_augment_nonsquare.
Print Assumptions C11_augment_twice_content.
Print Assumptions C11_augment_repeated_content.
Print Assumptions C11_noise_mean_zero.
Print Assumptions C11_pset_augment_content.
Print Assumptions C11_pset_augment_parts.
Print Assumptions C11_concat_content.
Print Assumptions C11_plus_is_concat.
Print Assumptions C11_concat_defined_iff.
Print Assumptions C11_concat_self_defined_iff.
Print Assumptions C11_resize_components_preserves_with_noise_refuted.
Print Assumptions C11_gauss_base_resize_refuted.
