(* C03_Proofs.v — the unscented-transform model at the MathComp instance, linear layouts.
   The transform of one component is exact on affine maps for any weighted point set with
   total weight 1, mean m and covariance P (ut_component_affine); the sigma set drawn from
   (m, P) has these moments under the transform's weights (sigma_ut_M0/M1/M2); a mixture is
   handled chunk by chunk (ut_core_affine); the overloads and the augmented variant follow. *)
Require Import ZArith List Bool Lia.
Require Import BFL.Ops BFL.ListFacts BFL.C03_Model.
From mathcomp Require Import ssreflect ssrfun ssrbool eqtype ssrnat seq choice fintype bigop order ssralg ssrnum ssrint zmodp matrix mxalgebra.
Require Import BFL.MxOps BFL.LinAlg.
Set Implicit Arguments.
Unset Strict Implicit.
Unset Printing Implicit Defensive.
Import Order.Theory GRing.Theory Num.Theory.
Local Open Scope ring_scope.

Section Lists.
Lemma seq_iota a n : List.seq a n = iota a n.
Proof. exact: MxOps.seq_iota. Qed.

Lemma lmap_map A B (f : A -> B) l : List.map f l = map f l.
Proof. by elim: l => [|x l IH] //=; rewrite IH. Qed.

Lemma app_cat A (l1 l2 : list A) : (l1 ++ l2)%list = l1 ++ l2.
Proof. by elim: l1 => [|x l IH] //=; rewrite IH. Qed.

(* middleCols(base * i, base) of a concatenation of blocks of width base *)
Lemma chunk_concat A (b : nat) (ls : list (list A)) (i : nat) :
  (forall l, In l ls -> length l = b) -> (i < length ls)%coq_nat ->
  chunk b i (concat ls) = List.nth i ls [::].
Proof. exact: firstn_skipn_concat. Qed.

Lemma chunk_map A B (f : A -> B) b i l : chunk b i (List.map f l) = List.map f (chunk b i l).
Proof. by rewrite /chunk skipn_map firstn_map. Qed.

Lemma map_indexed A B (h : nat -> A -> B) (g : A -> B) (l : list A) (d : A) :
  (forall i, (i < length l)%coq_nat -> h i (List.nth i l d) = g (List.nth i l d)) ->
  List.map (fun ic : nat * A => h ic.1 ic.2) (combine (List.seq 0 (length l)) l) = List.map g l.
Proof.
have gen : forall a, (forall i, (i < length l)%coq_nat -> h (a + i)%coq_nat (List.nth i l d) = g (List.nth i l d)) ->
   List.map (fun ic : nat * A => h ic.1 ic.2) (combine (List.seq a (length l)) l) = List.map g l.
  elim: l => [|x l IH] a H //=.
  rewrite -(H 0%N) /=; last by lia.
  rewrite Nat.add_0_r IH // => i Hi.
  by have := H i.+1; rewrite /= Nat.add_succ_r; apply; lia.
by move=> H; apply: gen => i Hi; rewrite Nat.add_0_l; apply: H.
Qed.
End Lists.

Section ListSums.
Variable V : zmodType.
Variable A : Type.

Definition lsum (g : A -> V) (l : list A) : V := fold_left (fun acc p => acc + g p) l 0.

Lemma fold_left_acc (g : A -> V) l a :
  fold_left (fun acc p => acc + g p) l a = a + lsum g l.
Proof.
rewrite /lsum; elim: l a => [|x l IH] a /=; first by rewrite addr0.
by rewrite IH [in RHS]IH add0r addrA.
Qed.

Lemma lsum_nil g : lsum g [::] = 0. Proof. by []. Qed.
Lemma lsum_cons g x l : lsum g (x :: l) = g x + lsum g l.
Proof. by rewrite /lsum /= fold_left_acc add0r. Qed.

Lemma lsumE g l : lsum g l = \sum_(x <- l) g x.
Proof. by elim: l => [|x l IH]; rewrite ?lsum_nil ?big_nil // lsum_cons big_cons IH. Qed.
End ListSums.

Lemma lsum_map (V : zmodType) A B (g : B -> V) (h : A -> B) l :
  lsum g (List.map h l) = lsum (fun x => g (h x)) l.
Proof. by rewrite !lsumE lmap_map big_map. Qed.

Section Generic.
Variable O : MatOps.
(* a function that cannot fail: the generic overload is the StateModel one *)
Lemma ut_generic_total Lin Lout d dc p pc dx (w : utw O) (comps : list (M O d 1 * M O dc dc))
      (g : list (M O d 1) -> list (M O p 1)) :
  ut_generic Lin Lout pc dx w comps (fun X => Some (g X)) = Some (ut_state Lin Lout pc dx w comps g).
Proof. by []. Qed.
End Generic.

Section UTMx.
Variable F : realFieldType.
Variable tr : Transc F.
Variable sq : forall n, 'M[F]_n -> 'M[F]_n.
Variable eg : forall n, 'M[F]_n -> 'M[F]_(n,1).
Let O := MxMat tr sq eg.
Let S := FOps tr.

Lemma sofnatE n : sofnat S n = n%:R.
Proof. exact: sofnat_natr. Qed.

Lemma s2E : s2 S = 2%:R. Proof. by rewrite /s2 /= -mulr2n. Qed.

Lemma ssumE (l : list F) : ssum S l = \sum_(x <- l) x.
Proof. by rewrite /ssum -[RHS](lsumE (fun x => x)) /lsum. Qed.

Lemma sum_repeat (x : F) k : \sum_(y <- repeat x k) y = x *+ k.
Proof. by elim: k => [|k IH]; rewrite /= ?big_nil ?mulr0n // big_cons IH mulrS. Qed.

Section Weights.
Variables (n : nat) (alpha beta kappa : F).
Let lam := alpha * alpha * (n%:R + kappa) - n%:R.
Let c := n%:R + lam.

Lemma ut_lambdaE : ut_lambda (O:=O) n alpha kappa = lam.
Proof. by rewrite /ut_lambda /= !ZnatE. Qed.

Lemma ut_weights_c : w_c (ut_weights (O:=O) n alpha beta kappa) = c.
Proof. by rewrite /ut_weights /= -/(ut_lambda (O:=O) n alpha kappa) ut_lambdaE ZnatE. Qed.

Lemma ut_weights_c_alt : c = alpha * alpha * (n%:R + kappa).
Proof. by rewrite /c /lam addrC subrK. Qed.

Lemma ut_weights_mean :
  w_mean (ut_weights (O:=O) n alpha beta kappa) = (lam / c) :: repeat (1 / (2%:R * c)) (2 * n).
Proof. by rewrite /ut_weights [LHS]/= -/(ut_lambda (O:=O) n alpha kappa) ut_lambdaE ZnatE -mulr2n. Qed.

Lemma ut_weights_cov :
  w_cov (ut_weights (O:=O) n alpha beta kappa) =
  (lam / c + (1 - alpha * alpha + beta)) :: repeat (1 / (2%:R * c)) (2 * n).
Proof. by rewrite /ut_weights [LHS]/= -/(ut_lambda (O:=O) n alpha kappa) ut_lambdaE ZnatE -mulr2n. Qed.

(* the two normalisations everything below needs of the weights: they sum to one, and the
   2n equal ones, times 2 c, give one *)
Lemma ut_wmean_sum : w_c (ut_weights (O:=O) n alpha beta kappa) != 0 ->
  lam / c + (1 / (2%:R * c)) *+ (2 * n) = 1.
Proof.
rewrite ut_weights_c => c0; have h2 : (2%:R : F) != 0 by rewrite pnatr_eq0.
rewrite -[X in _ + X]mulr_natr natrM mul1r invfM mulrACA mulVf // mul1r.
by rewrite mulrC -mulrDl [lam + _]addrC divff.
Qed.

Lemma ut_wi_c : w_c (ut_weights (O:=O) n alpha beta kappa) != 0 -> (1 / (2%:R * c)) *+ 2 * c = 1.
Proof.
rewrite ut_weights_c => c0; have h2 : (2%:R : F) != 0 by rewrite pnatr_eq0.
by rewrite -[_ *+ 2]mulr_natl mul1r invfM mulrA mulfV // mul1r mulVf.
Qed.
End Weights.

(* total weight and second moment about m of a weighted point set; wsum is the first moment *)
Definition M0 d (ws : list F) (xs : list 'cV[F]_d) : F := lsum (fun p => p.1) (combine ws xs).
Definition M2 d (ws : list F) (xs : list 'cV[F]_d) (m : 'cV[F]_d) : 'M[F]_d :=
  lsum (fun p => p.1 *: ((p.2 - m) *m (p.2 - m)^T)) (combine ws xs).

Lemma wsumE d (ws : list F) (xs : list 'cV[F]_d) :
  wsum (O:=O) ws xs = lsum (fun p => p.1 *: p.2) (combine ws xs).
Proof. by []. Qed.

Lemma wouterE a b (ws : list F) (us : list 'cV[F]_a) (vs : list 'cV[F]_b) :
  wouter (O:=O) ws us vs = lsum (fun p => p.1 *: (p.2.1 *m p.2.2^T)) (combine ws (combine us vs)).
Proof. by []. Qed.

Lemma wsum_affine d p (Am : 'M[F]_(p,d)) (b : 'cV[F]_p) ws (xs : list 'cV[F]_d) :
  wsum (O:=O) ws (List.map (fun x => Am *m x + b) xs) =
  Am *m wsum (O:=O) ws xs + M0 ws xs *: b.
Proof.
rewrite !wsumE /M0 combine_map_r lsum_map !lsumE /=.
rewrite mulmx_sumr scaler_suml -big_split /=; apply: eq_bigr => q _.
by rewrite scalerDr scalemxAr.
Qed.

Lemma wouter_maps d a b (fu : 'cV[F]_d -> 'cV[F]_a) (fv : 'cV[F]_d -> 'cV[F]_b) ws (xs : list 'cV[F]_d) :
  wouter (O:=O) ws (List.map fu xs) (List.map fv xs) =
  lsum (fun p => p.1 *: (fu p.2 *m (fv p.2)^T)) (combine ws xs).
Proof. by rewrite wouterE combine_map2 combine_map_r lsum_map. Qed.

Lemma wouter_affine d a b (Cu : 'M[F]_(a,d)) (Cv : 'M[F]_(b,d)) (m : 'cV[F]_d) ws (xs : list 'cV[F]_d) :
  wouter (O:=O) ws (List.map (fun x => Cu *m (x - m)) xs) (List.map (fun x => Cv *m (x - m)) xs) =
  Cu *m M2 ws xs m *m Cv^T.
Proof.
rewrite wouter_maps /M2 !lsumE mulmx_sumr mulmx_suml; apply: eq_bigr => q _.
by rewrite trmx_mul -scalemxAr -scalemxAl !mulmxA.
Qed.

(* the symmetric sigma set as three sums *)
Lemma sigma_sum (V : zmodType) d (g : F * 'cV[F]_d -> V) w0 wi x0
      (f : 'cV[F]_d -> 'cV[F]_d) (g1 g2 : nat -> 'cV[F]_d) n :
  lsum g (combine (w0 :: repeat wi (2 * n))
                  (x0 :: List.map f (List.map g1 (List.seq 0 n) ++ List.map g2 (List.seq 0 n))%list)) =
  g (w0, x0) + (\sum_(k < n) g (wi, f (g1 k)) + \sum_(k < n) g (wi, f (g2 k))).
Proof.
rewrite [combine _ _]/= lsum_cons; congr (_ + _).
rewrite mul2n -addnn -plusE repeat_app map_app combine_app; last first.
  by rewrite repeat_length !map_length seq_length.
rewrite !map_map !combine_repeat_map !lmap_map !seq_iota lsumE app_cat big_cat !big_map /=.
rewrite -(big_mkord xpredT (fun k => g (wi, f (g1 k)))) -(big_mkord xpredT (fun k => g (wi, f (g2 k)))).
by rewrite /index_iota subn0.
Qed.

Lemma colget_ord r (x : 'cV[F]_r) (i : 'I_r) : colget (O:=O) x i = x i 0.
Proof. by rewrite /colget /=; exact: mx_get_col. Qed.

Lemma mcolE d e (B : 'M[F]_(d,e)) (k : 'I_e) : mcol (O:=O) k B = col k B.
Proof. by apply/matrixP=> i j; rewrite /mcol /= !mxE (mx_get_ord B i k). Qed.

Lemma sum_col_outer d e (B : 'M[F]_(d,e)) : \sum_(k < e) col k B *m (col k B)^T = B *m B^T.
Proof.
apply/matrixP=> i j; rewrite summxE !mxE; apply: eq_bigr => k _.
by rewrite !mxE big_ord1 !mxE.
Qed.

(* linear layout (+ appended noise rows): the per-row code is plain matrix algebra *)
Definition linear_layout (L : layout) (d : nat) : Prop :=
  l_circ L = 0%N /\ Nat.add (l_lin L) (l_noise L) = d.

Section LinearRows.
Variables (L : layout) (d : nat).
Hypothesis HL : linear_layout L d.

Lemma add_mean_linear central (m p : 'cV[F]_d) : add_mean (O:=O) L d d central m p = p + m.
Proof.
case: HL => Lc Ld.
apply/matrixP=> i j; rewrite /add_mean /= !mxE /add_mean_row Lc /= Nat.add_0_r Nat.sub_diag Nat.sub_0_r !mx_get_col !ord1.
(* the noise rows begin where the linear ones end *)
have -> : Nat.sub d (l_noise L) = l_lin L by lia.
by rewrite nat_ltbE nat_lebE; case: ltnP.
Qed.

(* rows [0, dx) of a vector: E *m x with E the selector *)
Definition sel (dx : nat) : 'M[F]_(dx, d) := \matrix_(i, j) ((i : nat) == j)%:R.

Lemma sel_mul dx (x : 'cV[F]_d) (i : 'I_dx) (Hd : (dx <= d)%N) :
  (sel dx *m x) i 0 = x (widen_ord Hd i) 0.
Proof.
rewrite mxE (bigD1 (widen_ord Hd i)) //= mxE eqxx mul1r big1 ?addr0 // => j Hj.
rewrite mxE; case: eqP => [E|_]; last by rewrite mul0r.
by case/eqP: Hj; apply: val_inj.
Qed.

Lemma offsets_linear_in dx (x m : 'cV[F]_d) : l_lin L = dx ->
  offsets (O:=O) L dx x m = sel dx *m (x - m).
Proof.
case: HL => Lc Ld Ldx.
have Hd : (dx <= d)%N by apply/ssrnat.leP; lia.
apply/matrixP=> i j; rewrite /offsets /= mxE ord1 (sel_mul _ _ Hd) /offset_row nat_ltbE Ldx ltn_ord.
by rewrite /colget /= !mxE -!(mx_get_col _ (widen_ord Hd i)).
Qed.
End LinearRows.

Section LinearOut.
Variables (L : layout) (p : nat).
Hypothesis HL : l_lin L = p.

Lemma out_mean_linear wm (Ys : list 'cV[F]_p) : out_mean (O:=O) L p wm Ys = wsum (O:=O) wm Ys.
Proof.
by apply/matrixP=> i j; rewrite /out_mean /= mxE ord1 nat_ltbE HL ltn_ord; exact: colget_ord.
Qed.

Lemma offsets_linear_out (y ref : 'cV[F]_p) : offsets (O:=O) L p y ref = y - ref.
Proof.
by apply/matrixP=> i j; rewrite /offsets /= !mxE ord1 /offset_row nat_ltbE HL ltn_ord !colget_ord.
Qed.
End LinearOut.

Local Opaque mcol.
Section SigmaMoments.
Variables (L : layout) (d : nat).
Hypothesis HL : linear_layout L d.
Variables (c : F) (m : 'cV[F]_d) (P : 'M[F]_d).
Let s := t_sqrt tr c.
Let B : 'M[F]_d := s *: sq P.

Lemma sigma_comp_linear :
  sigma_comp (O:=O) L d d c m P =
  m :: List.map (fun p => p + m)
         (List.map (fun k => mcol (O:=O) k B) (List.seq 0 d) ++
          List.map (fun k => mcol (O:=O) k (- B)) (List.seq 0 d))%list.
Proof.
rewrite /sigma_comp (add_mean_linear HL) [mzero _ _]/= add0r; congr (_ :: _).
rewrite /perturbations [mscale _ _]/= [mscale _ _]/= scaleNr -/s -/B.
by apply: map_ext => p; rewrite (add_mean_linear HL).
Qed.

Lemma sigma_comp_length : length (sigma_comp (O:=O) L d d c m P) = Nat.add (Nat.mul 2 d) 1.
Proof. by rewrite sigma_comp_linear /= map_length app_length !map_length !seq_length; lia. Qed.

Lemma sigma_comp_first x : List.nth 0 (sigma_comp (O:=O) L d d c m P) x = m.
Proof. by rewrite sigma_comp_linear. Qed.

Variables (w0 wi : F).
Let ws := w0 :: repeat wi (2 * d).

Lemma sigma_M0 : M0 ws (sigma_comp (O:=O) L d d c m P) = w0 + wi *+ (2 * d).
Proof.
rewrite /M0 sigma_comp_linear sigma_sum /= !sumr_const card_ord -mulrnDr.
by rewrite addnn mul2n.
Qed.

Lemma sigma_M1 : wsum (O:=O) ws (sigma_comp (O:=O) L d d c m P) = (w0 + wi *+ (2 * d)) *: m.
Proof.
rewrite wsumE sigma_comp_linear sigma_sum /= -big_split /=.
rewrite (eq_bigr (fun _ => wi *: (m + m))); last first.
  move=> k _; rewrite !mcolE linearN /= -scalerDr; congr (_ *: _).
  by rewrite addrACA subrr add0r.
rewrite sumr_const card_ord scalerDl; congr (_ + _).
by rewrite -mulr2n scalerMnr -mulrnA -scalerMnr scalerMnl.
Qed.

Lemma sigma_M2 : s * s = c -> sq P *m (sq P)^T = P ->
  M2 ws (sigma_comp (O:=O) L d d c m P) m = (wi *+ 2 * c) *: P.
Proof.
move=> Hs HA; rewrite /M2 sigma_comp_linear sigma_sum /= subrr mul0mx scaler0 add0r.
have E (C : 'M[F]_d) :
    \sum_(k < d) wi *: ((mcol (O:=O) k C + m - m) *m (mcol (O:=O) k C + m - m)^T) = wi *: (C *m C^T).
  by rewrite -scaler_sumr -sum_col_outer; congr (_ *: _); apply: eq_bigr => k _; rewrite mcolE addrK.
rewrite 2!E linearN /= mulNmx mulmxN opprK -scalerDl -mulr2n.
by rewrite /B linearZ /= -scalemxAl -scalemxAr !scalerA HA -mulrA Hs.
Qed.
End SigmaMoments.

(* under the weights of the transform the sigma points have total weight 1, mean m, covariance P *)
Section SigmaUT.
Variables (L : layout) (d : nat).
Hypothesis HL : linear_layout L d.
Variables (alpha beta kappa : F).
Let w := ut_weights (O:=O) d alpha beta kappa.
Hypothesis c_ne0 : w_c w != 0.
Hypothesis sqrt_c : t_sqrt tr (w_c w) * t_sqrt tr (w_c w) = w_c w.
Variables (m : 'cV[F]_d) (P : 'M[F]_d).
Hypothesis factor_ok : sq P *m (sq P)^T = P.
Let Xs := sigma_comp (O:=O) L d d (w_c w) m P.

Lemma sigma_ut_M0 : M0 (w_mean w) Xs = 1.
Proof. by rewrite /w ut_weights_mean (sigma_M0 HL) (ut_wmean_sum c_ne0). Qed.

Lemma sigma_ut_M1 : wsum (O:=O) (w_mean w) Xs = m.
Proof. by rewrite /w ut_weights_mean (sigma_M1 HL) (ut_wmean_sum c_ne0) scale1r. Qed.

Lemma sigma_ut_M2 : M2 (w_cov w) Xs m = P.
Proof.
rewrite /w ut_weights_cov (sigma_M2 HL _ _ _ sqrt_c factor_ok).
by rewrite ut_weights_c (ut_wi_c c_ne0) scale1r.
Qed.
End SigmaUT.

(* one component through an affine map: exact for ANY weighted point set with total
   weight 1, mean m and covariance P; the sigma points enter only through these moments *)
Section AffineComponent.
Variables (Lin Lout : layout) (d dx p : nat).
Hypothesis HLin : linear_layout Lin d.
Hypothesis Hdx : l_lin Lin = dx.
Hypothesis HLout : l_lin Lout = p.
Variable w : utw O.
Variables (Am : 'M[F]_(p,d)) (b : 'cV[F]_p).
Variables (m : 'cV[F]_d) (P : 'M[F]_d) (Xs : list 'cV[F]_d).
Hypothesis HM0 : M0 (w_mean w) Xs = 1.
Hypothesis HM1 : wsum (O:=O) (w_mean w) Xs = m.
Hypothesis HM2 : M2 (w_cov w) Xs m = P.

Lemma ut_component_affine :
  ut_component (O:=O) Lin Lout p dx w m Xs (List.map (fun x => Am *m x + b) Xs) =
  mkUtComp (O:=O) (Am *m m + b : 'cV[F]_p) (Am *m P *m Am^T) (sel d dx *m P *m Am^T).
Proof.
rewrite /ut_component (out_mean_linear HLout) wsum_affine HM1 HM0 scale1r map_map.
rewrite (map_ext _ (fun x => Am *m (x - m))); last first.
  by move=> x; rewrite (offsets_linear_out HLout) mulmxBr opprD addrACA subrr addr0.
rewrite (map_ext (fun x : 'cV[F]_d => offsets (O:=O) Lin dx x m) (fun x => sel d dx *m (x - m))); last first.
  by move=> x; rewrite (offsets_linear_in HLin).
by rewrite !wouter_affine HM2.
Qed.
End AffineComponent.

Section AffineMixture.
Variables (Lin Lout : layout) (d dx p : nat).
Hypothesis HLin : linear_layout Lin d.
Hypothesis Hdx : l_lin Lin = dx.
Hypothesis HLout : l_lin Lout = p.
Variables (alpha beta kappa : F).
Let w := ut_weights (O:=O) d alpha beta kappa.
(* per-instance oracle premises: c = n + lambda is not zero, the scalar square root is a
   square root of c, the matrix oracle returned a factor of each covariance *)
Hypothesis c_ne0 : w_c w != 0.
Hypothesis sqrt_c : t_sqrt tr (w_c w) * t_sqrt tr (w_c w) = w_c w.
Variables (Am : 'M[F]_(p,d)) (b : 'cV[F]_p).
Variable comps : list ('cV[F]_d * 'M[F]_d).
Hypothesis factor_ok : forall mc, In mc comps -> sq mc.2 *m (sq mc.2)^T = mc.2.

Definition affine_image (N : 'M[F]_p) (mc : 'cV[F]_d * 'M[F]_d) : ut_comp O p p dx :=
  mkUtComp (O:=O) (Am *m mc.1 + b : 'cV[F]_p) (Am *m mc.2 *m Am^T + N) (sel d dx *m mc.2 *m Am^T).

Let X := sigma_points (O:=O) Lin d d (w_c w) comps.

Lemma sigma_points_length : length X = Nat.mul (Nat.add (Nat.mul 2 d) 1) (length comps).
Proof.
rewrite /X /sigma_points; elim: comps => [|mc cs IH]; first by rewrite /=; lia.
rewrite List.map_cons concat_cons app_length IH (sigma_comp_length HLin) [length (_ :: _)]/=; lia.
Qed.

Lemma sigma_points_chunk i (d0 : 'cV[F]_d * 'M[F]_d) : (i < length comps)%coq_nat ->
  chunk (Nat.add (Nat.mul 2 d) 1) i X =
  sigma_comp (O:=O) Lin d d (w_c w) (List.nth i comps d0).1 (List.nth i comps d0).2.
Proof.
move=> Hi; rewrite /X /sigma_points chunk_concat; last by rewrite map_length.
  by rewrite (nth_map_in _ _ _ _ d0 Hi).
by move=> l /in_map_iff [mc [<- _]]; rewrite (sigma_comp_length HLin).
Qed.

Lemma ut_core_affine :
  ut_core (O:=O) Lin Lout p dx w comps X (affine_cols (O:=O) Am b X) =
  mkUtResult (O:=O) (List.map (affine_image 0) comps)
             (repeat (1 / (length comps)%:R) (length comps)).
Proof.
rewrite /ut_core; congr mkUtResult; last by rewrite /= ZnatE.
pose h (i : nat) (mc : 'cV[F]_d * 'M[F]_d) : ut_comp O p p dx :=
  ut_component (O:=O) Lin Lout p dx w mc.1 (chunk (Nat.add (Nat.mul 2 d) 1) i X)
               (chunk (Nat.add (Nat.mul 2 d) 1) i (affine_cols (O:=O) Am b X)).
apply: (@map_indexed _ _ h (affine_image 0) comps (0, 0)) => i Hi.
rewrite /h /affine_cols chunk_map (sigma_points_chunk (0, 0) Hi) /affine_image addr0.
have fo := factor_ok (nth_In _ (0, 0) Hi).
by apply: (ut_component_affine HLin Hdx HLout); [exact: sigma_ut_M0 | exact: sigma_ut_M1 | exact: sigma_ut_M2].
Qed.

Lemma ut_state_affine :
  ut_state (O:=O) Lin Lout p dx w comps (affine_cols (O:=O) Am b) =
  mkUtResult (O:=O) (List.map (affine_image 0) comps)
             (repeat (1 / (length comps)%:R) (length comps)).
Proof. by rewrite /ut_state ut_core_affine. Qed.

Lemma ut_generic_affine :
  ut_generic (O:=O) Lin Lout p dx w comps (fun X => Some (affine_cols (O:=O) Am b X)) =
  Some (mkUtResult (O:=O) (List.map (affine_image 0) comps)
                   (repeat (1 / (length comps)%:R) (length comps))).
Proof. by rewrite ut_generic_total ut_state_affine. Qed.

Lemma add_noise_affine N :
  add_noise_cov (O:=O) N (mkUtResult (O:=O) (List.map (affine_image 0) comps)
                            (repeat (1 / (length comps)%:R) (length comps))) =
  mkUtResult (O:=O) (List.map (affine_image N) comps)
             (repeat (1 / (length comps)%:R) (length comps)).
Proof.
rewrite /add_noise_cov /= map_map; congr mkUtResult.
by apply: map_ext => mc; rewrite /affine_image /= addr0.
Qed.
End AffineMixture.

Lemma psd_block_diag n q (P : 'M[F]_n) (Q : 'M[F]_q) :
  psd P -> psd Q -> psd (block_mx P 0 0 Q).
Proof.
case=> sP pP [sQ pQ]; split.
  by rewrite /sym tr_block_mx !trmx0 sP sQ.
move=> x; rewrite -[x]hsubmxK /qf mul_row_block !mulmx0 addr0 add0r tr_row_mx mul_row_col mxE.
by apply: addr_ge0; [exact: pP | exact: pQ].
Qed.

Lemma sel_row_mx n q : sel (n + q) n = row_mx 1%:M 0 :> 'M[F]_(n, n + q).
Proof.
apply/matrixP=> i j; rewrite !mxE; case: splitP => k Hk; rewrite !mxE Hk //.
by rewrite eqn_leq [(n + k <= i)%N]leqNgt ltn_addr // andbF.
Qed.

Section Augmented.
Variables (Lin Lout : layout) (n q p : nat).
Hypothesis HLin : linear_layout Lin (n + q).
Hypothesis Hdx : l_lin Lin = n.
Hypothesis HLout : l_lin Lout = p.
Variables (alpha beta kappa : F).
Let w := ut_weights (O:=O) (n + q) alpha beta kappa.
Hypothesis c_ne0 : w_c w != 0.
Hypothesis sqrt_c : t_sqrt tr (w_c w) * t_sqrt tr (w_c w) = w_c w.
Variables (A : 'M[F]_(p,n)) (B : 'M[F]_(p,q)) (b : 'cV[F]_p) (Q : 'M[F]_q).
Variable comps : list ('cV[F]_n * 'M[F]_n).
(* the matrix oracle returned a factor of each augmented covariance blockdiag(P, Q) *)
Hypothesis factor_ok : forall mc, In mc comps ->
  sq (block_mx mc.2 0 0 Q) *m (sq (block_mx mc.2 0 0 Q))^T = block_mx mc.2 0 0 Q.

Definition augmented_image (N : 'M[F]_p) (mc : 'cV[F]_n * 'M[F]_n) : ut_comp O p p n :=
  mkUtComp (O:=O) (A *m mc.1 + b : 'cV[F]_p) (A *m mc.2 *m A^T + B *m Q *m B^T + N) (mc.2 *m A^T).

Let acomps : list ('cV[F]_(n + q) * 'M[F]_(n + q)) := List.map (augment_comp (O:=O) Q) comps.

Lemma acomps_factor mc : In mc acomps -> sq mc.2 *m (sq mc.2)^T = mc.2.
Proof. by move=> /in_map_iff [mc0 [<- Hin]]; exact: factor_ok. Qed.

Lemma augmented_image_eq N mc :
  affine_image n (row_mx A B) b N (augment_comp (O:=O) Q mc) = augmented_image N mc.
Proof.
rewrite /affine_image /augment_comp /= sel_row_mx -![col_mx (row_mx mc.2 0) (row_mx 0 Q)]/(block_mx mc.2 0 0 Q).
congr mkUtComp.
- by rewrite mul_row_col mulmx0 addr0.
- by rewrite mul_row_block tr_row_mx mul_row_col !mulmx0 addr0 add0r.
- by rewrite mul_row_block tr_row_mx mul_row_col mul1mx !mul0mx mulmx0 !addr0 mul0mx addr0.
Qed.

Lemma ut_core_affine_augmented :
  let X := sigma_points (O:=O) Lin (n + q) (n + q) (w_c w) acomps in
  ut_core (O:=O) Lin Lout p n w acomps X (affine_cols (O:=O) (row_mx A B) b X) =
  mkUtResult (O:=O) (List.map (augmented_image 0) comps)
             (repeat (1 / (length comps)%:R) (length comps)).
Proof.
rewrite /= (ut_core_affine HLin Hdx HLout c_ne0 sqrt_c _ _ acomps_factor).
by rewrite /acomps map_map map_length (map_ext _ _ (augmented_image_eq 0)).
Qed.

Lemma ut_meas_affine_augmented :
  ut_meas (O:=O) Lin Lout p n w acomps (fun X => Some (affine_cols (O:=O) (row_mx A B) b X)) =
  Some (mkUtResult (O:=O) (List.map (augmented_image 0) comps)
                   (repeat (1 / (length comps)%:R) (length comps))).
Proof. by rewrite /ut_meas /ut_generic ut_core_affine_augmented. Qed.
End Augmented.

End UTMx.
