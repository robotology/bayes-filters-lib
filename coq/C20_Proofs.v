(* C20_Proofs.v — proofs about the ownership machine of C20_Model.v.
   Plain lists / nat / Z; no axioms.

   Ownership is stated with multiplicities: cnt x l = number of occurrences
   of x in l.  "every live location is referenced by exactly one live
   container and no container references a freed location" is the single
   equation  cnt x (refs pool) = cnt x (keys heap)  together with
   cnt x (keys heap) <= 1;  the readable forms are derived below.

   Each primitive of the machine (new holder, delete, storing a pointer in a
   slot, clone) has one lemma, sim_*, saying how it moves ownership between
   containers and temporaries and that the pool of values `views` does not
   notice; the proof for a member function is the chain of its primitives,
   and `step` refines `spec_step` operation by operation. *)
Require Import ZArith List Bool Arith Lia Permutation.
Require Import BFL.C20_Model.
Import ListNotations.

Fixpoint cnt (x : nat) (l : list nat) : nat :=
  match l with
  | [] => 0
  | y :: r => (if Nat.eqb y x then 1 else 0) + cnt x r
  end.

Lemma cnt_app x a b : cnt x (a ++ b) = cnt x a + cnt x b.
Proof. induction a; simpl; lia. Qed.

Lemma cnt_count_occ x l : cnt x l = count_occ Nat.eq_dec l x.
Proof.
  induction l as [|y r IH]; simpl; auto.
  destruct (Nat.eq_dec y x) as [e|ne].
  - subst. rewrite Nat.eqb_refl. lia.
  - apply Nat.eqb_neq in ne. rewrite ne. lia.
Qed.

Lemma cnt_In x l : In x l <-> 1 <= cnt x l.
Proof. rewrite cnt_count_occ. rewrite (count_occ_In Nat.eq_dec). lia. Qed.

Lemma cnt_perm a b : (forall x, cnt x a = cnt x b) -> Permutation a b.
Proof.
  intro H. apply (Permutation_count_occ Nat.eq_dec). intro x.
  rewrite <- !cnt_count_occ. apply H.
Qed.

Lemma cnt_nodup l : (forall x, cnt x l <= 1) -> NoDup l.
Proof.
  intro H. apply (NoDup_count_occ Nat.eq_dec). intro x. rewrite <- cnt_count_occ. apply H.
Qed.

Lemma cnt_all_zero l : (forall x, cnt x l = 0) -> l = [].
Proof. destruct l as [|y r]; auto. intro H. specialize (H y). simpl in H. rewrite Nat.eqb_refl in H. lia. Qed.

Definition keys (h : heap) : list loc := map fst h.
Definition olist (p : option loc) : list loc := match p with Some l => [l] | None => [] end.
Definition srefs (s : slot) : list loc := match s with Live (Some l) => [l] | _ => [] end.
Definition refs (p : list slot) : list loc := flat_map srefs p.

Lemma hget_none_cnt l h : hget l h = None <-> cnt l (keys h) = 0.
Proof.
  induction h as [|[k c] r IH]; simpl.
  - tauto.
  - destruct (Nat.eqb k l); simpl; [split; [discriminate | lia] | exact IH].
Qed.

Lemma hget_some_cnt l h c : hget l h = Some c -> 1 <= cnt l (keys h).
Proof.
  intro H. destruct (cnt l (keys h)) eqn:E; [|lia]. apply hget_none_cnt in E. congruence.
Qed.

Lemma cnt_keys_hrem x l h : cnt x (keys (hrem l h)) = if Nat.eqb l x then 0 else cnt x (keys h).
Proof.
  induction h as [|[k c] r IH]; simpl.
  - destruct (Nat.eqb l x); auto.
  - destruct (Nat.eqb_spec k l) as [e|ne]; simpl.
    + subst. rewrite IH. destruct (Nat.eqb_spec l x); lia.
    + rewrite IH. destruct (Nat.eqb_spec l x); destruct (Nat.eqb_spec k x); subst; try lia; congruence.
Qed.

Lemma hget_hrem_other x l h : l <> x -> hget x (hrem l h) = hget x h.
Proof.
  intro ne. induction h as [|[k c] r IH]; simpl; auto.
  destruct (Nat.eqb_spec k l) as [e|n1]; simpl.
  - subst. destruct (Nat.eqb_spec l x); [congruence|]. auto.
  - rewrite IH. auto.
Qed.

Lemma keys_hset l c h : keys (hset l c h) = keys h.
Proof.
  induction h as [|[k c0] r IH]; simpl; auto.
  destruct (Nat.eqb k l); simpl; congruence.
Qed.

Lemma hget_hset_same l c h : hget l h <> None -> hget l (hset l c h) = Some c.
Proof.
  induction h as [|[k c0] r IH]; simpl; [congruence|].
  destruct (Nat.eqb_spec k l) as [e|ne]; simpl.
  - subst. rewrite Nat.eqb_refl. auto.
  - apply Nat.eqb_neq in ne. rewrite ne. auto.
Qed.

Lemma hget_hset_other x l c h : l <> x -> hget x (hset l c h) = hget x h.
Proof.
  intro ne. induction h as [|[k c0] r IH]; simpl; auto.
  destruct (Nat.eqb_spec k l) as [e|n1]; simpl.
  - subst. apply Nat.eqb_neq in ne. rewrite ne. auto.
  - rewrite IH. auto.
Qed.

Lemma length_upd {A} d (v : A) l : length (upd d v l) = length l.
Proof. revert d; induction l; destruct d; simpl; auto. Qed.

Lemma nth_upd {A} e d (v dflt : A) l :
  nth e (upd d v l) dflt = if Nat.eqb d e && Nat.ltb d (length l) then v else nth e l dflt.
Proof.
  revert e d; induction l as [|a r IH]; intros e d; simpl.
  - destruct d, e; simpl; auto; rewrite andb_false_r; auto.
  - destruct d, e; simpl; auto. rewrite IH. reflexivity.
Qed.

Lemma nth_upd_same {A} d (v dflt : A) l : d < length l -> nth d (upd d v l) dflt = v.
Proof. intro H. rewrite nth_upd, Nat.eqb_refl. apply Nat.ltb_lt in H. rewrite H. auto. Qed.

Lemma nth_upd_other {A} e d (v dflt : A) l : d <> e -> nth e (upd d v l) dflt = nth e l dflt.
Proof. intro H. rewrite nth_upd. apply Nat.eqb_neq in H. rewrite H. auto. Qed.

(* overwriting with the default value needs no bound on d *)
Lemma nth_upd_default {A} e d (dflt : A) l : nth e (upd d dflt l) dflt = if Nat.eqb d e then dflt else nth e l dflt.
Proof.
  rewrite nth_upd. destruct (Nat.eqb_spec d e); [subst|reflexivity]. destruct (Nat.ltb_spec e (length l)); [reflexivity|].
  apply nth_overflow. assumption.
Qed.

Lemma upd_same {A} d (dflt : A) l : upd d (nth d l dflt) l = l.
Proof. revert d; induction l; destruct d; simpl; auto. f_equal. auto. Qed.

Lemma upd_upd {A} d (v w : A) l : upd d v (upd d w l) = upd d v l.
Proof. revert d; induction l; destruct d; simpl; auto. f_equal. auto. Qed.

Lemma upd_comm {A} d e (v w : A) l : d <> e -> upd d v (upd e w l) = upd e w (upd d v l).
Proof.
  revert d e; induction l; destruct d, e; simpl; auto; try congruence.
  intro ne. f_equal. auto.
Qed.

Lemma map_upd {A B} (f : A -> B) d v l : map f (upd d v l) = upd d (f v) (map f l).
Proof. revert d; induction l; destruct d; simpl; auto. f_equal. auto. Qed.

Lemma nth_live_lt d (p : list slot) c : nth d p Dead = Live c -> d < length p.
Proof.
  intro H. destruct (Nat.lt_ge_cases d (length p)); auto.
  rewrite nth_overflow in H by lia. discriminate.
Qed.

(* overwriting slot d exchanges what it referenced for what the new slot references *)
Lemma cnt_refs_upd x d s p :
  d < length p ->
  cnt x (refs (upd d s p)) + cnt x (srefs (nth d p Dead)) = cnt x (refs p) + cnt x (srefs s).
Proof.
  revert d; induction p as [|a r IH]; intros d H; simpl in *; [lia|].
  destruct d; simpl; rewrite !cnt_app.
  - lia.
  - specialize (IH d ltac:(lia)). fold (refs r) in *. fold (refs (upd d s r)). lia.
Qed.

Lemma cnt_refs_nth d l p : nth d p Dead = Live (Some l) -> 1 <= cnt l (refs p).
Proof.
  intro H. pose proof (cnt_refs_upd l d Dead p (nth_live_lt _ _ _ H)) as E.
  rewrite H in E. simpl in E. rewrite Nat.eqb_refl in E. lia.
Qed.

Lemma cnt_refs_two d e l p :
  d <> e -> nth d p Dead = Live (Some l) -> nth e p Dead = Live (Some l) -> 2 <= cnt l (refs p).
Proof.
  intros ne Hd He. pose proof (cnt_refs_upd l d Dead p (nth_live_lt _ _ _ Hd)) as E.
  rewrite Hd in E. simpl in E. rewrite Nat.eqb_refl in E.
  rewrite <- (nth_upd_other e d Dead Dead p ne) in He. apply cnt_refs_nth in He. lia.
Qed.

Lemma cnt_refs_ex l p : 1 <= cnt l (refs p) -> exists d, nth d p Dead = Live (Some l).
Proof.
  intro H. apply cnt_In, in_flat_map in H as [s [Hs Hl]].
  destruct (In_nth _ _ Dead Hs) as [d [_ Hd]]. exists d. rewrite Hd.
  destruct s as [|[k|]]; simpl in Hl; try tauto. destruct Hl as [->|[]]. auto.
Qed.

(* slot a takes over the pointer of slot b, and slot b receives c: what swap and the move
   constructor do to the pool *)
Lemma cnt_refs_transfer x a b c cb p :
  a < length p -> nth b p Dead = Live cb ->
  cnt x (refs (upd b (Live c) (upd a (Live cb) p))) + cnt x (srefs (nth a p Dead)) = cnt x (refs p) + cnt x (srefs (Live c)).
Proof.
  intros Ha Hb. pose proof (cnt_refs_upd x a (Live cb) p Ha) as E1.
  assert (Hb' : b < length (upd a (Live cb) p)) by (rewrite length_upd; eapply nth_live_lt; eauto).
  pose proof (cnt_refs_upd x b (Live c) _ Hb') as E2.
  assert (N : nth b (upd a (Live cb) p) Dead = Live cb) by (rewrite nth_upd; destruct (_ && _); auto).
  rewrite N in E2. lia.
Qed.

Lemma refs_all_dead p : (forall d, nth d p Dead = Dead) -> refs p = [].
Proof.
  induction p as [|a r IH]; intro H; simpl; auto.
  pose proof (H 0) as H0. simpl in H0. subst a. simpl. apply IH. intro d. apply (H (S d)).
Qed.

(* X: locations owned by temporaries of type `any` in the middle of a member function *)
Record invx (X : list loc) (st : state) : Prop := {
  ix_own : forall x, cnt x (refs (st_pool st)) + cnt x X = cnt x (keys (st_heap st));
  ix_log : forall x, cnt x (st_alog st) = cnt x (st_dlog st) + cnt x (keys (st_heap st));
  ix_once : forall x, cnt x (st_alog st) <= 1;
  ix_fresh : forall x, st_next st <= x -> cnt x (st_alog st) = 0;
  ix_nofault : st_faults st = []
}.

Definition inv (st : state) : Prop := invx [] st.

Lemma inv_init n : inv (init n).
Proof.
  constructor; simpl; intros; auto. rewrite refs_all_dead; auto. intro d. apply nth_repeat.
Qed.

Lemma ix_key1 X st x : invx X st -> cnt x (keys (st_heap st)) <= 1.
Proof. intros [_ Hl Ho _ _]. specialize (Hl x). specialize (Ho x). lia. Qed.

Lemma ix_key_lt X st x : invx X st -> 1 <= cnt x (keys (st_heap st)) -> x < st_next st.
Proof.
  intros [_ Hl _ Hf _] H. destruct (Nat.lt_ge_cases x (st_next st)); auto.
  specialize (Hf x H0). specialize (Hl x). lia.
Qed.

(* no container references a freed location *)
Lemma inv_owned X st d l : invx X st -> pget d st = Live (Some l) -> exists c, hget l (st_heap st) = Some c.
Proof.
  intros I H. unfold pget in H. apply cnt_refs_nth in H.
  pose proof (ix_own _ _ I l).
  destruct (hget l (st_heap st)) eqn:E; eauto.
  apply hget_none_cnt in E. lia.
Qed.

(* a location is referenced by at most one container *)
Lemma inv_unique X st d e l : invx X st -> pget d st = Live (Some l) -> pget e st = Live (Some l) -> d = e.
Proof.
  intros I Hd He. destruct (Nat.eq_dec d e); auto. exfalso.
  pose proof (cnt_refs_two _ _ _ _ n Hd He).
  pose proof (ix_own _ _ I l). pose proof (ix_key1 _ _ l I). lia.
Qed.

(* every live location is referenced by a container *)
Lemma inv_no_orphan st l c : inv st -> hget l (st_heap st) = Some c -> exists d, pget d st = Live (Some l).
Proof.
  intros I H. apply cnt_refs_ex. apply hget_some_cnt in H.
  pose proof (ix_own _ _ I l). simpl in *. lia.
Qed.

Lemma inv_owned_lt X st d l : invx X st -> pget d st = Live (Some l) -> l < st_next st.
Proof.
  intros I H. destruct (inv_owned _ _ _ _ I H) as [c Hc].
  apply (ix_key_lt _ _ _ I). eapply hget_some_cnt; eauto.
Qed.

Lemma nth_views e st : nth e (views st) VDead = view_of e st.
Proof.
  unfold views, view_of, pget. change VDead with (vslot (st_heap st) Dead). apply map_nth.
Qed.

Lemma length_views st : length (views st) = length (st_pool st).
Proof. unfold views. apply map_length. Qed.

Lemma views_ext st' vs :
  length (st_pool st') = length vs -> (forall e, view_of e st' = nth e vs VDead) -> views st' = vs.
Proof.
  intros Hl H. apply (nth_ext _ _ VDead VDead).
  - rewrite length_views. auto.
  - intros e _. rewrite nth_views. auto.
Qed.

Lemma upd_views_same d st : upd d (view_of d st) (views st) = views st.
Proof. rewrite <- nth_views. apply upd_same. Qed.

Lemma views_pset d s st : views (pset d s st) = upd d (vslot (st_heap st) s) (views st).
Proof. apply map_upd. Qed.

Lemma vslot_frame h h' s : (forall l, s = Live (Some l) -> hget l h' = hget l h) -> vslot h' s = vslot h s.
Proof. destruct s as [|[l|]]; simpl; auto. intro H. rewrite (H l eq_refl). auto. Qed.

(* a change of the heap away from the holders the containers own is not seen in any view *)
Lemma views_frame st st' :
  st_pool st' = st_pool st ->
  (forall d l, pget d st = Live (Some l) -> hget l (st_heap st') = hget l (st_heap st)) ->
  views st' = views st.
Proof.
  intros P H. unfold views. rewrite P. apply map_ext_in. intros s Hs. apply vslot_frame. intros l ->.
  destruct (In_nth _ _ Dead Hs) as [d [_ Hd]]. exact (H d l Hd).
Qed.

Lemma vlive_view d st : vlive (view_of d st) = is_live d st.
Proof.
  unfold view_of, is_live. destruct (pget d st) as [|[l|]]; simpl; auto.
  destruct (hget l (st_heap st)) as [[t v]|]; auto.
Qed.

Lemma vlive_views d st : vlive (vget d (views st)) = is_live d st.
Proof. unfold vget. rewrite nth_views. apply vlive_view. Qed.

Lemma vfree_views d st : vfree d (views st) = is_free d st.
Proof. unfold vfree. rewrite vlive_views, length_views. auto. Qed.

Lemma is_live_lt d st : is_live d st = true -> d < length (st_pool st).
Proof.
  unfold is_live, pget. intro H. destruct (nth d (st_pool st) Dead) eqn:E; [discriminate|].
  eapply nth_live_lt; eauto.
Qed.

Lemma is_live_content d st : is_live d st = true -> pget d st = Live (content d st).
Proof. unfold is_live, content. destruct (pget d st); auto; discriminate. Qed.

Lemma is_free_lt d st : is_free d st = true -> d < length (st_pool st) /\ pget d st = Dead.
Proof.
  unfold is_free, is_live. intro H. apply andb_prop in H. destruct H as [H1 H2].
  apply Nat.ltb_lt in H1. split; auto. destruct (pget d st); auto; discriminate.
Qed.

Lemma view_content d st : is_live d st = true -> view_of d st = vslot (st_heap st) (Live (content d st)).
Proof. intro L. unfold view_of. rewrite (is_live_content _ _ L). auto. Qed.

(* the machine st, with the holders X in the hands of temporaries, stands for the pool of values vs *)
Definition sim (X : list loc) (st : state) (vs : list view) : Prop := invx X st /\ views st = vs.

Lemma sim_refl st : inv st -> sim [] st (views st).
Proof. split; auto. Qed.

(* new holder: the fresh location belongs to a temporary *)
Lemma sim_alloc X st mv c vs : sim X st vs -> sim (st_next st :: X) (snd (alloc mv c st)) vs.
Proof.
  intros [I <-]. pose proof (ix_fresh _ _ I) as Hf. split.
  - constructor; simpl; try intro x.
    + pose proof (ix_own _ _ I x). lia.
    + pose proof (ix_log _ _ I x). lia.
    + pose proof (ix_once _ _ I x). destruct (Nat.eqb_spec (st_next st) x); [|lia].
      subst. rewrite (Hf (st_next st)); lia.
    + intro H. destruct (Nat.eqb_spec (st_next st) x); [lia|]. apply Hf. lia.
    + apply (ix_nofault _ _ I).
  - apply views_frame; auto. intros d l H. pose proof (inv_owned_lt _ _ _ _ I H). simpl.
    destruct (Nat.eqb_spec (st_next st) l); auto. lia.
Qed.

Lemma view_fresh mv t v st : vslot (st_heap (snd (alloc mv (t, v) st))) (Live (Some (st_next st))) = VHolds t v.
Proof. simpl. rewrite Nat.eqb_refl. auto. Qed.

(* ~any() of a temporary: what it owns is in the heap (no DoubleFree), and in no container *)
Lemma sim_delete X st p vs : sim (olist p ++ X) st vs -> sim X (delete_content p st) vs.
Proof.
  destruct p as [l|]; simpl; auto. intros [I <-].
  pose proof (ix_own _ _ I l) as Ol. simpl in Ol. rewrite Nat.eqb_refl in Ol.
  pose proof (ix_key1 _ _ l I) as K1.
  destruct (hget l (st_heap st)) eqn:E; [|apply hget_none_cnt in E; lia]. split.
  - constructor; simpl; try apply I; intro x; rewrite cnt_keys_hrem.
    + pose proof (ix_own _ _ I x) as Ox. simpl in Ox. destruct (Nat.eqb_spec l x); subst; lia.
    + pose proof (ix_log _ _ I x). destruct (Nat.eqb_spec l x); subst; lia.
  - apply views_frame; auto. intros d l' H. apply hget_hrem_other. intros <-.
    apply cnt_refs_nth in H. lia.
Qed.

(* storing slot s at index d, over the slot old, takes what s references from the temporaries and hands them
   what old referenced *)
Lemma sim_pset X st d s old vs :
  d < length (st_pool st) -> pget d st = old -> sim (srefs s ++ X) st vs ->
  sim (srefs old ++ X) (pset d s st) (upd d (vslot (st_heap st) s) vs).
Proof.
  intros Hd <- [I <-]. split; [|apply views_pset].
  constructor; simpl; try apply I.
  intro x. pose proof (cnt_refs_upd x d s _ Hd). pose proof (ix_own _ _ I x).
  rewrite cnt_app in *. unfold pget. lia.
Qed.

(* a constructor stores its pointer at a free index; the guard is read off vs, which alloc and
   clone hand on unchanged *)
Lemma sim_construct X st d c vs :
  vfree d vs = true -> sim (olist c ++ X) st vs -> sim X (pset d (Live c) st) (upd d (vslot (st_heap st) (Live c)) vs).
Proof.
  intros F [I <-]. rewrite vfree_views in F. destruct (is_free_lt _ _ F) as [Hlt Hd].
  exact (sim_pset X st d (Live c) Dead _ Hlt Hd (conj I eq_refl)).
Qed.

(* content = c on a live container: the old pointer goes to the temporary (the swap with a temporary) *)
Lemma sim_set_content X st d c vs :
  vlive (vget d vs) = true -> sim (olist c ++ X) st vs ->
  sim (olist (content d st) ++ X) (set_content d c st) (upd d (vslot (st_heap st) (Live c)) vs).
Proof.
  intros L [I <-]. rewrite vlive_views in L.
  exact (sim_pset X st d (Live c) _ _ (is_live_lt _ _ L) (is_live_content _ _ L) (conj I eq_refl)).
Qed.

(* other.content ? other.content->clone() : nullptr, for a live container s: a temporary that
   owns a new holder with the value of s (no UseAfterFree: s owns what it points to) *)
Lemma sim_clone X st s vs : is_live s st = true -> sim X st vs ->
  let (c, st1) := clone (content s st) st in
  sim (olist c ++ X) st1 vs /\ vslot (st_heap st1) (Live c) = view_of s st.
Proof.
  intros L S. rewrite (view_content _ _ L). pose proof (is_live_content _ _ L) as P.
  destruct (content s st) as [l|]; simpl; [|auto].
  destruct (inv_owned _ _ _ _ (proj1 S) P) as [[t v] Hc]. rewrite Hc. split.
  - apply (sim_alloc _ _ false (t, v) _ S).
  - simpl. rewrite Nat.eqb_refl. auto.
Qed.

Lemma inv_note X e st : invx X st -> invx X (note_ctor e st).
Proof. intros [A B C D E]. constructor; simpl; auto. Qed.

Lemma views_note e st : views (note_ctor e st) = views st.
Proof. reflexivity. Qed.

Lemma default_ok st d : inv st -> is_free d st = true ->
  inv (m_default d st) /\ views (m_default d st) = upd d VEmpty (views st).
Proof.
  intros I F. rewrite <- vfree_views in F. apply (sim_construct [] st d None); auto. apply sim_refl, I.
Qed.

Lemma value_ctor_ok st mv d t v : inv st -> is_free d st = true ->
  inv (m_value_ctor mv d t v st) /\ views (m_value_ctor mv d t v st) = upd d (VHolds t (Some v)) (views st).
Proof.
  intros I F. rewrite <- vfree_views in F. rewrite <- (view_fresh mv t (Some v) st).
  apply sim_construct, sim_alloc, sim_refl; auto.
Qed.

Lemma copy_ctor_ok st d s : inv st -> is_free d st = true -> is_live s st = true ->
  inv (m_copy_ctor d s st) /\ views (m_copy_ctor d s st) = upd d (view_of s st) (views st).
Proof.
  intros I F L. rewrite <- vfree_views in F. unfold m_copy_ctor.
  pose proof (sim_clone [] st s _ L (sim_refl _ I)) as H.
  destruct (clone (content s st) st) as [c st1]. destruct H as [S1 <-].
  apply sim_construct; auto.
Qed.

Lemma copy_assign_ok st d s : inv st -> is_live d st = true -> is_live s st = true ->
  inv (m_copy_assign d s st) /\ views (m_copy_assign d s st) = upd d (view_of s st) (views st).
Proof.
  intros I Ld L. rewrite <- vlive_views in Ld. unfold m_copy_assign.
  pose proof (sim_clone [] st s _ L (sim_refl _ I)) as H.
  destruct (clone (content s st) st) as [c st1]. destruct H as [S1 <-].
  apply sim_delete, sim_set_content; auto.
Qed.

Lemma value_assign_ok st mv d t v : inv st -> is_live d st = true ->
  inv (m_value_assign mv d t v st) /\ views (m_value_assign mv d t v st) = upd d (VHolds t (Some v)) (views st).
Proof.
  intros I Ld. rewrite <- vlive_views in Ld. rewrite <- (view_fresh mv t (Some v) st).
  apply sim_delete, sim_set_content, sim_alloc, sim_refl; auto.
Qed.

Lemma reset_ok st d : inv st -> is_live d st = true ->
  inv (m_reset d st) /\ views (m_reset d st) = upd d VEmpty (views st).
Proof.
  intros I Ld. rewrite <- vlive_views in Ld.
  apply sim_delete, (sim_set_content [] st d None), sim_refl; auto.
Qed.

(* ~any(): the destructor runs on the object, then the object is gone *)
Lemma destroy_ok st d : inv st -> is_live d st = true ->
  inv (m_destroy d st) /\ views (m_destroy d st) = upd d VDead (views st).
Proof.
  intros I Ld. unfold m_destroy.
  (* same state as: remove the object from the pool first, then delete what it owned *)
  replace (pset d Dead (delete_content (content d st) st)) with (delete_content (content d st) (pset d Dead st))
    by (destruct (content d st); simpl; auto; destruct (hget l (st_heap st)); reflexivity).
  apply sim_delete.
  exact (sim_pset [] st d Dead _ _ (is_live_lt _ _ Ld) (is_live_content _ _ Ld) (sim_refl _ I)).
Qed.

(* swap and the move constructor only move pointers between slots; slot a held c (swap), or was free
   and c is nullptr (the move constructor) *)
Lemma inv_transfer st a b c cb :
  inv st -> a < length (st_pool st) -> pget b st = Live cb -> srefs (pget a st) = srefs (Live c) ->
  inv (pset b (Live c) (pset a (Live cb) st)).
Proof.
  intros I Ha Hb Hc. constructor; simpl; try apply I. intro x.
  pose proof (cnt_refs_transfer x a b c _ _ Ha Hb) as E. unfold pget in Hc. rewrite Hc in E.
  pose proof (ix_own _ _ I x) as O. simpl in O. lia.
Qed.

Lemma swap_ok st a b : inv st -> is_live a st = true -> is_live b st = true ->
  inv (m_swap a b st) /\ views (m_swap a b st) = upd b (view_of a st) (upd a (view_of b st) (views st)).
Proof.
  intros I La Lb. unfold m_swap, set_content. split.
  - apply inv_transfer; auto using is_live_lt, is_live_content. rewrite (is_live_content _ _ La). reflexivity.
  - rewrite !views_pset, (view_content _ _ La), (view_content _ _ Lb). reflexivity.
Qed.

Lemma move_ctor_ok st d s : inv st -> is_free d st = true -> is_live s st = true ->
  inv (m_move_ctor d s st) /\
  views (m_move_ctor d s st) = upd s VEmpty (upd d (view_of s st) (views st)).
Proof.
  intros I F L. destruct (is_free_lt _ _ F) as [Hlt Hd].
  unfold m_move_ctor, set_content. split.
  - apply inv_transfer; auto using is_live_content. rewrite Hd. reflexivity.
  - rewrite !views_pset, (view_content _ _ L). reflexivity.
Qed.

(* rhs.swap( *this); any().swap(rhs): after the swap, reset rhs *)
Lemma move_assign_ok st d s : inv st -> is_live d st = true -> is_live s st = true ->
  inv (m_move_assign d s st) /\
  views (m_move_assign d s st) = if Nat.eqb d s then views st else upd s VEmpty (upd d (view_of s st) (views st)).
Proof.
  intros I Ld Ls. unfold m_move_assign. destruct (Nat.eqb_spec d s) as [|ne]; [auto|].
  rewrite <- (upd_upd s VEmpty (view_of d st)), (upd_comm s d) by auto.
  apply sim_delete, (sim_set_content [] _ s None), swap_ok; auto.
  unfold vget. rewrite nth_upd_other, nth_upd_same, vlive_view; auto.
  rewrite length_views. apply is_live_lt; auto.
Qed.

(* assignment to the held object through a pointer / reference obtained from any_cast;
   also the moved-from mark left by the caller's move *)
Lemma write_ok st d l t (v0 v : hval) : inv st -> pget d st = Live (Some l) -> hget l (st_heap st) = Some (t, v0) ->
  inv (write_at l t v st) /\ views (write_at l t v st) = upd d (VHolds t v) (views st).
Proof.
  intros I Hd Hl. split.
  - constructor; simpl; try apply I; intro x; rewrite keys_hset; apply I.
  - apply views_ext; [simpl; rewrite length_upd, length_views; auto | intro e].
    unfold view_of, pget, write_at; simpl.
    rewrite nth_upd, nth_views, length_views.
    destruct (Nat.eqb_spec d e) as [E|E]; simpl.
    + subst e. unfold pget in Hd. rewrite Hd. pose proof (nth_live_lt _ _ _ Hd) as Hlt.
      apply Nat.ltb_lt in Hlt. rewrite Hlt. simpl. rewrite hget_hset_same by congruence. auto.
    + unfold view_of, pget. apply vslot_frame. intros l' Hl'. apply hget_hset_other.
      intro; subst l'. apply E. eapply inv_unique; eauto.
Qed.

Lemma has_value_spec d st : is_live d st = true ->
  m_has_value d st = match view_of d st with VEmpty => false | _ => true end.
Proof.
  intro L. unfold m_has_value. rewrite (view_content _ _ L). destruct (content d st) as [l|]; simpl; auto.
  destruct (hget l (st_heap st)) as [[t v]|]; auto.
Qed.

Lemma type_spec d st :
  m_type d st = match view_of d st with VHolds t _ => TTag t | VDangling l => TBad l | _ => TVoid end.
Proof.
  unfold m_type, content, view_of. destruct (pget d st) as [|[l|]]; simpl; auto.
  destruct (hget l (st_heap st)) as [[t v]|]; auto.
Qed.

Lemma holds_type_spec s tx st : holds_type s tx st = spec_holds (view_of s st) tx.
Proof. unfold holds_type. rewrite type_spec. destruct (view_of s st); auto. Qed.

Lemma cast_ptr_spec d t st : read_ptr (any_cast_ptr d t st) st = spec_cast_ptr (view_of d st) t.
Proof.
  unfold any_cast_ptr, m_type, content, view_of. destruct (pget d st) as [|[l|]]; simpl; auto.
  destruct (hget l (st_heap st)) as [[t' v]|] eqn:E; simpl; auto.
  destruct (Nat.eqb t' t); simpl; auto. rewrite E. auto.
Qed.

Lemma cast_val_spec d t st : read_val (any_cast_ref d t st) st = spec_cast_val (view_of d st) t.
Proof.
  unfold any_cast_ref, any_cast_ptr, m_type, content, view_of.
  destruct (pget d st) as [|[l|]]; simpl; auto.
  destruct (hget l (st_heap st)) as [[t' v]|] eqn:E; simpl; auto.
  destruct (Nat.eqb t' t); simpl; auto. rewrite E. auto.
Qed.

(* what any_cast<T>(&a) returns, read off the view of a (no invariant needed) *)
Lemma cast_ptr_miss d t st :
  spec_holds (view_of d st) t = false -> (forall l, view_of d st <> VDangling l) -> any_cast_ptr d t st = PNull.
Proof.
  unfold any_cast_ptr, m_type, content, view_of. destruct (pget d st) as [|[l|]]; simpl; auto.
  destruct (hget l (st_heap st)) as [[t' v]|]; simpl.
  - intros -> _. auto.
  - intros _ N. elim (N l eq_refl).
Qed.

Lemma cast_ptr_hit d t v st : view_of d st = VHolds t v ->
  exists l, any_cast_ptr d t st = PTo l /\ pget d st = Live (Some l) /\ hget l (st_heap st) = Some (t, v).
Proof.
  unfold view_of, any_cast_ptr, m_type, content. destruct (pget d st) as [|[l|]]; simpl; try discriminate.
  destruct (hget l (st_heap st)) as [[t' v']|] eqn:E; try discriminate.
  intro H; inversion H; subst. rewrite Nat.eqb_refl. exists l. auto.
Qed.

Lemma spec_holds_true x t : spec_holds x t = true -> exists v, x = VHolds t v.
Proof. destruct x; simpl; try discriminate. intro E. apply Nat.eqb_eq in E. subst. eauto. Qed.

Lemma spec_set_miss x t v : spec_holds x t = false -> spec_set x t v = x.
Proof. destruct x; simpl; auto. intro H. rewrite H. auto. Qed.

Lemma inv_no_dangling st d l : inv st -> view_of d st <> VDangling l.
Proof.
  intros I H. unfold view_of in H. destruct (pget d st) as [|[l'|]] eqn:P; simpl in H; try discriminate.
  destruct (inv_owned _ _ _ _ I P) as [[t v] Hc]. rewrite Hc in H. discriminate.
Qed.

(* under the invariant a cast either misses, or hits the holder the container owns: then a write through the
   cast is seen in the view of that container and in no other *)
Inductive cast_case (st : state) (d : cid) (t : tag) : Prop :=
| CC_miss : any_cast_ptr d t st = PNull -> spec_holds (view_of d st) t = false -> cast_case st d t
| CC_hit l v0 : any_cast_ptr d t st = PTo l -> hget l (st_heap st) = Some (t, v0) -> view_of d st = VHolds t v0 ->
            (forall v, inv (write_at l t v st) /\ views (write_at l t v st) = upd d (VHolds t v) (views st)) ->
            cast_case st d t.

Lemma cast_cases st d t : inv st -> cast_case st d t.
Proof.
  intro I. destruct (spec_holds (view_of d st) t) eqn:H.
  - apply spec_holds_true in H as [v V]. destruct (cast_ptr_hit _ _ _ _ V) as [l [C [P Hl]]].
    apply (CC_hit _ _ _ l v); auto. intro v'. apply (write_ok _ _ _ _ v); auto.
  - apply CC_miss; auto. apply cast_ptr_miss; auto. intro. apply inv_no_dangling, I.
Qed.

(* the answer p of the machine (new state, result) is the answer q of the specification (new values, result) *)
Definition refines (p : state * result) (q : list view * result) : Prop :=
  inv (fst p) /\ views (fst p) = fst q /\ snd p = snd q.

Lemma refines_state st' vs' r : inv st' /\ views st' = vs' -> refines (st', r) (vs', r).
Proof. intros [I V]. split; [|split]; simpl; auto. Qed.

Lemma refines_result st r r' : inv st -> r = r' -> refines (st, r) (views st, r').
Proof. intros I <-. split; [|split]; simpl; auto. Qed.

(* a member function called where its precondition g holds on both sides, skipped elsewhere *)
Lemma refines_guarded (g : bool) st st' vs' :
  inv st -> (g = true -> inv st' /\ views st' = vs') ->
  refines (if g then (st', RUnit) else (st, RSkip)) (if g then (vs', RUnit) else (views st, RSkip)).
Proof. intros I H. destruct g; [apply refines_state | apply refines_result]; auto. Qed.

Lemma read_val_copy_spec d t st : inv st ->
  refines (read_val_copy t (any_cast_ref d t st) st) (views st, spec_cast_val (view_of d st) t).
Proof.
  intro I. unfold read_val_copy. rewrite cast_val_spec.
  destruct (spec_cast_val (view_of d st) t); try (apply refines_result; auto).
  apply refines_state. split; [apply inv_note|]; auto.
Qed.

Lemma spec_set_ptr vs d t v : (forall l, vget d vs <> VDangling l) ->
  spec_step (OSetPtr d t v) vs = (upd d (spec_set (vget d vs) t (Some v)) vs, RBool (spec_holds (vget d vs) t)).
Proof. intro N. simpl. destruct (vget d vs); auto. elim (N l eq_refl). Qed.

Lemma spec_set_ref vs d t v : (forall l, vget d vs <> VDangling l) -> vlive (vget d vs) = true ->
  spec_step (OSetRef d t v) vs =
  (upd d (spec_set (vget d vs) t (Some v)) vs, if spec_holds (vget d vs) t then RUnit else RThrow).
Proof. intros N L. simpl. rewrite L. destruct (vget d vs); auto. elim (N l eq_refl). Qed.

Lemma spec_xval_miss vs asg d t mvt :
  spec_holds (vget d vs) t = false -> (forall l, vget d vs <> VDangling l) -> vlive (vget d vs) = true ->
  spec_step (OCastXVal asg d t mvt) vs = (vs, RThrow).
Proof.
  intros H N L. simpl. rewrite L. destruct (vget d vs); simpl in H; try rewrite H; auto. elim (N l eq_refl).
Qed.

(* the guards of step and spec_step become the same booleans *)
Ltac guards :=
  simpl; unfold vget, any_cast_cptr, any_cast_ptr_cq, any_cast_cref, any_cast_rval;
  rewrite ?vfree_views, ?nth_views, ?vlive_view.

Theorem step_refines_spec st o : inv st ->
  inv (fst (step o st)) /\
  views (fst (step o st)) = fst (spec_step o (views st)) /\
  snd (step o st) = snd (spec_step o (views st)).
Proof.
  intro I. change (refines (step o st) (spec_step o (views st))).
  assert (N : forall d l, vget d (views st) <> VDangling l).
  { intros d l. unfold vget. rewrite nth_views. apply inv_no_dangling, I. }
  destruct o.
  - (* ODefault *) guards. apply refines_guarded; auto using default_ok.
  - (* OValue *) guards. apply refines_guarded; auto using value_ctor_ok.
  - (* OCopyCtor *) guards. apply refines_guarded; auto. intros [F L]%andb_prop. apply copy_ctor_ok; auto.
  - (* OMoveCtor *) guards. apply refines_guarded; auto. intros [F L]%andb_prop. apply move_ctor_ok; auto.
  - (* OCopyAssign *) guards. apply refines_guarded; auto. intros [Ld L]%andb_prop. apply copy_assign_ok; auto.
  - (* OMoveAssign *) guards. apply refines_guarded; auto. intros [Ld L]%andb_prop. apply move_assign_ok; auto.
  - (* OValueAssign *) guards. apply refines_guarded; auto using value_assign_ok.
  - (* OReset *) guards. apply refines_guarded; auto using reset_ok.
  - (* OSwap *) guards. apply refines_guarded; auto. intros [Ld L]%andb_prop. apply swap_ok; auto.
  - (* ODestroy *) guards. apply refines_guarded; auto using destroy_ok.
  - (* OHasValue *) guards. destruct (is_live d st) eqn:Ld; apply refines_result; auto. f_equal. apply has_value_spec, Ld.
  - (* OType *) guards. destruct (is_live d st) eqn:Ld; apply refines_result; auto.
    rewrite type_spec. destruct (view_of d st); auto.
  - (* OCastPtr *) guards. apply refines_result, cast_ptr_spec; auto.
  - (* OCastCPtr *) guards. apply refines_result, cast_ptr_spec; auto.
  - (* OCastVal *) guards. destruct (is_live d st); [apply read_val_copy_spec | apply refines_result]; auto.
  - (* OCastRef *) guards. destruct (is_live d st); apply refines_result; auto using cast_val_spec.
  - (* OCastCVal *) guards. destruct (is_live d st); [apply read_val_copy_spec | apply refines_result]; auto.
  - (* OCastRVal *) guards. destruct (is_live d st); [apply read_val_copy_spec | apply refines_result]; auto.
  - (* OSetPtr *) rewrite (spec_set_ptr _ _ _ _ (N d)). unfold vget. rewrite nth_views. cbn [step].
    destruct (cast_cases st d t I) as [C H|l v0 C Hl V W]; rewrite C.
    + rewrite spec_set_miss, H, upd_views_same by auto. apply refines_result; auto.
    + rewrite V. simpl. rewrite Nat.eqb_refl. apply refines_state, W.
  - (* OSetRef *) destruct (is_live d st) eqn:Ld; [|guards; rewrite Ld; apply refines_result; auto].
    rewrite (spec_set_ref _ _ _ _ (N d)) by (rewrite vlive_views; auto). unfold vget. rewrite nth_views.
    cbn [step]. unfold any_cast_ref. rewrite Ld.
    destruct (cast_cases st d t I) as [C H|l v0 C Hl V W]; rewrite C.
    + rewrite spec_set_miss, H, upd_views_same by auto. apply refines_result; auto.
    + rewrite V. simpl. rewrite Nat.eqb_refl. apply refines_state, W.
  - (* OCastPtrCq *) guards. apply refines_result, cast_ptr_spec; auto.
  - (* OCastRefCq *) guards. destruct (is_live d st); apply refines_result; auto.
    change (any_cast_ref_cq d t st) with (any_cast_ref d t st). apply cast_val_spec.
  - (* OCastXVal *) destruct (is_live d st) eqn:Ld; [|guards; rewrite Ld; apply refines_result; auto].
    destruct (cast_cases st d t I) as [C H|l x0 C Hl V W].
    + rewrite <- nth_views in H. rewrite (spec_xval_miss _ _ _ _ _ H (N d)) by (rewrite vlive_views; auto).
      simpl. unfold any_cast_rval, any_cast_ref. rewrite Ld, C. apply refines_result; auto.
    + guards. unfold any_cast_ref. rewrite Ld, C, Hl, V. simpl. rewrite Nat.eqb_refl.
      destruct (W (if mvt then None else x0)) as [I1 V1].
      apply refines_state. destruct asg; split; auto. apply inv_note; auto.
  - (* OValueThrow *) guards. destruct (is_free d st); apply refines_result; auto.
  - (* OValueAssignThrow *) guards. destruct (is_live d st); apply refines_result; auto.
  - (* OCopyCtorArmed *) guards. destruct (is_free d st && is_live s st) eqn:G; [|apply refines_result; auto].
    apply andb_prop in G as [F L]. rewrite holds_type_spec.
    destruct (spec_holds (view_of s st) tx); [apply refines_result | apply refines_state, copy_ctor_ok]; auto.
  - (* OCopyAssignArmed *) guards. destruct (is_live d st && is_live s st) eqn:G; [|apply refines_result; auto].
    apply andb_prop in G as [Ld L]. rewrite holds_type_spec.
    destruct (spec_holds (view_of s st) tx); [apply refines_result | apply refines_state, copy_assign_ok]; auto.
Qed.

Lemma run_refines_spec w st : inv st ->
  inv (fst (run w st)) /\
  views (fst (run w st)) = fst (spec_run w (views st)) /\
  snd (run w st) = snd (spec_run w (views st)).
Proof.
  revert st; induction w as [|o w IH]; intros st I; simpl; auto.
  destruct (step_refines_spec st o I) as [I1 [V1 R1]].
  destruct (step o st) as [st1 r]. destruct (spec_step o (views st)) as [vs1 r'].
  simpl in *. subst. specialize (IH st1 I1). destruct IH as [I2 [V2 R2]].
  destruct (run w st1) as [st2 rs]. destruct (spec_run w (views st1)) as [vs2 rs']. simpl in *.
  subst. auto.
Qed.

Lemma exec_inv n w : inv (exec w (init n)).
Proof. unfold exec. apply run_refines_spec, inv_init. Qed.

Lemma inv_dlog_once st x : inv st -> cnt x (st_dlog st) <= 1.
Proof. intro I. pose proof (ix_log _ _ I x). pose proof (ix_once _ _ I x). lia. Qed.

Lemma inv_keys_nodup st : inv st -> NoDup (keys (st_heap st)).
Proof. intro I. apply cnt_nodup. intro x. apply (ix_key1 _ _ x I). Qed.

(* a location referenced by a container has not been deleted *)
Lemma inv_owned_not_deleted st d l : inv st -> pget d st = Live (Some l) -> ~ In l (st_dlog st).
Proof.
  intros I H Hin. apply cnt_In in Hin.
  destruct (inv_owned _ _ _ _ I H) as [c Hc]. apply hget_some_cnt in Hc.
  pose proof (ix_log _ _ I l). pose proof (ix_once _ _ I l). lia.
Qed.

Lemma spec_no_fault o vs f :
  (forall d l, nth d vs VDead <> VDangling l) -> snd (spec_step o vs) <> RFault f.
Proof.
  intro N.
  destruct o; simpl; unfold vget, spec_cast_ptr, spec_cast_val;
    try (pose proof (N d) as Nd; destruct (nth d vs VDead) as [| |t' x|l]; [| | |elim (Nd l eq_refl)]; simpl);
    repeat match goal with |- context [if ?b then _ else _] => destruct b end; discriminate.
Qed.

Lemma step_no_fault st o f : inv st -> snd (step o st) <> RFault f.
Proof.
  intro I. destruct (step_refines_spec st o I) as [_ [_ R]]. rewrite R.
  apply spec_no_fault. intros d l. rewrite nth_views. apply inv_no_dangling; auto.
Qed.

Lemma run_no_fault w st f : inv st -> ~ In (RFault f) (snd (run w st)).
Proof.
  revert st; induction w as [|o w IH]; intros st I; simpl; auto.
  pose proof (step_no_fault st o f I) as N.
  destruct (step_refines_spec st o I) as [I1 _].
  destruct (step o st) as [st1 r]. simpl in *. specialize (IH st1 I1).
  destruct (run w st1) as [st2 rs]. simpl in *. intros [H|H]; auto.
Qed.

Lemma pool_delete p st : st_pool (delete_content p st) = st_pool st.
Proof. destruct p; simpl; auto. destruct (hget l (st_heap st)); auto. Qed.

Lemma pool_destroy d st : st_pool (fst (step (ODestroy d) st)) = upd d Dead (st_pool st).
Proof.
  cbn [step]. destruct (is_live d st) eqn:L; cbn [fst].
  - unfold m_destroy. simpl. rewrite pool_delete. reflexivity.
  - (* no object at d: the slot reads Dead already *)
    pose proof (upd_same d Dead (st_pool st)) as U. unfold is_live, pget in L.
    destruct (nth d (st_pool st) Dead); [congruence | discriminate].
Qed.

Lemma destroy_fold ds st : inv st ->
  let st' := fold_left (fun s d => fst (step (ODestroy d) s)) ds st in
  inv st' /\ st_pool st' = fold_left (fun p d => upd d Dead p) ds (st_pool st).
Proof.
  revert st; induction ds as [|d ds IH]; intros st I; cbn [fold_left]; [auto|].
  rewrite <- pool_destroy. apply IH, (step_refines_spec st (ODestroy d) I).
Qed.

Lemma upd_dead_all ds (p : list slot) e :
  In e ds \/ nth e p Dead = Dead -> nth e (fold_left (fun p d => upd d Dead p) ds p) Dead = Dead.
Proof.
  revert p; induction ds as [|d ds IH]; intros p H; cbn [fold_left].
  - destruct H as [[]|H]; exact H.
  - apply IH. rewrite nth_upd_default. destruct (Nat.eqb_spec d e); [auto|]. destruct H as [[H|H]|H]; auto. contradiction.
Qed.

Lemma destroy_all_dead st : inv st -> inv (destroy_all st) /\ forall d, pget d (destroy_all st) = Dead.
Proof.
  intro I. destruct (destroy_fold (seq 0 (length (st_pool st))) st I) as [I' P]. split; [exact I'|].
  intro d. unfold pget, destroy_all. rewrite P. apply upd_dead_all.
  destruct (Nat.lt_ge_cases d (length (st_pool st))); [left; apply in_seq; lia | right; apply nth_overflow; lia].
Qed.

(* when no container is left no holder is: every holder ever allocated has been deleted, once *)
Lemma inv_all_dead st : inv st -> (forall d, pget d st = Dead) ->
  st_heap st = [] /\ Permutation (st_dlog st) (st_alog st) /\ NoDup (st_dlog st).
Proof.
  intros I D.
  assert (K : keys (st_heap st) = []).
  { apply cnt_all_zero. intro x. rewrite <- (ix_own _ _ I x), (refs_all_dead _ D). reflexivity. }
  split; [destruct (st_heap st); [reflexivity | discriminate] | split].
  - apply cnt_perm. intro x. rewrite (ix_log _ _ I x), K. simpl. lia.
  - apply cnt_nodup. intro x. apply inv_dlog_once, I.
Qed.

(* A remark on the specification, not a property theorem.  m_move_assign_nocheck is the body
   operator=(any&&) would have without its `this == &rhs` test.  It is NOT extracted, NOT run
   and NOT part of Properties_C20.v; the lemma only records what the test is there for (the
   library with the test removed is reported by the check as
   C20:self-assign-not-harmless:mas). *)
Lemma move_assign_nocheck_self_releases st d : is_live d st = true ->
  view_of d (m_move_assign_nocheck d d st) = VEmpty.
Proof.
  intro L. pose proof (is_live_lt _ _ L) as Hlt.
  assert (P : pget d (m_move_assign_nocheck d d st) = Live None).
  { unfold m_move_assign_nocheck, pget. rewrite pool_delete. apply nth_upd_same. simpl. rewrite !length_upd. auto. }
  unfold view_of. rewrite P. auto.
Qed.

Definition tagtest (t : tag) (h : heap) (l : loc) : bool :=
  match hget l h with Some (t', _) => Nat.eqb t' t | None => false end.
Definition tc (t : tag) (h : heap) (ls : list loc) : nat := length (filter (tagtest t h) ls).

Lemma tc_perm t h a b : Permutation a b -> tc t h a = tc t h b.
Proof.
  unfold tc. induction 1; simpl; auto.
  - destruct (tagtest t h x); simpl; auto.
  - destruct (tagtest t h x), (tagtest t h y); simpl; auto.
  - congruence.
Qed.

Lemma tc_keys t h :
  NoDup (keys h) -> tc t h (keys h) = length (filter (fun p : loc * cell => Nat.eqb (fst (snd p)) t) h).
Proof.
  unfold tc. induction h as [|[k [t' v]] r IH]; intro N; auto. inversion N as [|? ? Hk Nr]; subst.
  cbn [keys map fst snd filter]. fold (keys r).
  (* the other keys are found in the tail, k in the head entry *)
  rewrite (filter_ext_in _ (tagtest t r) (keys r)).
  - unfold tagtest at 1. cbn [hget]. rewrite Nat.eqb_refl. cbv iota beta.
    destruct (Nat.eqb t' t); cbn [length]; rewrite IH; auto.
  - intros l Hl. unfold tagtest. simpl. destruct (Nat.eqb_spec k l); auto. subst. contradiction.
Qed.

Lemma tc_refs t h p : tc t h (refs p) = spec_count t (map (vslot h) p).
Proof.
  unfold tc, spec_count. induction p as [|a r IH]; simpl; auto.
  destruct a as [|[l|]]; simpl; auto.
  unfold tagtest at 1. destruct (hget l h) as [[t' v]|]; simpl; auto.
  destruct (Nat.eqb t' t); simpl; auto.
Qed.

(* the number of live holders of type t = the number of containers that hold a t *)
Theorem live_count_spec t st : inv st -> live_count t st = spec_count t (views st).
Proof.
  intro I. unfold views. rewrite <- tc_refs.
  assert (P : Permutation (refs (st_pool st)) (keys (st_heap st))).
  { apply cnt_perm. intro x. pose proof (ix_own _ _ I x). simpl in H. lia. }
  rewrite (tc_perm _ _ _ _ P), tc_keys by (apply inv_keys_nodup; auto). reflexivity.
Qed.

Lemma views_init n : views (init n) = repeat VDead n.
Proof. unfold views; simpl. induction n; simpl; congruence. Qed.

Lemma view_is_live d st x : view_of d st = x -> vlive x = true -> is_live d st = true.
Proof. intros <-. rewrite vlive_view. auto. Qed.

Lemma view_step e o st : inv st -> view_of e (fst (step o st)) = nth e (fst (spec_step o (views st))) VDead.
Proof. intro I. destruct (step_refines_spec st o I) as [_ [V _]]. rewrite <- V, nth_views. auto. Qed.

Lemma spec_set_frame vs d e t v : d <> e ->
  nth e (fst (spec_step (OSetPtr d t v) vs)) VDead = nth e vs VDead /\
  nth e (fst (spec_step (OSetRef d t v) vs)) VDead = nth e vs VDead.
Proof.
  intro ne. simpl. unfold vget. split.
  - destruct (nth d vs VDead); simpl; auto; apply nth_upd_other; auto.
  - destruct (vlive (nth d vs VDead)); simpl; auto.
    destruct (nth d vs VDead); simpl; auto; apply nth_upd_other; auto.
Qed.

(* writing through a cast of one container changes no other container *)
Lemma write_frame st d e t v : inv st -> d <> e ->
  view_of e (fst (step (OSetPtr d t v) st)) = view_of e st /\
  view_of e (fst (step (OSetRef d t v) st)) = view_of e st.
Proof.
  intros I ne. rewrite !view_step by auto. destruct (spec_set_frame (views st) d e t v ne) as [A B].
  rewrite A, B, nth_views. auto.
Qed.

(* st1: container d has just received a copy of the value of another container s.  The two own
   different holders, and a write through a cast of one is not seen in the other. *)
Lemma copied_independent st st1 d s :
  inv st1 -> views st1 = upd d (view_of s st) (views st) ->
  d < length (st_pool st) -> d <> s -> is_live s st = true ->
  view_of d st1 = view_of s st /\ view_of s st1 = view_of s st /\
  (forall l, content s st1 = Some l -> content d st1 <> Some l) /\
  forall t v,
    view_of s (fst (step (OSetPtr d t v) st1)) = view_of s st /\
    view_of s (fst (step (OSetRef d t v) st1)) = view_of s st /\
    view_of d (fst (step (OSetPtr s t v) st1)) = view_of s st /\
    view_of d (fst (step (OSetRef s t v) st1)) = view_of s st.
Proof.
  intros I V Hlt ne L. rewrite <- vlive_view in L.
  assert (Vd : view_of d st1 = view_of s st).
  { rewrite <- nth_views, V. apply nth_upd_same. rewrite length_views. auto. }
  assert (Vs : view_of s st1 = view_of s st) by (rewrite <- nth_views, V, nth_upd_other, nth_views; auto).
  split; [auto | split; [auto | split]].
  - intros l Hs Hd. apply ne, (inv_unique _ _ _ _ l I).
    + rewrite (is_live_content _ _ (view_is_live _ _ _ Vd L)), Hd. auto.
    + rewrite (is_live_content _ _ (view_is_live _ _ _ Vs L)), Hs. auto.
  - intros t v. destruct (write_frame st1 d s t v I ne) as [A B].
    destruct (write_frame st1 s d t v I (not_eq_sym ne)) as [C D]. rewrite A, B, C, D. auto.
Qed.

Lemma free_live_ne st d s : is_free d st = true -> is_live s st = true -> d <> s.
Proof.
  intros F L E. subst. unfold is_free in F. rewrite L in F. rewrite andb_false_r in F. discriminate.
Qed.

(* st1: container d has just been given the pointer of another container s *)
Lemma moved_views st st1 d s x :
  views st1 = upd s VEmpty (upd d x (views st)) -> d <> s -> d < length (st_pool st) -> s < length (st_pool st) ->
  view_of s st1 = VEmpty /\ view_of d st1 = x.
Proof.
  intros V ne Hd Hs. rewrite <- !nth_views, V. rewrite <- length_views in Hd, Hs. split.
  - apply nth_upd_same. rewrite length_upd. auto.
  - rewrite nth_upd_other by auto. apply nth_upd_same. auto.
Qed.

Lemma ctors_delete p st : st_ctors (delete_content p st) = st_ctors st.
Proof. destruct p; simpl; auto. destruct (hget l (st_heap st)); auto. Qed.

Lemma ctors_clone p st :
  st_ctors (snd (clone p st)) =
  match vslot (st_heap st) (Live p) with VHolds t _ => (t, false) :: st_ctors st | _ => st_ctors st end.
Proof. destruct p as [l|]; simpl; auto. destruct (hget l (st_heap st)) as [[t v]|]; auto. Qed.

Lemma ctors_copy_ctor d s st : is_live s st = true ->
  st_ctors (m_copy_ctor d s st) = match view_of s st with VHolds t _ => (t, false) :: st_ctors st | _ => st_ctors st end.
Proof.
  intro L. rewrite (view_content _ _ L), <- ctors_clone. unfold m_copy_ctor. destruct (clone _ _); reflexivity.
Qed.

Lemma ctors_copy_assign d s st : is_live s st = true ->
  st_ctors (m_copy_assign d s st) = match view_of s st with VHolds t _ => (t, false) :: st_ctors st | _ => st_ctors st end.
Proof.
  intro L. rewrite (view_content _ _ L), <- ctors_clone. unfold m_copy_assign. destruct (clone _ _).
  rewrite ctors_delete. reflexivity.
Qed.
