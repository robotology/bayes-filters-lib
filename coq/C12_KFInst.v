(* C12_KFInst.v — the KF skeleton of C12_Model instantiated with the numerical
   model of C01 (KFCorrection over a LinearMeasurementModel): the abstract
   data of the skeleton become component lists and matrices, the function
   parameters become the definitions of C01_Model.  With the fault pattern
   `no_fault` this instance is C01's `kf_correct` (Properties_C12.C12_no_fault_kf_is_C01); it is also
   extracted at the list instance and run.  No proofs in this file. *)
Require Import ZArith List.
Require Import BFL.Ops BFL.Density BFL.C01_Model BFL.C12_Model.
Import ListNotations.

Section KFInst.
Variable O : MatOps.
Variables n m : nat.
Variable W : Type.              (* weight_ and the shape descriptors: never written by the per-component loop *)

(* algorithm-level view of a GaussianMixture: component list + the rest *)
Definition kfG := (list (gcomp O n) * W)%type.

Definition overwrite_prefix {A} (new old : list A) : list A := new ++ skipn (length new) old.

Definition c_kf_px (g : kfG) : list (M O n 1) := map gmean (fst g).

(* LinearMeasurementModel serving y: predictedMeasure = H * columns,
   innovation = -(pred.colwise() - y) *)
Definition lin_mm (H : M O m n) (R : M O m m) (y : M O m 1)
  : mmodel (M O m 1) (list (M O n 1)) (list (M O m 1)) (list (M O m 1)) (M O m m) :=
  total_mm y (map (lin_predicted H)) (fun yp y => map (fun a => lin_innovation a y) yp) R.

(* KFCorrection.cpp:91-118 *)
Definition c_kf_upd (H : M O m n) (pred : kfG) (nus : list (M O m 1)) (R : M O m m) (out : kfG)
  : kfG * list (M O m m) :=
  let res := map (fun cn => kf_correct_comp (gcov (fst cn)) (gmean (fst cn)) H R (snd cn))
                 (combine (fst pred) nus) in
  ((overwrite_prefix (map (fun r => mkGcomp (fst (fst r)) (snd (fst r))) res) (fst out), snd out),
   map snd res).

Definition c_kf_lik (nus : list (M O m 1)) (pys : list (M O m m)) : list (T (sc O)) :=
  map (fun p => density (fst p) (mzero m 1) (snd p)) (combine nus pys).

Definition c_kf_step (H : M O m n) :=
  @kf_step kfG (M O m 1) (list (M O n 1)) (list (M O m 1)) (list (M O m 1)) (M O m m) (list (M O m m)) c_kf_px (c_kf_upd H).
Definition c_kf_get_lik := kf_get_lik c_kf_lik.
End KFInst.
Arguments c_kf_step {O n m W}. Arguments c_kf_get_lik {O m}. Arguments lin_mm {O n m}.
Arguments c_kf_px {O n W}. Arguments c_kf_upd {O n m W}. Arguments c_kf_lik {O m}.
