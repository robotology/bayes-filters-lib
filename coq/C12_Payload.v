(* C12_Payload.v — the sensor interface as the library really sees it.

   C12_Model describes a call into the measurement model by an `option`: Some value / None.
   The C++ interface is richer: every call returns a validity FLAG *and* a PAYLOAD
   (std::pair<bool, bfl::Data>, std::pair<bool, MatrixXd>), and a model that reports
   "unavailable" still hands back some payload next to its false flag: an empty bfl::Data, a
   matrix of another shape, a stale matrix, a value of another type.  bfl::Data is bfl::any:
   reading it is any_cast<MatrixXd&&>, which THROWS bad_any_cast unless the any holds a matrix.
   "The correction leaves the belief untouched" therefore has a second half the option model
   cannot express: on a failing path the payload must never be cast or read, otherwise
   correct() ends with an exception (or garbage) instead of `corr = pred`.  (Seeded change
   C12-r5 is exactly that: a helper that casts before the caller tests the flag.)

   This file transcribes the same code with flags, payloads, casts and their ORDER
     KFCorrection.cpp:48-95      only the innovation is cast, after all four flags (:95)
     sigma_point.cpp:131-147     fun_data is cast after its flag (:146)
     UKFCorrection.cpp:91-128    the innovation is cast after its flag (:128)
     SUKFCorrection.cpp:79-139   pred cast after its flag (:111), innovation after its flag (:139)
     GaussianLikelihood.cpp:25-75 each payload cast right after its own flag
   in an exception monad.  Properties_C12 proves of it
     (a) C12_*_payload_step_is_skeleton: when every payload delivered with a TRUE flag is a matrix, the
         payload-level step is the option-level skeleton of C12_Model applied to the view
         "false flag = None" -- so every theorem about the skeleton is a theorem about the
         payload-level step, whatever accompanies the false flags;
     (b) C12_*_payload_never_read_on_failure / _payload_failure*: when a call the class honours reports
         unavailability, the step returns normally (no exception), with the predicted belief and no
         likelihood -- for ANY payloads whatsoever, also ill-typed ones next to true flags of calls made earlier;
     (c) C12_cast_before_flag_refuted: the transcription of C12-r5 (cast, then test) throws on
         (false, empty Data).
   The facts about GaussianLikelihood that the particle corrections share (gl_raw_is_skeleton,
   gl_raw_failure, lik_eval_raw_is_skeleton) are proved here.
   No axioms. *)
Require Import List Bool.
Require Import BFL.C12_Model BFL.C12_Proofs.
Import ListNotations.
Local Open Scope bool_scope.

(* bfl::Data (bfl::any): empty, holding a MatrixXd, holding a value of some other type *)
Inductive data (M : Type) := DEmpty | DMat (m : M) | DOther.
Arguments DEmpty {M}. Arguments DMat {M}. Arguments DOther {M}.

(* any_cast<MatrixXd&&>; None = bad_any_cast is thrown *)
Definition cast {M : Type} (d : data M) : option M := match d with DMat m => Some m | _ => None end.

Inductive exn (A : Type) := Ok (a : A) | Throw.
Arguments Ok {A}. Arguments Throw {A}.

Section Raw.
Variables G St Y X YP NU RC PY PM PXY LK RNG GS : Type.

(* the measurement model as the library sees it *)
Record rmodel := mkRM {
  rm_measure : bool * data Y;
  rm_predicted : X -> bool * data YP;
  rm_innovation : data YP -> data Y -> bool * data NU;
  rm_noisecov : bool * RC
}.

Definition flagged {A : Type} (r : bool * A) : option A := if fst r then Some (snd r) else None.
Definition flagged_cast {A : Type} (r : bool * data A) : option A := if fst r then cast (snd r) else None.

(* KFCorrection *)
Variable kf_px : G -> X.
Variable kf_upd : G -> NU -> RC -> G -> G * PY.

Definition kf_step_raw (rm : rmodel) (pred out : G) (st0 : kf_state NU PY) : exn (result G (kf_state NU PY)) :=
  let st := mkKfSt None (kf_py st0) in
  let M := rm_measure rm in
  if negb (fst M) then Ok (mkRes pred st [Measure]) else
  let P := rm_predicted rm (kf_px pred) in
  if negb (fst P) then Ok (mkRes pred st [Measure; Predicted]) else
  (* :75 both payloads are handed on as bfl::Data, uncast *)
  let I := rm_innovation rm (snd P) (snd M) in
  if negb (fst I) then Ok (mkRes pred st [Measure; Predicted; Innovation]) else
  let N := rm_noisecov rm in
  if negb (fst N) then Ok (mkRes pred st [Measure; Predicted; Innovation; NoiseCov]) else
  (* :95 innovations_ = any_cast<MatrixXd&&>(std::move(innovation)) *)
  match cast (snd I) with
  | None => Throw
  | Some nu => let '(g, py) := kf_upd pred nu (snd N) out in
               Ok (mkRes g (mkKfSt (Some nu) py) [Measure; Predicted; Innovation; NoiseCov])
  end.

(* the option-level sensor this is a refinement of: measurement and predicted measurement stay bfl::Data *)
Definition kf_view (rm : rmodel) : mmodel (data Y) X (data YP) NU RC :=
  mkMM true (flagged (rm_measure rm)) (fun x => flagged (rm_predicted rm x))
       (fun a b => flagged_cast (rm_innovation rm a b)) (rm_noisecov rm).

Definition kf_fails_raw (rm : rmodel) (pred : G) : Prop :=
  fst (rm_measure rm) = false \/
  fst (rm_predicted rm (kf_px pred)) = false \/
  fst (rm_innovation rm (snd (rm_predicted rm (kf_px pred))) (snd (rm_measure rm))) = false \/
  fst (rm_noisecov rm) = false.

(* the transcription of seeded change C12-r5: GaussianCorrection::evaluateInnovation casts the payload
   BEFORE the caller looks at the flag *)
Definition kf_step_cast_before_flag (rm : rmodel) (pred out : G) (st0 : kf_state NU PY) : exn (result G (kf_state NU PY)) :=
  let st := mkKfSt None (kf_py st0) in
  let M := rm_measure rm in
  if negb (fst M) then Ok (mkRes pred st [Measure]) else
  let P := rm_predicted rm (kf_px pred) in
  if negb (fst P) then Ok (mkRes pred st [Measure; Predicted]) else
  let I := rm_innovation rm (snd P) (snd M) in
  match cast (snd I) with
  | None => Throw
  | Some nu =>
    if negb (fst I) then Ok (mkRes pred st [Measure; Predicted; Innovation]) else
    let N := rm_noisecov rm in
    if negb (fst N) then Ok (mkRes pred st [Measure; Predicted; Innovation; NoiseCov]) else
    let '(g, py) := kf_upd pred nu (snd N) out in
    Ok (mkRes g (mkKfSt (Some nu) py) [Measure; Predicted; Innovation; NoiseCov])
  end.

(* unscented transform / UKFCorrection *)
Variable sigma_of : G -> X.
Variable ut_moments : G -> YP -> PM * PXY.
Variable pm_default : PM.
Variable pxy_empty : PXY.
Variable pm_add_noise : PM -> RC -> PM.
Variable ukf_augment : G -> RC -> G.
Variable pm_mean : PM -> YP.
Variable ukf_upd : G -> PM -> PXY -> NU -> G -> G.

(* sigma_point.cpp:131-147: the flag is tested (:141), then fun_data is cast (:146) *)
Definition ut_base_raw (rm : rmodel) (input : G) : exn (bool * PM * PXY) :=
  let P := rm_predicted rm (sigma_of input) in
  if negb (fst P) then Ok (false, pm_default, pxy_empty) else
  match cast (snd P) with
  | None => Throw
  | Some yp => let '(pm, pxy) := ut_moments input yp in Ok (true, pm, pxy)
  end.

Definition ukf_step_raw (additive : bool) (rm : rmodel) (pred out : G) (st : ukf_state NU PM)
  : exn (result G (ukf_state NU PM)) :=
  let M := rm_measure rm in
  if negb (fst M) then Ok (mkRes pred (mkUkfSt None (u_pm st)) [Measure]) else
  let input := if additive then pred else ukf_augment pred (snd (rm_noisecov rm)) in
  let pre := if additive then [] else [NoiseCov] in
  match ut_base_raw rm input with
  | Throw => Throw
  | Ok (false, pm, _) => Ok (mkRes pred (mkUkfSt None pm) (Measure :: pre ++ [Predicted]))
  | Ok (true, pm0, pxy) =>
    let pm := if additive then pm_add_noise pm0 (snd (rm_noisecov rm)) else pm0 in
    let l := Measure :: pre ++ [Predicted] ++ (if additive then [NoiseCov] else []) in
    (* :121-122 y_p is a MatrixXd; the measurement is handed on as bfl::Data *)
    let I := rm_innovation rm (DMat (pm_mean pm)) (snd M) in
    if negb (fst I) then Ok (mkRes pred (mkUkfSt None pm) (l ++ [Innovation])) else
    match cast (snd I) with                                             (* :128 *)
    | None => Throw
    | Some nu => Ok (mkRes (ukf_upd pred pm pxy nu out) (mkUkfSt (Some nu) pm) (l ++ [Innovation]))
    end
  end.

(* predicted measurements and innovations are read as matrices; the measurement stays bfl::Data *)
Definition u_view (rm : rmodel) : mmodel (data Y) X YP NU RC :=
  mkMM true (flagged (rm_measure rm)) (fun x => flagged_cast (rm_predicted rm x))
       (fun a b => flagged_cast (rm_innovation rm (DMat a) b)) (rm_noisecov rm).

Definition ukf_input_raw (additive : bool) (rm : rmodel) (pred : G) : G :=
  if additive then pred else ukf_augment pred (snd (rm_noisecov rm)).
Definition ukf_pm_raw (additive : bool) (rm : rmodel) (pred : G) (yp : YP) : PM :=
  let pm := fst (ut_moments (ukf_input_raw additive rm pred) yp) in
  if additive then pm_add_noise pm (snd (rm_noisecov rm)) else pm.

(* every payload that comes with a true flag at the arguments of THIS call is a matrix *)
Definition ukf_well_typed (additive : bool) (rm : rmodel) (pred : G) : Prop :=
  let P := rm_predicted rm (sigma_of (ukf_input_raw additive rm pred)) in
  (fst P = true -> cast (snd P) <> None) /\
  (forall yp, cast (snd P) = Some yp ->
     let I := rm_innovation rm (DMat (pm_mean (ukf_pm_raw additive rm pred yp))) (snd (rm_measure rm)) in
     fst I = true -> cast (snd I) <> None).

(* a call the class honours reports unavailability (the innovation call exists only after the predicted
   measurement was delivered as a matrix) *)
Definition ukf_fails_raw (additive : bool) (rm : rmodel) (pred : G) : Prop :=
  let P := rm_predicted rm (sigma_of (ukf_input_raw additive rm pred)) in
  fst (rm_measure rm) = false \/ fst P = false \/
  (exists yp, cast (snd P) = Some yp /\
     fst (rm_innovation rm (DMat (pm_mean (ukf_pm_raw additive rm pred yp))) (snd (rm_measure rm))) = false).

(* SUKFCorrection *)
Variable sukf_pred_mean : YP -> YP.
Variable sukf_upd : G -> X -> YP -> NU -> RC -> G -> G * YP.

Definition sukf_step_raw (sub_ok : bool) (ncalls : nat) (rm : rmodel) (pred out : G) (st0 : sukf_state YP NU)
  : exn (result G (sukf_state YP NU)) :=
  let st := mkSukfSt None (s_prop st0) in
  let M := rm_measure rm in
  if negb (fst M && sub_ok) then Ok (mkRes pred st [Measure]) else          (* :86-94 valid_measurement &= size test *)
  let sp := sigma_of pred in
  let P := rm_predicted rm sp in
  if negb (fst P) then Ok (mkRes pred st [Measure; Predicted]) else
  match cast (snd P) with                                                   (* :111 *)
  | None => Throw
  | Some yp =>
    let I := rm_innovation rm (DMat (sukf_pred_mean yp)) (snd M) in
    if negb (fst I) then Ok (mkRes pred (mkSukfSt None (Some yp)) [Measure; Predicted; Innovation]) else
    match cast (snd I) with                                                 (* :139 *)
    | None => Throw
    | Some nu =>
      let '(g, yp') := sukf_upd pred sp yp nu (snd (rm_noisecov rm)) out in
      Ok (mkRes g (mkSukfSt (Some nu) (Some yp')) ([Measure; Predicted; Innovation] ++ repeat NoiseCov ncalls))
    end
  end.

Definition sukf_well_typed (rm : rmodel) (pred : G) : Prop :=
  let P := rm_predicted rm (sigma_of pred) in
  (fst P = true -> cast (snd P) <> None) /\
  (forall yp, cast (snd P) = Some yp ->
     let I := rm_innovation rm (DMat (sukf_pred_mean yp)) (snd (rm_measure rm)) in
     fst I = true -> cast (snd I) <> None).

Definition sukf_fails_raw (sub_ok : bool) (rm : rmodel) (pred : G) : Prop :=
  let P := rm_predicted rm (sigma_of pred) in
  fst (rm_measure rm) = false \/ sub_ok = false \/ fst P = false \/
  (exists yp, cast (snd P) = Some yp /\
     fst (rm_innovation rm (DMat (sukf_pred_mean yp)) (snd (rm_measure rm))) = false).

(* GaussianLikelihood *)
Variable st_px : St -> X.
Variable gl_dens : NU -> RC -> LK.
Variable lk_zero1 : LK.

(* every payload is cast right after its own flag was found true (:33-34, :44-45, :55-56) *)
Definition gl_likelihood_raw (rm : rmodel) (s : St) : exn (option LK * list site) :=
  let M := rm_measure rm in
  if negb (fst M) then Ok (None, [Measure]) else
  match cast (snd M) with
  | None => Throw
  | Some y =>
    let P := rm_predicted rm (st_px s) in
    if negb (fst P) then Ok (None, [Measure; Predicted]) else
    match cast (snd P) with
    | None => Throw
    | Some yp =>
      let I := rm_innovation rm (DMat yp) (DMat y) in
      if negb (fst I) then Ok (None, [Measure; Predicted; Innovation]) else
      match cast (snd I) with
      | None => Throw
      | Some nu =>
        let N := rm_noisecov rm in
        if fst N then Ok (Some (gl_dens nu (snd N)), [Measure; Predicted; Innovation; NoiseCov])
        else Ok (None, [Measure; Predicted; Innovation; NoiseCov])
      end
    end
  end.

Definition gl_view (rm : rmodel) : mmodel Y X YP NU RC :=
  mkMM true (flagged_cast (rm_measure rm)) (fun x => flagged_cast (rm_predicted rm x))
       (fun a b => flagged_cast (rm_innovation rm (DMat a) (DMat b))) (rm_noisecov rm).

Definition gl_well_typed (rm : rmodel) (s : St) : Prop :=
  (fst (rm_measure rm) = true -> cast (snd (rm_measure rm)) <> None) /\
  (fst (rm_predicted rm (st_px s)) = true -> cast (snd (rm_predicted rm (st_px s))) <> None) /\
  (forall y yp, cast (snd (rm_measure rm)) = Some y -> cast (snd (rm_predicted rm (st_px s))) = Some yp ->
     fst (rm_innovation rm (DMat yp) (DMat y)) = true -> cast (snd (rm_innovation rm (DMat yp) (DMat y))) <> None).

Lemma gl_raw_is_skeleton (rm : rmodel) s :
  gl_well_typed rm s -> gl_likelihood_raw rm s = Ok (gl_likelihood st_px gl_dens (gl_view rm) s).
Proof.
  unfold gl_well_typed, gl_likelihood_raw, gl_likelihood, gl_view, flagged_cast; simpl.
  destruct (rm_measure rm) as [vM dM]; simpl. destruct vM; simpl; [|intros _; reflexivity].
  intros [W1 [W2 W3]]. destruct (cast dM) as [y|] eqn:E1; [|exfalso; apply W1; reflexivity].
  destruct (rm_predicted rm (st_px s)) as [vP dP]; simpl in *. destruct vP; simpl; [|reflexivity].
  destruct (cast dP) as [yp|] eqn:E2; [|exfalso; apply W2; reflexivity].
  specialize (W3 y yp eq_refl eq_refl).
  destruct (rm_innovation rm (DMat yp) (DMat y)) as [vI dI]; simpl in *. destruct vI; simpl; [|reflexivity].
  destruct (cast dI) as [nu|] eqn:E3; [|exfalso; apply W3; reflexivity].
  destruct (rm_noisecov rm) as [vN R]; simpl. destruct vN; reflexivity.
Qed.

(* "the Gaussian likelihood reports failure rather than a value": no value and no exception, whatever the payloads
   next to the false flags are *)
Definition gl_fails_raw (rm : rmodel) (s : St) : Prop :=
  fst (rm_measure rm) = false \/
  (exists y, cast (snd (rm_measure rm)) = Some y /\
     (fst (rm_predicted rm (st_px s)) = false \/
      exists yp, cast (snd (rm_predicted rm (st_px s))) = Some yp /\
        (fst (rm_innovation rm (DMat yp) (DMat y)) = false \/
         ((exists nu, cast (snd (rm_innovation rm (DMat yp) (DMat y))) = Some nu) /\ fst (rm_noisecov rm) = false)))).

Lemma gl_raw_failure (rm : rmodel) s :
  gl_fails_raw rm s -> exists l, gl_likelihood_raw rm s = Ok (None, l).
Proof.
  unfold gl_fails_raw, gl_likelihood_raw; simpl.
  destruct (rm_measure rm) as [vM dM]; simpl. destruct vM; simpl; [|eexists; reflexivity].
  intros [H|[y [E1 H]]]; [discriminate|]. rewrite E1.
  destruct (rm_predicted rm (st_px s)) as [vP dP]; simpl in *. destruct vP; simpl; [|eexists; reflexivity].
  destruct H as [H|[yp [E2 H]]]; [discriminate|]. rewrite E2.
  destruct (rm_innovation rm (DMat yp) (DMat y)) as [vI dI]; simpl in *. destruct vI; simpl; [|eexists; reflexivity].
  destruct H as [H|[[nu E3] H]]; [discriminate|]. rewrite E3.
  destruct (rm_noisecov rm) as [vN R]; simpl in *. subst vN. eexists; reflexivity.
Qed.

(* particle corrections *)
(* a user LikelihoodModel already is flag + payload (LCustom f : St -> bool * LK); the shipped one goes through
   the sensor *)
Definition lik_eval_raw (lm : likmodel St LK) (rm : rmodel) (s : St) : exn ((bool * LK) * list site) :=
  match lm with
  | LGauss => match gl_likelihood_raw rm s with
              | Throw => Throw
              | Ok (o, l) => Ok (lik_pair lk_zero1 o, l)
              end
  | LCustom f => Ok (f s, [Likelihood])
  end.

Variable boot_wupd : G -> LK -> G.

Definition boot_step_raw (lm : likmodel St LK) (rm : rmodel) (pred out : pset G St) (st : pf_state LK)
  : exn (result (pset G St) (pf_state LK)) :=
  match lik_eval_raw lm rm (snd pred) with
  | Throw => Throw
  | Ok (vl, l) =>
    if fst vl then Ok (mkRes (boot_wupd (fst pred) (snd vl), snd pred) (pf_state_of vl) l)
    else Ok (mkRes pred (pf_state_of vl) l)
  end.

Lemma lik_eval_raw_is_skeleton (lm : likmodel St LK) (rm : rmodel) s :
  (lm = LGauss -> gl_well_typed rm s) ->
  lik_eval_raw lm rm s = Ok (lik_eval st_px gl_dens lk_zero1 lm (gl_view rm) s).
Proof.
  destruct lm as [|f]; simpl; intros W; [|reflexivity].
  rewrite (gl_raw_is_skeleton rm s (W eq_refl)).
  destruct (gl_likelihood st_px gl_dens (gl_view rm) s); reflexivity.
Qed.

(* GPFCorrection over ANY wrapped correction gc that may itself end with an exception *)
Variable gpf_sample : RNG -> G -> St -> St * RNG.
Variable gpf_wupd : pset G St -> LK -> pset G St -> G.

Definition gpf_step_raw (gc : G -> G -> GS -> exn (result G GS)) (lm : likmodel St LK) (rm : rmodel)
           (pred out : pset G St) (st : gpf_state LK RNG GS) : exn (result (pset G St) (gpf_state LK RNG GS)) :=
  match gc (fst pred) (fst out) (g_inner st) with
  | Throw => Throw
  | Ok r =>
    let '(states, rng') := gpf_sample (g_rng st) (r_out r) (snd out) in
    match lik_eval_raw lm rm states with
    | Throw => Throw
    | Ok (vl, l) =>
      let st' := mkGpfSt (pf_state_of vl) (r_st r) rng' in
      if fst vl then Ok (mkRes (gpf_wupd pred (snd vl) (r_out r, states), states) st' (r_log r ++ l))
      else Ok (mkRes pred st' (r_log r ++ l))
    end
  end.

End Raw.

(* the witness against C12-r5 *)
(* a sensor over one-point types whose innovation() reports unavailability next to an EMPTY bfl::Data *)
Definition r5_sensor : rmodel unit unit unit unit unit :=
  mkRM unit unit unit unit unit (true, DMat tt) (fun _ => (true, DMat tt)) (fun _ _ => (false, DEmpty)) (true, tt).
