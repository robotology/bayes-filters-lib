(* C15_Proofs.v — the Gaussian density utilities at the MathComp instance
   (World A): Woodbury identity, matrix determinant lemma, block-diagonal
   inverse / determinant, and the factorised ("UVR") log-density equals the
   direct one on the assembled covariance.  ln / exp / pi are the
   uninterpreted functions of the Transc record: only congruence is used.
   Axiom-free. *)
Require Import ZArith List.
Require Import BFL.Ops BFL.ListFacts BFL.Density BFL.C15_Model.
From mathcomp Require Import ssreflect ssrfun ssrbool eqtype ssrnat seq choice fintype bigop order ssralg ssrnum zmodp matrix mxalgebra div.
Require Import BFL.MxOps BFL.LinAlg.
Set Implicit Arguments.
Unset Strict Implicit.
Unset Printing Implicit Defensive.
Import Order.Theory GRing.Theory Num.Theory.
Local Open Scope ring_scope.

Lemma gram_psd (F : realFieldType) d k (U : 'M[F]_(d,k)) : psd (U *m U^T).
Proof. by rewrite -[U in U *m _]mulmx1; apply: psd_congr; apply: spd_psd; exact: spd1. Qed.

Section Woodbury.
Variable F : realFieldType.

Variables (d k : nat) (R : 'M[F]_d) (U : 'M[F]_(d,k)) (V : 'M[F]_(k,d)).
Hypothesis uR : R \in unitmx.

Let S := U *m V + R.
Let C := 1%:M + V *m invmx R *m U.       (* the "capacitance" matrix I + V R^-1 U *)

(* det (U V + R) = det R * det (I + V R^-1 U): the determinant of
   [R, -U; V, I] taken through either diagonal block *)
Lemma det_lemma : \det S = \det R * \det C.
Proof.
have := det_schur (- U) V 1%:M uR; rewrite mulmxN opprK -/C => <-.
have -> : block_mx R (- U) V 1%:M = block_mx S (- U) 0 1%:M *m block_mx 1%:M 0 V 1%:M.
  by rewrite mulmx_block !mulmx1 !mulmx0 !mul1mx !add0r mulNmx /S addrC addKr.
by rewrite det_mulmx det_ublock det_lblock !det1 !mulr1.
Qed.

Hypothesis uS : S \in unitmx.

(* derived, not assumed: the matrix the code inverts is invertible *)
Lemma capacitance_unit : C \in unitmx.
Proof. by move: uS; rewrite !unitmxE det_lemma unitrM => /andP []. Qed.

(* push-through: V R^-1 S = C V, cancelled on both sides *)
Lemma push_through : invmx C *m (V *m invmx R) = V *m invmx S.
Proof.
have swap : V *m invmx R *m S = C *m V.
  by rewrite /S /C mulmxDr mulmxDl mul1mx -[_ *m invmx R *m R]mulmxA (mulVmx uR) mulmx1 !mulmxA addrC.
have -> : V *m invmx R = C *m V *m invmx S by rewrite -swap -[_ *m S *m _]mulmxA (mulmxV uS) mulmx1.
by rewrite -mulmxA (mulKmx capacitance_unit).
Qed.

Lemma woodbury : invmx S = invmx R *m (1%:M - U *m invmx C *m (V *m invmx R)).
Proof. (* by the push-through identity the bracket is 1 - U V S^-1 = (S - U V) S^-1 = R S^-1 *)
rewrite -[U *m _ *m _]mulmxA push_through -{1}(mulmxV uS) [U *m _]mulmxA -mulmxBl.
by rewrite [S - _]addrC /S addKr mulKmx.
Qed.

Lemma woodbury_quadform (x : 'cV[F]_d) :
  x^T *m invmx S *m x = x^T *m invmx R *m (1%:M - U *m invmx C *m (V *m invmx R)) *m x.
Proof. by rewrite woodbury !mulmxA. Qed.

End Woodbury.

(* Block-diagonal matrices with nb blocks of size bs: entrywise form (what the
   model's loops build) and its algebra, by induction on the number of blocks
   through block_mx *)
Section BlockDiag.
Variable F : realFieldType.
Variable bs : nat.

Definition BD nb (G : nat -> 'M[F]_bs) : 'M[F]_(nb * bs) :=
  \matrix_(i, j) if (i %/ bs == j %/ bs)%N then mx_get (G (i %/ bs)%N) (i %% bs)%N (j %% bs)%N else 0.

Lemma bs_pos nb (i : 'I_(nb * bs)) : (0 < bs)%N.
Proof. by case: i => m; case: (bs) => //; rewrite muln0. Qed.

Lemma BD_S nb (G : nat -> 'M[F]_bs) :
  BD nb.+1 G = (block_mx (G 0%N) 0 0 (BD nb (fun i => G i.+1)) : 'M_(bs + nb * bs)).
Proof.
apply/matrixP => i j; rewrite [LHS]mxE; have b0 := bs_pos i.
have dl (x : 'I_bs) : (x %/ bs)%N = 0%N := divn_small (ltn_ord x).
have dr (x : nat) : ((bs + x) %/ bs)%N = (x %/ bs).+1 by rewrite divnDl ?dvdnn // divnn b0.
case: (split_ordP i) => [i0 ->|i1 ->]; case: (split_ordP j) => [j0 ->|j1 ->] /=.
- by rewrite block_mxEul !dl !modn_small // mx_get_ord.
- by rewrite block_mxEur mxE dl dr.
- by rewrite block_mxEdl mxE dl dr.
- by rewrite block_mxEdr mxE !dr eqSS !modnDl.
Qed.

Lemma BD_ext nb (G H : nat -> 'M[F]_bs) :
  (forall i, (i < nb)%N -> G i = H i) -> BD nb G = BD nb H.
Proof.
move=> E; apply/matrixP => i j; rewrite !mxE.
have b0 := bs_pos i.
by rewrite E // ltn_divLR // ltn_ord.
Qed.

Lemma BD_mul nb (G H : nat -> 'M[F]_bs) :
  BD nb G *m BD nb H = BD nb (fun i => G i *m H i).
Proof.
elim: nb G H => [|nb IH] G H; first by apply/matrixP; case.
rewrite !BD_S (mulmx_block (G 0%N) 0 0 (BD nb _) (H 0%N) 0 0 (BD nb _)).
by rewrite !mulmx0 !mul0mx !addr0 add0r IH.
Qed.

Lemma BD_1 nb : BD nb (fun _ => 1%:M) = 1%:M.
Proof.
elim: nb => [|nb IH]; first by apply/matrixP; case.
by rewrite BD_S IH -scalar_mx_block.
Qed.

Lemma BD_det nb (G : nat -> 'M[F]_bs) : \det (BD nb G) = \prod_(i < nb) \det (G i).
Proof.
elim: nb G => [|nb IH] G; first by rewrite big_ord0 det_mx00.
by rewrite BD_S det_ublock IH big_ord_recl.
Qed.

Lemma BD_inverse nb (G : nat -> 'M[F]_bs) :
  (forall i, (i < nb)%N -> G i \in unitmx) ->
  BD nb G \in unitmx /\ invmx (BD nb G) = BD nb (fun i => invmx (G i)).
Proof.
move=> uG.
have E : BD nb G *m BD nb (fun i => invmx (G i)) = 1%:M.
  rewrite BD_mul -(BD_1 nb); apply: BD_ext => i lt; exact: mulmxV (uG i lt).
have [uB _] := mulmx1_unit E; split=> //.
by rewrite -[LHS]mulmx1 -E mulmxA (mulVmx uB) mul1mx.
Qed.

Lemma BD_spd nb (G : nat -> 'M[F]_bs) :
  (forall i, (i < nb)%N -> spd (G i)) -> spd (BD nb G).
Proof.
elim: nb G => [|nb IH] G sG.
  split; first by apply/matrixP; case.
  by move=> x; rewrite [x]thinmx0 eqxx.
rewrite BD_S; apply: spd_block_diag; first exact: sG.
by apply: IH => i lt; exact: sG.
Qed.

End BlockDiag.

Section Assembly.
Variable F : realFieldType.
Variable tr : Transc F.
Variable sq : forall n, 'M[F]_n -> 'M[F]_n.
Variable eg : forall n, 'M[F]_n -> 'M[F]_(n,1).
Let O := MxMat tr sq eg.
Variable bs : nat.
Hypothesis bs0 : (0 < bs)%N.

Lemma mx_get_mul m n p (A : 'M[F]_(m,n)) (B : 'M[F]_(n,p)) (i j : nat) :
  (i < m)%N -> (j < p)%N -> mx_get (A *m B) i j = \sum_(l < n) mx_get A i l * mx_get B l j.
Proof.
move=> im jp.
have -> : i = Ordinal im by []. have -> : j = Ordinal jp by [].
by rewrite mx_get_ord mxE; apply: eq_bigr => l _; rewrite !mx_get_ord.
Qed.

Lemma mx_get0 m n i j : mx_get (0 : 'M[F]_(m,n)) i j = 0.
Proof. exact: mx_get_0. Qed.

(* positions c * bs + l, l < bs, of block c *)
Lemma dv c (l : nat) : (l < bs)%N -> ((c * bs + l) %/ bs)%N = c.
Proof. by move=> lb; rewrite divnMDl // divn_small ?addn0. Qed.
Lemma md c (l : nat) : (l < bs)%N -> ((c * bs + l) %% bs)%N = l.
Proof. by move=> lb; rewrite modnMDl modn_small. Qed.
Lemma in_blk nb t l : (t < nb)%N -> (l < bs)%N -> (t * bs + l < nb * bs)%N.
Proof.
move=> tn lb; apply: (@leq_trans (t.+1 * bs)%N); first by rewrite mulSnr ltn_add2l.
by rewrite leq_mul2r tn orbT.
Qed.

Lemma blk_div c x : ((c * bs <= x) && (x < c * bs + bs))%N = (x %/ bs == c)%N.
Proof. by rewrite -mulSnr -leq_divRL // -ltn_divLR // ltnS -eqn_leq eq_sym. Qed.

Lemma blk_mod x : (x - x %/ bs * bs)%N = (x %% bs)%N.
Proof. by rewrite {1}(divn_eq x bs) addKn. Qed.

Lemma sum_blocks nb (Fn : nat -> F) :
  \sum_(i < nb * bs) Fn i = \sum_(b < nb) \sum_(l < bs) Fn (b * bs + l)%N.
Proof.
rewrite -(big_mkord xpredT Fn) big_nat_mul big_mkord; apply: eq_bigr => b _.
rewrite mulSnr -{1}[(b * bs)%N]add0n big_addn addKn big_mkord.
by apply: eq_bigr => l _; rewrite addnC.
Qed.

Lemma get_set_block m n r c (A : 'M[F]_(m,n)) r0 c0 (B : 'M[F]_(r,c)) (i j : nat) :
  (i < m)%N -> (j < n)%N ->
  mx_get (mset_block (O:=O) A r0 c0 B) i j =
  if ((r0 <= i) && (i < r0 + r) && (c0 <= j) && (j < c0 + c))%N
  then mx_get B (i - r0) (j - c0) else mx_get A i j.
Proof. by move=> im jn; rewrite /mset_block /= mx_get_build // !nat_lebE !nat_ltbE. Qed.

(* the loops of the model: block t is written at columns [t*bs, t*bs+bs) (rows from
   ro t), so entry (i,j) can only come from block j %/ bs *)
Lemma fold_set_blocks m n r cnt (ro co : nat -> nat) (G : nat -> 'M[F]_(r, bs))
      (A0 : 'M[F]_(m,n)) (i j : nat) :
  (forall t, co t = (t * bs)%N) -> (i < m)%N -> (j < n)%N ->
  mx_get (List.fold_left (fun acc t => mset_block (O:=O) acc (ro t) (co t) (G t))
                         (List.seq 0 cnt) A0) i j
  = if ((j < cnt * bs) && (ro (j %/ bs) <= i < ro (j %/ bs) + r))%N
    then mx_get (G (j %/ bs)%N) (i - ro (j %/ bs))%N (j %% bs)%N else mx_get A0 i j.
Proof.
move=> Hco im jn; elim: cnt => [|cnt IH]; first by rewrite mul0n ltn0.
rewrite List.seq_S List.fold_left_app /= get_set_block // IH Hco -andbA blk_div.
rewrite -!ltn_divLR // ltnS.
case: (ltngtP (j %/ bs)%N cnt) => [lt|gt|E]; rewrite ?andbF //.
by rewrite -E andbT blk_mod.
Qed.

End Assembly.

Section UVRModel.
Variable F : realFieldType.
Variable tr : Transc F.
Variable sq : forall n, 'M[F]_n -> 'M[F]_n.
Variable eg : forall n, 'M[F]_n -> 'M[F]_(n,1).
Let O := MxMat tr sq eg.
Variables (bs nb k b rc : nat).
Hypothesis bs0 : (0 < bs)%N.
Notation d := (nb * bs)%N.

Variables (input : M O d b) (mean : M O d 1) (U : M O d k) (V : M O k d) (R : M O bs rc).

(* block t of R as the code reads it: R itself in the shared encoding *)
Definition blk (t : nat) : 'M[F]_bs :=
  if (rc == bs)%N then uvr_R_single (O:=O) R else uvr_R_block (O:=O) R t.

(* X *m BD nb G entry by entry, Y t being the t-th block of bs columns of X *)
Lemma mul_BD r (X : 'M[F]_(r, d)) (G : nat -> 'M[F]_bs) (Y : nat -> 'M[F]_(r, bs)) :
  (forall t i l, (t < nb)%N -> (i < r)%N -> (l < bs)%N ->
     mx_get (Y t) i l = mx_get X i (t * bs + l)%N) ->
  forall (i : 'I_r) (j : 'I_d),
    (X *m BD nb G) i j = mx_get (Y (j %/ bs)%N *m G (j %/ bs)%N) i (j %% bs)%N.
Proof.
move=> HY i j.
have jb : (j %/ bs < nb)%N by rewrite ltn_divLR.
rewrite mxE.
pose Fn (q : nat) := mx_get X i q *
  (if (q %/ bs == j %/ bs)%N then mx_get (G (q %/ bs)%N) (q %% bs)%N (j %% bs)%N else 0).
rewrite (eq_bigr (fun q : 'I_d => Fn q)); last by move=> q _; rewrite /Fn mx_get_ord mxE.
rewrite (sum_blocks bs nb Fn) (bigD1 (Ordinal jb)) //= [X in _ + X]big1 ?addr0; last first.
  move=> c; rewrite -val_eqE /= => ne; apply: big1 => l _.
  by rewrite /Fn dv // (negbTE ne) mulr0.
rewrite mx_get_mul // ?ltn_pmod //; apply: eq_bigr => l _.
by rewrite /Fn dv // md // eqxx HY.
Qed.

(* inv_R holds the inverses of the blocks side by side *)
Lemma inv_R_slice t : (t < nb)%N ->
  mslice (O:=O) 0 (bs * t) bs bs (uvr_inv_R (O:=O) d nb R) = invmx (blk t).
Proof.
move=> tn.
have -> : uvr_inv_R (O:=O) d nb R
        = List.fold_left (fun acc s => mset_block (O:=O) acc 0 (bs * s) (invmx (blk s)))
                         (List.seq 0 nb) 0.
  by rewrite /uvr_inv_R /blk nat_eqbE; case: ifP.
apply/matrixP => i j; rewrite mxE /= !plusE [(bs * t)%N]mulnC.
rewrite (fold_set_blocks tr sq eg bs0) ?in_blk //; last first.
  by move=> s; rewrite mulnC.
by rewrite leq0n ltn_ord dv // md // subn0 mx_get_ord.
Qed.

Let Ri := BD nb (fun t => invmx (blk t)).

(* a loop that writes Y t *m Z t at block t of a zero matrix computes X *m BD nb G,
   when Y t is the t-th block of columns of X and Z t = G t *)
Lemma fold_mul_BD r (X : 'M[F]_(r, d)) (Y : nat -> 'M[F]_(r, bs)) (Z G : nat -> 'M[F]_bs) :
  (forall t i l, (t < nb)%N -> (i < r)%N -> (l < bs)%N ->
     mx_get (Y t) i l = mx_get X i (t * bs + l)%N) ->
  (forall t, (t < nb)%N -> Z t = G t) ->
  List.fold_left (fun acc t => mset_block (O:=O) acc 0 (t * bs) (Y t *m Z t))
                 (List.seq 0 nb) (0 : 'M[F]_(r, d)) = X *m BD nb G.
Proof.
move=> HY HZ; apply/matrixP => i j; rewrite -mx_get_ord.
rewrite (fold_set_blocks tr sq eg bs0) //.
by rewrite !ltn_ord leq0n subn0 HZ ?ltn_divLR // (mul_BD G HY).
Qed.

Lemma V_inv_R_eq : uvr_V_inv_R (O:=O) V (uvr_inv_R (O:=O) d nb R) = V *m Ri.
Proof.
rewrite /uvr_V_inv_R div_mulK //; apply: fold_mul_BD => [t i l tn ik lb|t].
  by rewrite /mslice /= mx_get_build.
exact: inv_R_slice.
Qed.

Lemma dT_inv_R_eq (diff : M O d b) :
  uvr_diffT_inv_R (O:=O) nb diff (uvr_inv_R (O:=O) d nb R) = diff^T *m Ri.
Proof.
apply: fold_mul_BD => [t i l tn ik lb|t].
  by rewrite !mx_get_tr /mslice /= mx_get_build.
exact: inv_R_slice.
Qed.

(* the spec-level assembly is the block-diagonal matrix of the blocks *)
Lemma blockdiag_BD : blockdiag (O:=O) d R = BD nb blk.
Proof.
apply/matrixP => i j; rewrite -mx_get_ord /blockdiag div_mulK //.
rewrite (fold_set_blocks tr sq eg bs0 _ (muln bs)) //; last by move=> t; rewrite mulnC.
rewrite ltn_ord mxE mulnC blk_div // /blk nat_eqbE; case: eqP => [E|_]; last exact: mx_get0.
by rewrite -E blk_mod.
Qed.

Lemma spow_exp (x : F) n : spow (Sc:=FOps tr) x n = x ^+ n.
Proof. by elim: n => [|n IH] //=; rewrite IH exprS. Qed.

Lemma fold_prod (f : nat -> F) n :
  List.fold_left (fun acc i => acc * f i) (List.seq 0 n) 1 = \prod_(i < n) f i.
Proof.
elim: n => [|n IH]; first by rewrite big_ord0.
by rewrite List.seq_S List.fold_left_app /= IH big_ord_recr.
Qed.

Lemma det_R_eq : uvr_det_R (O:=O) nb R = \prod_(t < nb) \det (blk t).
Proof.
rewrite /uvr_det_R /blk nat_eqbE; case: ifP => _.
- by rewrite spow_exp prodr_const card_ord.
- exact: fold_prod.
Qed.

(* blockdiag(R) is invertible as soon as its blocks are: the only premise on R *)
Hypothesis uB : forall t, (t < nb)%N -> blk t \in unitmx.

Lemma Rd_unit : (blockdiag (O:=O) d R : 'M[F]_d) \in unitmx.
Proof. by rewrite blockdiag_BD; case: (BD_inverse uB). Qed.

Lemma Rd_inv : invmx (blockdiag (O:=O) d R : 'M[F]_d) = Ri.
Proof. by rewrite blockdiag_BD; case: (BD_inverse uB). Qed.

Lemma Rd_det : \det (blockdiag (O:=O) d R : 'M[F]_d) = uvr_det_R (O:=O) nb R.
Proof. by rewrite blockdiag_BD BD_det det_R_eq. Qed.

Lemma capacitance_eq :
  uvr_I_V_inv_R_U (O:=O) (uvr_V_inv_R (O:=O) V (uvr_inv_R (O:=O) d nb R)) U
  = 1%:M + V *m invmx (blockdiag (O:=O) d R : 'M[F]_d) *m U.
Proof. by rewrite /uvr_I_V_inv_R_U /= V_inv_R_eq Rd_inv. Qed.

Lemma uvr_det_S_eq : uvr_det_S (O:=O) U V R = \det (assembled_S (O:=O) U V R : 'M[F]_d).
Proof.
rewrite /uvr_det_S div_mulK // capacitance_eq /assembled_S /= -Rd_det.
by rewrite (det_lemma U V Rd_unit).
Qed.

Hypothesis uS : (assembled_S (O:=O) U V R : 'M[F]_d) \in unitmx.

Lemma uvr_capacitance_unit :
  (uvr_I_V_inv_R_U (O:=O) (uvr_V_inv_R (O:=O) V (uvr_inv_R (O:=O) d nb R)) U : 'M[F]_k) \in unitmx.
Proof. rewrite capacitance_eq; exact: (capacitance_unit Rd_unit uS). Qed.

Lemma col_colwise_sub i (lt : (i < b)%N) :
  col (Ordinal lt) (mcolwise_sub (O:=O) input mean) = col (Ordinal lt) (input : 'M[F]_(d,b)) - mean.
Proof.
apply/matrixP => r c; rewrite !mxE /=.
by rewrite (mx_get_ord input r (Ordinal lt)) (mx_get_ord mean r ord0) [c]ord1.
Qed.

(* the factorised form returns the direct log-densities of S = U V + blockdiag(R):
   det_S by the determinant lemma, each weighted difference by Woodbury *)
Lemma log_density_uvr_eq_mat :
  log_density_uvr (O:=O) input mean U V R =
  log_density_mat (O:=O) input mean (assembled_S (O:=O) U V R).
Proof.
rewrite /log_density_uvr /log_density_mat div_mulK //.
apply: map_seq_ext => i /ssrnat.ltP ib.
rewrite -[RHS]/(gauss_log_value _ _ (quadform _ _)); congr (gauss_log_value _ _ _).
  by rewrite -[RHS]uvr_det_S_eq /uvr_det_S div_mulK.
rewrite /uvr_weighted_diff /quadform capacitance_eq V_inv_R_eq dT_inv_R_eq -Rd_inv.
rewrite (mrow_ord tr sq eg _ ib) !(mcol_ord tr sq eg _ ib) row_mul -tr_col col_colwise_sub.
congr (mx_get _ 0 0); exact: esym (woodbury_quadform Rd_unit uS _).
Qed.

Lemma uvr_eq_direct i : (i < b)%N ->
  List.nth i (log_density_uvr (O:=O) input mean U V R) 0 =
  log_density (O:=O) (mcol (O:=O) i input) mean (assembled_S (O:=O) U V R).
Proof. by move=> ib; rewrite log_density_uvr_eq_mat /log_density_mat nth_map_seqN. Qed.

End UVRModel.

Section Encodings.
Variable F : realFieldType.
Variable tr : Transc F.
Variable sq : forall n, 'M[F]_n -> 'M[F]_n.
Variable eg : forall n, 'M[F]_n -> 'M[F]_(n,1).
Let O := MxMat tr sq eg.
Variables (bs nb k : nat).
Hypothesis bs0 : (0 < bs)%N.
Notation d := (nb * bs)%N.

Lemma single_id (R : 'M[F]_bs) : uvr_R_single (O:=O) R = R.
Proof. by apply/matrixP => i j; rewrite mxE /= mx_get_ord. Qed.

(* one block shared by all diagonal positions *)
Lemma blk_shared (R : M O bs bs) t : blk (tr:=tr) (sq:=sq) (eg:=eg) R t = R.
Proof. by rewrite /blk eqxx single_id. Qed.

(* all diagonal blocks side by side; when nb * bs = bs the code takes the shared
   branch, and then there is one block and both readings agree *)
Lemma blk_per_block (R : M O bs d) t : (t < nb)%N ->
  blk (tr:=tr) (sq:=sq) (eg:=eg) R t = uvr_R_block (O:=O) R t.
Proof.
move=> tn; rewrite /blk; case: ifP => // /eqP E.
have nb1 : nb = 1%N by apply/eqP; rewrite -(eqn_pmul2r bs0) mul1n E.
have t0 : t = 0%N by apply/eqP; rewrite -leqn0 -ltnS -nb1.
by rewrite t0 /uvr_R_block /uvr_R_single multE muln0.
Qed.

(* V = U^T with SPD blocks: U U^T is positive semidefinite, blockdiag(R) is SPD *)
Lemma assembled_sym_factor_spd (U : M O d k) rc (R : M O bs rc) :
  (forall t, (t < nb)%N -> spd (blk (tr:=tr) (sq:=sq) (eg:=eg) R t)) ->
  spd (assembled_S (O:=O) U (mtr (m:=d) (n:=k) U) R : 'M[F]_d).
Proof.
move=> sB; rewrite /assembled_S /= (blockdiag_BD (tr:=tr) (sq:=sq) (eg:=eg) nb bs0 R).
by apply: psd_spd_add; [exact: gram_psd | exact: BD_spd].
Qed.

(* identity blocks with U = V = 0 assemble to the identity, in every shape *)
Lemma assembled_01 :
  assembled_S (O:=O) (0 : 'M[F]_(d,k)) (0 : 'M[F]_(k,d)) (1%:M : 'M[F]_bs) = 1%:M :> 'M[F]_d.
Proof.
rewrite /assembled_S /= mulmx0 add0r (blockdiag_BD (tr:=tr) (sq:=sq) (eg:=eg) nb bs0 (1%:M : 'M[F]_bs)).
by rewrite (BD_ext (H:=fun _ => 1%:M)) ?BD_1 // => t _; exact: blk_shared.
Qed.

End Encodings.

Section Batch.
Variable F : realFieldType.
Variable tr : Transc F.
Variable sq : forall n, 'M[F]_n -> 'M[F]_n.
Variable eg : forall n, 'M[F]_n -> 'M[F]_(n,1).
Let O := MxMat tr sq eg.
Variables (d b k bs rc : nat).
Variables (input : M O d b) (mean : M O d 1) (cov : M O d d).
Variables (U : M O d k) (V : M O k d) (R : M O bs rc).

Lemma log_density_uvr_length : length (log_density_uvr (O:=O) input mean U V R) = b.
Proof. by rewrite /log_density_uvr List.map_length List.seq_length. Qed.

Lemma log_density_mat_length : length (log_density_mat (O:=O) input mean cov) = b.
Proof. by rewrite /log_density_mat List.map_length List.seq_length. Qed.

Lemma density_uvr_length : length (density_uvr (O:=O) input mean U V R) = b.
Proof. by rewrite /density_uvr List.map_length log_density_uvr_length. Qed.

Lemma density_mat_length : length (density_mat (O:=O) input mean cov) = b.
Proof. by rewrite /density_mat List.map_length log_density_mat_length. Qed.

Lemma density_uvr_exp i :
  List.nth i (density_uvr (O:=O) input mean U V R) (t_exp tr 0) =
  t_exp tr (List.nth i (log_density_uvr (O:=O) input mean U V R) 0).
Proof. by rewrite /density_uvr (List.map_nth (sexp (sc O))). Qed.

Lemma density_mat_exp i :
  List.nth i (density_mat (O:=O) input mean cov) (t_exp tr 0) =
  t_exp tr (List.nth i (log_density_mat (O:=O) input mean cov) 0).
Proof. by rewrite /density_mat (List.map_nth (sexp (sc O))). Qed.

(* the direct form is the textbook expression, per column of the batch, for every size d *)
Lemma log_density_mat_def i (lt : (i < b)%N) :
  let delta := col (Ordinal lt) (input : 'M[F]_(d,b)) - (mean : 'cV[F]_d) in
  List.nth i (log_density_mat (O:=O) input mean cov) 0 =
  - 2%:R^-1 * (d%:R * t_ln tr (2%:R * t_pi tr) + t_ln tr (\det (cov : 'M[F]_d))
               + (delta^T *m invmx (cov : 'M[F]_d) *m delta) 0 0).
Proof.
rewrite /log_density_mat nth_map_seqN // /log_density /quadform.
rewrite (mcol_ord tr sq eg _ lt) sofnat_natr /shalf /s2 /=.
by rewrite div1r -[1 + 1]/(2%:R) (mx_get_ord _ ord0 ord0).
Qed.

End Batch.
