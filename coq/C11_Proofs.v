(* C11_Proofs.v — lemmas about the container model of C11_Model.v, for every
   scalar record S and every value junk of an uninitialised cell: the pool of
   objects (an invariant of the objects holds of every slot; what copy, move and
   assignment from a temporary do); shape and cells of the Eigen primitives;
   loops of writes computed as one `mk`; the invariant Consistent and its
   preservation by every operation; the content of a noise augmentation (the
   covariance blocks are relocated right to left).  Plain lists and lia; no axioms. *)
Require Import ZArith List Bool Arith Lia.
Require Import BFL.Ops BFL.ListFacts BFL.C11_Model.
Import ListNotations.

Lemma fold_left_inv {X Y} (P : X -> Prop) (f : X -> Y -> X) (l : list Y) (x : X) :
  P x -> (forall y a, P y -> P (f y a)) -> P (fold_left f l x).
Proof. revert x. induction l; simpl; intros; auto. Qed.

Lemma fold_seq_inv {X} (f : X -> nat -> X) (P : nat -> X -> Prop) (n : nat) (x : X) :
  P 0 x -> (forall k y, k < n -> P k y -> P (S k) (f y k)) -> P n (fold_left f (seq 0 n) x).
Proof.
  induction n; intros H0 Hs; [simpl; auto|].
  rewrite seq_S, fold_left_app. simpl. apply Hs; auto.
Qed.

(* a loop that runs downwards: step j handles index g j = a + n - 1 - j, the invariant goes from a + n to a *)
Lemma fold_seq_down_inv {X} (f : X -> nat -> X) (g : nat -> nat) (P : nat -> X -> Prop) (a n : nat) (x : X) :
  (forall j, j < n -> g j + j + 1 = a + n) ->
  P (a + n) x -> (forall k y, a <= k < a + n -> P (S k) y -> P k (f y k)) ->
  P a (fold_left (fun y j => f y (g j)) (seq 0 n) x).
Proof.
  intros Hg H0 Hs. replace a with (a + n - n) at 1 by lia.
  apply (fold_seq_inv (fun y j => f y (g j)) (fun k y => P (a + n - k) y)).
  - rewrite Nat.sub_0_r. exact H0.
  - intros k y Hk Hy. specialize (Hg k Hk).
    replace (a + n - k) with (S (g k)) in Hy by lia. replace (a + n - S k) with (g k) by lia. apply Hs; [lia|exact Hy].
Qed.

Lemma fold_left_id {X Y} (l : list Y) (x : X) : fold_left (fun x _ => x) l x = x.
Proof. induction l; simpl; auto. Qed.

Lemma run_ops_inv {X O} (P : X -> Prop) (ok : O -> bool) (def : O -> X -> bool) (app : O -> X -> X) :
  (forall o y, P y -> ok o = true -> def o y = true -> P (app o y)) ->
  forall ops x y, P x -> forallb ok ops = true -> run_ops def app ops x = Some y -> P y.
Proof.
  intros Hs. induction ops as [|o r IH]; simpl; intros x y Hx Hok Hr.
  - injection Hr as <-. exact Hx.
  - apply andb_true_iff in Hok. destruct Hok as [Ho Hr'].
    destruct (def o x) eqn:D; [|discriminate]. eapply IH; [|exact Hr'|exact Hr]. apply Hs; auto.
Qed.

Lemma run_ops_inv_all {X O} (P : X -> Prop) (def : O -> X -> bool) (app : O -> X -> X) :
  (forall o y, P y -> def o y = true -> P (app o y)) ->
  forall ops x y, P x -> run_ops def app ops x = Some y -> P y.
Proof.
  intros Hs ops x y Hx. apply (run_ops_inv P (fun _ => true)); auto. apply forallb_forall. reflexivity.
Qed.

(* block i of width v ends where block i + 1 starts, at the latest where block n would *)
Lemma block_le v i n : i < n -> v * i + v <= v * n.
Proof. intros H. rewrite <- Nat.mul_succ_r. apply Nat.mul_le_mono_l. exact H. Qed.

Lemma blocks_apart v i i' : i' <> i -> v * i' + v <= v * i \/ v * i + v <= v * i'.
Proof. intros NE. destruct (Nat.lt_trichotomy i' i) as [L|[L|L]]; [left|contradiction|right]; apply block_le, L. Qed.

Lemma divmod_inj d i j i' j' : j < d -> j' < d -> i * d + j = i' * d + j' -> i = i' /\ j = j'.
Proof.
  intros Hj Hj' E.
  assert (i = i') by (destruct (Nat.lt_trichotomy i i') as [L|[L|L]]; auto; pose proof (block_le d _ _ L); lia).
  subst. lia.
Qed.

Lemma linear_index R r c k : r < R -> (c * R + r = k <-> (r = k mod R /\ c = k / R)).
Proof.
  intros Hr. assert (R <> 0) by lia.
  pose proof (Nat.div_mod k R H) as E. pose proof (Nat.mod_upper_bound k R H) as U.
  split.
  - intros Ek. assert (c = k / R /\ r = k mod R) as [-> ->]; [|auto].
    apply (divmod_inj R); auto. lia.
  - intros [-> ->]. lia.
Qed.

Section PoolProofs.
Variables X O F : Type.
Variable def : O -> X -> bool.
Variable app : O -> X -> X.
Variable copy : X -> X.
Variable fresh : F -> X.
Variable bin_def : X -> X -> bool.
Variable bin : X -> X -> X.
Local Notation eval := (eval def app copy fresh bin_def bin).
Local Notation kstep := (kstep def app copy fresh bin_def bin).
Local Notation krun := (krun def app copy fresh bin_def bin).
Local Notation pool := (pool X).

Lemma slot_put_length (p : pool) i v : length (slot_put p i v) = length p.
Proof. revert i. induction p as [|h r IH]; intros [|i]; simpl; auto. Qed.

Lemma nth_error_slot_put_same (p : pool) i v : i < length p -> nth_error (slot_put p i v) i = Some v.
Proof.
  revert i. induction p as [|h r IH]; intros [|i]; simpl; intros H; try lia; auto. apply IH. lia.
Qed.

Lemma nth_error_slot_put_other (p : pool) i j v : j <> i -> nth_error (slot_put p i v) j = nth_error p j.
Proof.
  revert i j. induction p as [|h r IH]; intros [|i] [|j]; simpl; intros H; auto; try congruence.
Qed.

Lemma nth_error_slot_put (p : pool) i j v y : nth_error (slot_put p i v) j = Some y -> y = v \/ nth_error p j = Some y.
Proof.
  revert i j. induction p as [|h r IH]; intros [|i] [|j]; simpl; intros H; auto; [left; congruence|eapply IH, H].
Qed.

Lemma slot_kill_length (p : pool) i : length (slot_kill p i) = length p.
Proof. unfold slot_kill. destruct (nth_error p i) as [[x b]|]; auto. apply slot_put_length. Qed.

Lemma nth_error_slot_kill_other (p : pool) i j : j <> i -> nth_error (slot_kill p i) j = nth_error p j.
Proof.
  intros H. unfold slot_kill. destruct (nth_error p i) as [[x b]|]; auto. apply nth_error_slot_put_other; auto.
Qed.

(* a moved-from object is not available any more; the model keeps its (unspecified) value *)
Lemma slot_get_kill_same (p : pool) i : slot_get (slot_kill p i) i = None.
Proof.
  unfold slot_get, slot_kill. destruct (nth_error p i) as [[x b]|] eqn:E.
  - rewrite nth_error_slot_put_same; auto. apply nth_error_Some. congruence.
  - rewrite E. reflexivity.
Qed.

Lemma slot_get_put_same (p : pool) i x : i < length p -> slot_get (slot_put p i (x, true)) i = Some x.
Proof. intros H. unfold slot_get. rewrite nth_error_slot_put_same by exact H. reflexivity. Qed.

Lemma slot_get_some (p : pool) i x : slot_get p i = Some x -> nth_error p i = Some (x, true) /\ i < length p.
Proof.
  unfold slot_get. destruct (nth_error p i) as [[y [|]]|] eqn:E; try discriminate.
  intros H. injection H as ->. split; auto. apply nth_error_Some. congruence.
Qed.

(* an invariant of the objects holds for every slot along every defined sequence *)
Definition pool_all (P : X -> Prop) (p : pool) : Prop := forall i x b, nth_error p i = Some (x, b) -> P x.

Section Inv.
Variable P : X -> Prop.
Variable ok : O -> bool.
Hypothesis Happ : forall o x, P x -> ok o = true -> def o x = true -> P (app o x).
Hypothesis Hcopy : forall x, P x -> P (copy x).
Hypothesis Hfresh : forall f, P (fresh f).
Hypothesis Hbin : forall a b, P a -> P b -> bin_def a b = true -> P (bin a b).

Lemma pool_all_put (p : pool) i x b : pool_all P p -> P x -> pool_all P (slot_put p i (x, b)).
Proof.
  intros Hp Hx j y c Hj. apply nth_error_slot_put in Hj. destruct Hj as [E|Hj].
  - injection E as -> _. exact Hx.
  - eapply Hp, Hj.
Qed.

Lemma pool_all_kill (p : pool) i : pool_all P p -> pool_all P (slot_kill p i).
Proof.
  intros Hp. unfold slot_kill. destruct (nth_error p i) as [[x b]|] eqn:E; [|exact Hp].
  apply pool_all_put; [exact Hp|]. eapply Hp, E.
Qed.

Lemma pool_all_get (p : pool) i x : pool_all P p -> slot_get p i = Some x -> P x.
Proof. intros Hp H. apply slot_get_some in H. destruct H as [H _]. eapply Hp; eauto. Qed.

Lemma eval_inv (p : pool) e x : pool_all P p -> exp_all ok e = true -> eval p e = Some x -> P x.
Proof.
  intros Hp. revert x. induction e as [s|f|o e IH|a IHa b IHb]; simpl; intros x Hok He.
  - destruct (slot_get p s) as [y|] eqn:E; [|discriminate]. injection He as <-. apply Hcopy. eapply pool_all_get; eauto.
  - injection He as <-. apply Hfresh.
  - apply andb_true_iff in Hok. destruct Hok as [Ho Hok].
    destruct (eval p e) as [y|]; [|discriminate]. destruct (def o y) eqn:D; [|discriminate].
    injection He as <-. apply Happ; auto.
  - apply andb_true_iff in Hok. destruct Hok as [Ha Hb].
    destruct (eval p a) as [y|]; [|discriminate]. destruct (eval p b) as [z|]; [|discriminate].
    destruct (bin_def y z) eqn:D; [|discriminate]. injection He as <-. apply Hbin; auto.
Qed.

Lemma kstep_inv k (p p' : pool) : pool_all P p -> kop_all ok k = true -> kstep k p = Some p' ->
  pool_all P p' /\ length p' = length p.
Proof.
  intros Hp Hok Hk. destruct k as [i o|i|t s|t s|t e]; simpl in *.
  - destruct (slot_get p i) as [x|] eqn:E; [|discriminate]. destruct (def o x) eqn:D; [|discriminate].
    injection Hk as <-. split; [|apply slot_put_length]. apply pool_all_put; auto. apply Happ; auto.
    eapply pool_all_get; eauto.
  - destruct (slot_get p i); [|discriminate]. injection Hk as <-. auto.
  - destruct (slot_get p s) as [x|] eqn:E; [|discriminate]. destruct (t <? length p); [|discriminate].
    injection Hk as <-. split; [|apply slot_put_length]. apply pool_all_put; auto. apply Hcopy. eapply pool_all_get; eauto.
  - destruct (slot_get p s) as [x|] eqn:E; [|discriminate]. destruct (t <? length p); [|discriminate].
    injection Hk as <-. split.
    + apply pool_all_put; [destruct (t =? s); auto; apply pool_all_kill; auto|]. apply Hcopy. eapply pool_all_get; eauto.
    + rewrite slot_put_length. destruct (t =? s); auto. apply slot_kill_length.
  - destruct (eval p e) as [x|] eqn:E; [|discriminate]. destruct (t <? length p); [|discriminate].
    injection Hk as <-. split; [|apply slot_put_length]. apply pool_all_put; auto. eapply eval_inv; eauto.
Qed.

Lemma krun_inv ks (p p' : pool) : pool_all P p -> forallb (kop_all ok) ks = true -> krun ks p = Some p' ->
  pool_all P p' /\ length p' = length p.
Proof.
  revert p. induction ks as [|k r IH]; simpl; intros p Hp Hok Hr.
  - injection Hr as <-. auto.
  - apply andb_true_iff in Hok. destruct Hok as [Hk Hr'].
    destruct (kstep k p) as [q|] eqn:E; [|discriminate].
    destruct (kstep_inv k p q Hp Hk E) as [Hq Lq]. destruct (IH q Hq Hr' Hr) as [H1 H2]. split; auto. congruence.
Qed.
End Inv.

Lemma exp_all_true (e : exp O F) : exp_all (fun _ => true) e = true.
Proof. induction e; simpl; auto. rewrite IHe1, IHe2. reflexivity. Qed.

Lemma krun_inv_all (P : X -> Prop) :
  (forall o x, P x -> def o x = true -> P (app o x)) -> (forall x, P x -> P (copy x)) -> (forall f, P (fresh f)) ->
  (forall a b, P a -> P b -> bin_def a b = true -> P (bin a b)) ->
  forall ks (p p' : pool), pool_all P p -> krun ks p = Some p' -> pool_all P p' /\ length p' = length p.
Proof.
  intros Happ Hcopy Hfresh Hbin ks p p' Hp. apply (krun_inv P (fun _ => true)); auto.
  apply forallb_forall. intros k _. destruct k; simpl; auto. apply exp_all_true.
Qed.

(* what the special member functions do: the target IS the source, nothing else changes *)
Hypothesis copy_id : forall x, copy x = x.

Lemma kstep_copy_exact t s (p p' : pool) x : slot_get p s = Some x -> kstep (KCopy t s) p = Some p' ->
  slot_get p' t = Some x /\ (forall i, i <> t -> nth_error p' i = nth_error p i).
Proof.
  intros Hs Hk. simpl in Hk. rewrite Hs in Hk. destruct (Nat.ltb_spec t (length p)); [|discriminate].
  injection Hk as <-. rewrite copy_id. split; [apply slot_get_put_same; auto|].
  intros i Hi. apply nth_error_slot_put_other; auto.
Qed.

Lemma kstep_move_exact t s (p p' : pool) x : slot_get p s = Some x -> kstep (KMove t s) p = Some p' ->
  slot_get p' t = Some x /\ (t <> s -> slot_get p' s = None)
  /\ (forall i, i <> t -> i <> s -> nth_error p' i = nth_error p i).
Proof.
  intros Hs Hk. simpl in Hk. rewrite Hs in Hk. destruct (Nat.ltb_spec t (length p)) as [L|L]; [|discriminate].
  injection Hk as <-. rewrite copy_id. destruct (Nat.eqb_spec t s) as [->|NE].
  - split; [apply slot_get_put_same; auto|]. split; [congruence|]. intros i Hi _. apply nth_error_slot_put_other; auto.
  - split; [apply slot_get_put_same; rewrite slot_kill_length; auto|]. split.
    + intros _. unfold slot_get. rewrite nth_error_slot_put_other by auto. apply slot_get_kill_same.
    + intros i Hi Hi'. rewrite nth_error_slot_put_other by auto. apply nth_error_slot_kill_other; auto.
Qed.

Lemma kstep_temp_exact t e (p p' : pool) : kstep (KTemp t e) p = Some p' ->
  (exists x, eval p e = Some x /\ slot_get p' t = Some x) /\ (forall i, i <> t -> nth_error p' i = nth_error p i).
Proof.
  intros Hk. simpl in Hk. destruct (eval p e) as [x|]; [|discriminate].
  destruct (Nat.ltb_spec t (length p)); [|discriminate]. injection Hk as <-.
  split; [exists x; split; auto; apply slot_get_put_same; auto|]. intros i Hi. apply nth_error_slot_put_other; auto.
Qed.

Lemma kstep_on_exact i o (p p' : pool) : kstep (KOn i o) p = Some p' ->
  (exists x, slot_get p i = Some x /\ def o x = true /\ slot_get p' i = Some (app o x))
  /\ (forall j, j <> i -> nth_error p' j = nth_error p j).
Proof.
  intros Hk. simpl in Hk. destruct (slot_get p i) as [x|] eqn:E; [|discriminate]. destruct (def o x) eqn:D; [|discriminate].
  injection Hk as <-. apply slot_get_some in E. destruct E as [_ L].
  split; [exists x; repeat split; auto; apply slot_get_put_same; auto|]. intros j Hj. apply nth_error_slot_put_other; auto.
Qed.

(* the value of an rvalue expression: a named object is its value; f(e) applies the operation *)
Lemma eval_slot (p : pool) s : eval p (ESlot s) = slot_get p s.
Proof. simpl. destruct (slot_get p s); auto. rewrite copy_id. reflexivity. Qed.

Lemma eval_op (p : pool) o e x : eval p e = Some x -> def o x = true -> eval p (EOp o e) = Some (app o x).
Proof. intros H D. simpl. rewrite H, D. reflexivity. Qed.

Lemma eval_bin (p : pool) a b x y : eval p a = Some x -> eval p b = Some y -> bin_def x y = true ->
  eval p (EBin a b) = Some (bin x y).
Proof. intros Ha Hb D. simpl. rewrite Ha, Hb, D. reflexivity. Qed.

(* r = f(s) and r = a + b for named objects s, a, b (which may be r itself) *)
Lemma kstep_temp_op_slot t s o (p p' : pool) x : slot_get p s = Some x ->
  kstep (KTemp t (EOp o (ESlot s))) p = Some p' ->
  def o x = true /\ slot_get p' t = Some (app o x) /\ (forall i, i <> t -> nth_error p' i = nth_error p i).
Proof.
  intros Hs Hk. destruct (kstep_temp_exact _ _ _ _ Hk) as [[y [E G]] H]. simpl in E. rewrite Hs, copy_id in E.
  destruct (def o x); [|discriminate]. injection E as <-. auto.
Qed.

Lemma kstep_temp_bin_slots t a b (p p' : pool) x y : slot_get p a = Some x -> slot_get p b = Some y ->
  kstep (KTemp t (EBin (ESlot a) (ESlot b))) p = Some p' ->
  bin_def x y = true /\ slot_get p' t = Some (bin x y) /\ (forall i, i <> t -> nth_error p' i = nth_error p i).
Proof.
  intros Ha Hb Hk. destruct (kstep_temp_exact _ _ _ _ Hk) as [[z [E G]] H]. simpl in E. rewrite Ha, Hb, !copy_id in E.
  destruct (bin_def x y); [|discriminate]. injection E as <-. auto.
Qed.

(* a one-slot pool on which only single-object operations run is the single-object history *)
Lemma krun_single ops x :
  krun (map (KOn 0) ops) [(x, true)] =
  match run_ops def app ops x with Some y => Some [(y, true)] | None => None end.
Proof.
  revert x. induction ops as [|o r IH]; intros x; simpl; auto.
  destruct (def o x); [apply IH|reflexivity].
Qed.
End PoolProofs.

Section C11.
Variable S : SOps.
Variable junk : T S.
Local Notation A := (T S).
Local Notation zero := (s0 S).
Local Notation mx := (mx S).
Local Notation gm := (gm S).
Local Notation pset := (pset S).
Local Notation mk := (mk S).
Local Notation get := (get S).

Definition wf (m : mx) : Prop :=
  length (mdata S m) = mcols S m /\ Forall (fun col => length col = mrows S m) (mdata S m).
Definition shape (m : mx) (r c : nat) : Prop := mrows S m = r /\ mcols S m = c /\ wf m.

Lemma get_mk r c f i j : i < r -> j < c -> get (mk r c f) i j = f i j.
Proof.
  intros Hi Hj. unfold C11_Model.get, C11_Model.mk. simpl.
  rewrite nth_map_seq by exact Hj. rewrite nth_map_seq by exact Hi. reflexivity.
Qed.

Lemma wf_mk r c f : wf (mk r c f).
Proof.
  unfold wf, C11_Model.mk; simpl. split.
  - rewrite map_length, seq_length. reflexivity.
  - apply Forall_forall. intros col Hin. apply in_map_iff in Hin. destruct Hin as [j [<- _]].
    rewrite map_length, seq_length. reflexivity.
Qed.

Lemma shape_mk r c f : shape (mk r c f) r c.
Proof. split; [reflexivity|split; [reflexivity|apply wf_mk]]. Qed.

Lemma mk_ext r c f g : (forall i j, i < r -> j < c -> f i j = g i j) -> mk r c f = mk r c g.
Proof.
  intros H. unfold C11_Model.mk. f_equal. apply map_seq_ext. intros j Hj.
  apply map_seq_ext. intros i Hi. now apply H.
Qed.

Lemma mk_get_id m : wf m -> mk (mrows S m) (mcols S m) (get m) = m.
Proof.
  destruct m as [r c data]. unfold wf, C11_Model.mk, C11_Model.get. simpl. intros [Hl Hf]. f_equal.
  apply nth_ext with (d := []) (d' := []).
  - rewrite map_length, seq_length. auto.
  - intros n Hn. rewrite map_length, seq_length in Hn. rewrite nth_map_seq by exact Hn.
    assert (Hc : length (nth n data []) = r).
    { rewrite Forall_forall in Hf. apply Hf. apply nth_In. lia. }
    apply nth_ext with (d := zero) (d' := zero).
    + rewrite map_length, seq_length. auto.
    + intros k Hk. rewrite map_length, seq_length in Hk. rewrite nth_map_seq by exact Hk. reflexivity.
Qed.

Lemma mx_ext m m' r c : shape m r c -> shape m' r c ->
  (forall i j, i < r -> j < c -> get m i j = get m' i j) -> m = m'.
Proof.
  intros (R1 & C1 & W1) (R2 & C2 & W2) H.
  rewrite <- (mk_get_id m W1), <- (mk_get_id m' W2). rewrite R1, R2, C1, C2. apply mk_ext. exact H.
Qed.

Lemma wfb_iff m : wfb S m = true <-> wf m.
Proof.
  unfold wfb, wf. rewrite andb_true_iff, Nat.eqb_eq, forallb_forall, Forall_forall.
  split; intros [H1 H2]; split; auto; intros x Hx; specialize (H2 x Hx); apply Nat.eqb_eq; auto.
Qed.

Lemma shapeb_iff m r c : shapeb S m r c = true <-> shape m r c.
Proof.
  unfold shapeb, shape. rewrite !andb_true_iff, !Nat.eqb_eq, wfb_iff. tauto.
Qed.

Lemma shape_e_zero r c : shape (e_zero S r c) r c.
Proof. apply shape_mk. Qed.

Lemma shape_e_resize m r c : shape (e_resize S m r c) r c.
Proof. unfold e_resize. destruct (_ =? _); apply shape_mk. Qed.

Lemma shape_e_cresize_cols m r c0 c : shape m r c0 -> shape (e_cresize_cols S junk m c) r c.
Proof.
  intros (R & C & W). unfold e_cresize_cols. destruct (Nat.eqb_spec c (mcols S m)).
  - subst c. exact (conj R (conj eq_refl W)).
  - rewrite <- R. apply shape_mk.
Qed.

Lemma shape_e_cresize_vec v n0 n : shape v n0 1 -> shape (e_cresize_vec S junk v n) n 1.
Proof.
  intros (R & C & W). unfold e_cresize_vec. destruct (Nat.eqb_spec n (mrows S v)).
  - subst n. exact (conj eq_refl (conj C W)).
  - apply shape_mk.
Qed.

Lemma shape_e_cresize_rows m r0 c r : shape m r0 c -> shape (e_cresize_rows S m r) r c.
Proof.
  intros (R & C & W). unfold e_cresize_rows. destruct (Nat.eqb_spec r (mrows S m)).
  - subst r. exact (conj eq_refl (conj C W)).
  - rewrite <- C. apply shape_mk.
Qed.

Lemma shape_e_cresize_like m o r c : wf m -> shape o r c -> shape (e_cresize_like S m o) r c.
Proof.
  intros W (R & C & _). unfold e_cresize_like.
  destruct (Nat.eqb_spec (mrows S o) (mrows S m)); destruct (Nat.eqb_spec (mcols S o) (mcols S m)); simpl;
    try (rewrite <- R, <- C; apply shape_mk).
  repeat split; try congruence; apply W.
Qed.

Lemma shape_e_set_block m r c r0 c0 src : shape m r c -> shape (e_set_block S m r0 c0 src) r c.
Proof. intros (R & C & _). unfold e_set_block. rewrite R, C. apply shape_mk. Qed.

Lemma shape_e_set m r c i j x : shape m r c -> shape (e_set S m i j x) r c.
Proof. intros (R & C & _). unfold e_set. rewrite R, C. apply shape_mk. Qed.

Lemma shape_e_swap_cols m r c k a b : shape m r c -> shape (e_swap_cols S m k a b) r c.
Proof. intros (R & C & _). unfold e_swap_cols. rewrite R, C. apply shape_mk. Qed.

Lemma shape_e_fill m r c b : shape m r c -> shape (e_fill S m b) r c.
Proof. intros (R & C & _). unfold e_fill. rewrite R, C. apply shape_mk. Qed.

Lemma shape_e_col m r c j : shape m r c -> shape (e_col S m j) r 1.
Proof. intros (R & C & _). unfold e_col. rewrite R. apply shape_mk. Qed.

Lemma shape_e_middle_cols m r c c0 w : shape m r c -> shape (e_middle_cols S m c0 w) r w.
Proof. intros (R & C & _). unfold e_middle_cols. rewrite R. apply shape_mk. Qed.

(* cells of the Eigen primitives, for in-range indices (out of range `get` falls back on the list defaults) *)
Lemma get_e_zero r c i j : i < r -> j < c -> get (e_zero S r c) i j = zero.
Proof. intros. unfold e_zero. rewrite get_mk; auto. Qed.

Lemma get_e_cresize_cols m c i j : i < mrows S m -> j < c ->
  get (e_cresize_cols S junk m c) i j = if j <? mcols S m then get m i j else junk.
Proof.
  intros Hi Hj. unfold e_cresize_cols. destruct (Nat.eqb_spec c (mcols S m)).
  - subst. destruct (Nat.ltb_spec j (mcols S m)); [reflexivity|lia].
  - rewrite get_mk; auto.
Qed.

Lemma get_e_cresize_vec v n i : i < n ->
  get (e_cresize_vec S junk v n) i 0 = if i <? mrows S v then get v i 0 else junk.
Proof.
  intros Hi. unfold e_cresize_vec. destruct (Nat.eqb_spec n (mrows S v)).
  - subst. destruct (Nat.ltb_spec i (mrows S v)); [reflexivity|lia].
  - rewrite get_mk; auto.
Qed.

Lemma get_e_cresize_rows m r i j : i < r -> j < mcols S m ->
  get (e_cresize_rows S m r) i j = if i <? mrows S m then get m i j else zero.
Proof.
  intros Hi Hj. unfold e_cresize_rows. destruct (Nat.eqb_spec r (mrows S m)).
  - subst. destruct (Nat.ltb_spec i (mrows S m)); [reflexivity|lia].
  - rewrite get_mk; auto.
Qed.

Lemma get_e_cresize_like m o i j : i < mrows S o -> j < mcols S o ->
  get (e_cresize_like S m o) i j = if (i <? mrows S m) && (j <? mcols S m) then get m i j else get o i j.
Proof.
  intros Hi Hj. unfold e_cresize_like.
  destruct (Nat.eqb_spec (mrows S o) (mrows S m)); destruct (Nat.eqb_spec (mcols S o) (mcols S m)); simpl;
    try (rewrite get_mk; auto; fail).
  destruct (Nat.ltb_spec i (mrows S m)); destruct (Nat.ltb_spec j (mcols S m)); simpl; try reflexivity; lia.
Qed.

Lemma get_e_set_block m r0 c0 src i j : i < mrows S m -> j < mcols S m ->
  get (e_set_block S m r0 c0 src) i j =
  if (r0 <=? i) && (i <? r0 + mrows S src) && (c0 <=? j) && (j <? c0 + mcols S src)
  then get src (i - r0) (j - c0) else get m i j.
Proof. intros. unfold e_set_block. rewrite get_mk; auto. Qed.

Lemma get_e_set m i0 j0 x i j : i < mrows S m -> j < mcols S m ->
  get (e_set S m i0 j0 x) i j = if (i =? i0) && (j =? j0) then x else get m i j.
Proof. intros. unfold e_set. rewrite get_mk; auto. Qed.

Lemma get_e_swap_cols m k a b i j : i < mrows S m -> j < mcols S m ->
  get (e_swap_cols S m k a b) i j =
  if i <? k then (if j =? a then get m i b else if j =? b then get m i a else get m i j) else get m i j.
Proof. intros. unfold e_swap_cols. rewrite get_mk; auto. Qed.

(* dimensions of the Eigen primitives, whatever the argument *)
Lemma mrows_e_cresize_cols m c : mrows S (e_cresize_cols S junk m c) = mrows S m.
Proof. unfold e_cresize_cols. destruct (c =? mcols S m); reflexivity. Qed.
Lemma mcols_e_cresize_cols m c : mcols S (e_cresize_cols S junk m c) = c.
Proof. unfold e_cresize_cols. destruct (Nat.eqb_spec c (mcols S m)); auto. Qed.
Lemma mrows_e_cresize_vec v n : mrows S (e_cresize_vec S junk v n) = n.
Proof. unfold e_cresize_vec. destruct (Nat.eqb_spec n (mrows S v)); auto. Qed.
Lemma mcols_e_cresize_vec v n : mcols S v = 1 -> mcols S (e_cresize_vec S junk v n) = 1.
Proof. intros H. unfold e_cresize_vec. destruct (n =? mrows S v); auto. Qed.
Lemma mrows_e_cresize_rows m r : mrows S (e_cresize_rows S m r) = r.
Proof. unfold e_cresize_rows. destruct (Nat.eqb_spec r (mrows S m)); auto. Qed.
Lemma mcols_e_cresize_rows m r : mcols S (e_cresize_rows S m r) = mcols S m.
Proof. unfold e_cresize_rows. destruct (r =? mrows S m); reflexivity. Qed.

Lemma mrows_e_set_block m r0 c0 src : mrows S (e_set_block S m r0 c0 src) = mrows S m.
Proof. reflexivity. Qed.
Lemma mcols_e_set_block m r0 c0 src : mcols S (e_set_block S m r0 c0 src) = mcols S m.
Proof. reflexivity. Qed.
Hint Rewrite mrows_e_set_block mcols_e_set_block mrows_e_cresize_cols mcols_e_cresize_cols mrows_e_cresize_vec
  mrows_e_cresize_rows mcols_e_cresize_rows : mxdim.

Lemma in_block r0 h c0 w i j :
  (r0 <=? i) && (i <? r0 + h) && (c0 <=? j) && (j <? c0 + w) = true <-> (r0 <= i < r0 + h /\ c0 <= j < c0 + w).
Proof. rewrite !andb_true_iff, !Nat.leb_le, !Nat.ltb_lt. tauto. Qed.

Lemma get_e_set_block_in m r0 c0 src i j : i < mrows S m -> j < mcols S m ->
  r0 <= i < r0 + mrows S src -> c0 <= j < c0 + mcols S src ->
  get (e_set_block S m r0 c0 src) i j = get src (i - r0) (j - c0).
Proof.
  intros Hi Hj Hr Hc. rewrite get_e_set_block by assumption.
  rewrite (proj2 (in_block _ _ _ _ _ _) (conj Hr Hc)). reflexivity.
Qed.

Lemma get_e_set_block_out m r0 c0 src i j : i < mrows S m -> j < mcols S m ->
  ~ (r0 <= i < r0 + mrows S src /\ c0 <= j < c0 + mcols S src) ->
  get (e_set_block S m r0 c0 src) i j = get m i j.
Proof.
  intros Hi Hj Ho. rewrite get_e_set_block by assumption.
  destruct (_ && _) eqn:E; [|reflexivity]. apply in_block in E. contradiction.
Qed.

Lemma get_e_set_eq m i0 j0 x i j : i < mrows S m -> j < mcols S m -> i = i0 /\ j = j0 ->
  get (e_set S m i0 j0 x) i j = x.
Proof. intros Hi Hj [-> ->]. rewrite get_e_set by assumption. rewrite !Nat.eqb_refl. reflexivity. Qed.

Lemma get_e_set_neq m i0 j0 x i j : i < mrows S m -> j < mcols S m -> ~ (i = i0 /\ j = j0) ->
  get (e_set S m i0 j0 x) i j = get m i j.
Proof.
  intros Hi Hj N. rewrite get_e_set by assumption.
  destruct (Nat.eqb_spec i i0); destruct (Nat.eqb_spec j j0); simpl; try reflexivity. exfalso; auto.
Qed.

Lemma get_e_cresize_cols_old m c i j : i < mrows S m -> j < mcols S m -> j < c ->
  get (e_cresize_cols S junk m c) i j = get m i j.
Proof.
  intros Hi Hj Hc. rewrite get_e_cresize_cols by assumption. rewrite (proj2 (Nat.ltb_lt _ _) Hj). reflexivity.
Qed.

Lemma get_e_middle_cols m c0 w i k : i < mrows S m -> k < w -> get (e_middle_cols S m c0 w) i k = get m i (c0 + k).
Proof. intros. unfold e_middle_cols. rewrite get_mk; auto. Qed.

Lemma e_col_as_middle m j : e_col S m j = e_middle_cols S m j 1.
Proof. unfold e_col, e_middle_cols. apply mk_ext. intros i k _ Hk. f_equal. lia. Qed.

Lemma get_e_col m j i : i < mrows S m -> get (e_col S m j) i 0 = get m i j.
Proof. intros. rewrite e_col_as_middle, get_e_middle_cols by lia. f_equal. lia. Qed.

Lemma e_middle_cols_ext m m' c c' w : mrows S m = mrows S m' ->
  (forall i k, i < mrows S m -> k < w -> get m i (c + k) = get m' i (c' + k)) ->
  e_middle_cols S m c w = e_middle_cols S m' c' w.
Proof. intros E H. unfold e_middle_cols. rewrite <- E. apply mk_ext. exact H. Qed.

(* conservativeResize(NoChange, c) keeps the old columns *)
Lemma e_middle_cols_cresize_cols m c c0 w : c0 + w <= mcols S m -> c0 + w <= c ->
  e_middle_cols S (e_cresize_cols S junk m c) c0 w = e_middle_cols S m c0 w.
Proof.
  intros Hw Hc. apply e_middle_cols_ext; [apply mrows_e_cresize_cols|]. intros i k Hi Hk.
  rewrite mrows_e_cresize_cols in Hi. apply get_e_cresize_cols_old; lia.
Qed.

Lemma e_col_cresize_cols m c j : j < mcols S m -> j < c -> e_col S (e_cresize_cols S junk m c) j = e_col S m j.
Proof. intros Hj Hc. rewrite !e_col_as_middle. apply e_middle_cols_cresize_cols; lia. Qed.

(* m(i, j) = x leaves the column ranges without column j alone *)
Lemma e_middle_cols_set_other m i j x c w : c + w <= mcols S m -> j < c \/ c + w <= j ->
  e_middle_cols S (e_set S m i j x) c w = e_middle_cols S m c w.
Proof.
  intros Hc Hj. apply e_middle_cols_ext; [reflexivity|]. intros r k Hr Hk. change (r < mrows S m) in Hr.
  apply get_e_set_neq; lia.
Qed.

(* m.middleCols(c0, w) = b: that range reads b, the ranges beside it are left alone *)
Lemma e_middle_cols_set_block m c0 w b : shape b (mrows S m) w -> c0 + w <= mcols S m ->
  e_middle_cols S (e_set_block S m 0 c0 b) c0 w = b
  /\ forall c, c + w <= mcols S m -> c + w <= c0 \/ c0 + w <= c ->
       e_middle_cols S (e_set_block S m 0 c0 b) c w = e_middle_cols S m c w.
Proof.
  intros Hb Hc. pose proof Hb as (Rb & Cb & _). split.
  - apply (mx_ext _ _ (mrows S m) w); [apply shape_mk|exact Hb|]. intros i k Hi Hk.
    rewrite get_e_middle_cols by assumption. rewrite get_e_set_block_in by lia. f_equal; lia.
  - intros c Hc' Hd. apply e_middle_cols_ext; [reflexivity|]. intros i k Hi Hk. change (i < mrows S m) in Hi.
    apply get_e_set_block_out; lia.
Qed.

(* x.conservativeResize(NoChange, c); x.rightCols(mcols src) = src  puts the columns of src after those of m *)
Lemma e_middle_cols_append_left m src c c0 k w : c0 = mcols S m -> c0 <= c -> k + w <= c0 ->
  e_middle_cols S (e_set_block S (e_cresize_cols S junk m c) 0 c0 src) k w = e_middle_cols S m k w.
Proof.
  intros -> Hc Hk. apply e_middle_cols_ext; [autorewrite with mxdim; reflexivity|]. intros i j Hi Hj.
  autorewrite with mxdim in Hi. rewrite get_e_set_block_out by (autorewrite with mxdim; lia).
  apply get_e_cresize_cols_old; lia.
Qed.

Lemma e_middle_cols_append_right m src c c0 k k' w : mrows S src = mrows S m -> c = c0 + mcols S src ->
  k = c0 + k' -> k' + w <= mcols S src ->
  e_middle_cols S (e_set_block S (e_cresize_cols S junk m c) 0 c0 src) k w = e_middle_cols S src k' w.
Proof.
  intros Hr -> -> Hk. apply e_middle_cols_ext; [autorewrite with mxdim; symmetry; exact Hr|]. intros i j Hi Hj.
  autorewrite with mxdim in Hi. rewrite get_e_set_block_in by (autorewrite with mxdim; lia). f_equal; lia.
Qed.

(* w.conservativeResize(n); w.tail(mrows src) = src *)
Lemma get_append_vec_left v src n r0 i : r0 = mrows S v -> r0 <= n -> mcols S v = 1 -> i < r0 ->
  get (e_set_block S (e_cresize_vec S junk v n) r0 0 src) i 0 = get v i 0.
Proof.
  intros -> Hn Hc Hi. pose proof (mcols_e_cresize_vec v n Hc).
  rewrite get_e_set_block_out by (autorewrite with mxdim; lia).
  rewrite get_e_cresize_vec by lia. rewrite (proj2 (Nat.ltb_lt _ _) Hi). reflexivity.
Qed.

Lemma get_append_vec_right v src n r0 i : n = r0 + mrows S src -> mcols S v = 1 -> mcols S src = 1 -> r0 <= i < n ->
  get (e_set_block S (e_cresize_vec S junk v n) r0 0 src) i 0 = get src (i - r0) 0.
Proof.
  intros -> Hc Hs Hi. pose proof (mcols_e_cresize_vec v (r0 + mrows S src) Hc).
  rewrite get_e_set_block_in by (autorewrite with mxdim; lia). reflexivity.
Qed.

(* the premise of  m.block(r0, c0, h, w) = src *)
Lemma blk_ok_iff m r0 c0 h w src :
  blk_ok S m r0 c0 h w src = true <-> mrows S src = h /\ mcols S src = w /\ r0 + h <= mrows S m /\ c0 + w <= mcols S m.
Proof. unfold blk_ok. rewrite !andb_true_iff, !Nat.eqb_eq, !Nat.leb_le. tauto. Qed.

(* column-major loop of element writes: after k writes the cells of linear index below k hold their value *)
Lemma fold_e_set_linear m R C (val : nat -> A) : shape m R C ->
  fold_left (fun m t => e_set S m (t mod R) (t / R) (val t)) (seq 0 (R * C)) m = mk R C (fun r c => val (c * R + r)).
Proof.
  intros Sh.
  destruct (fold_seq_inv (fun m t => e_set S m (t mod R) (t / R) (val t))
              (fun k m' => shape m' R C /\ forall r c, r < R -> c < C -> c * R + r < k -> get m' r c = val (c * R + r))
              (R * C) m) as [Sh' Hg].
  - split; [exact Sh|]. intros; lia.
  - intros k y Hk [Shy Hy]. split; [apply shape_e_set; exact Shy|]. destruct Shy as (Ry & Cy & _).
    intros r c Hr Hc Hlt. destruct (Nat.eq_dec (c * R + r) k) as [E|NE].
    + rewrite get_e_set_eq by (try lia; apply (linear_index R r c k Hr); exact E). rewrite E. reflexivity.
    + rewrite get_e_set_neq by (try lia; rewrite <- (linear_index R r c k Hr); exact NE). apply Hy; lia.
  - apply (mx_ext _ _ R C); [exact Sh'|apply shape_mk|].
    intros r c Hr Hc. rewrite get_mk by assumption. apply Hg; try assumption. pose proof (block_le R c C Hc). lia.
Qed.

(* a vector is one column *)
Lemma fold_e_set_vector w n (val : nat -> A) : shape w n 1 ->
  fold_left (fun w i => e_set S w i 0 (val i)) (seq 0 n) w = mk n 1 (fun r _ => val r).
Proof.
  intros Sh. pose proof (fold_e_set_linear w n 1 val Sh) as E. rewrite Nat.mul_1_r in E.
  rewrite (fold_left_ext_in _ (fun m t => e_set S m (t mod n) (t / n) (val t))).
  - rewrite E. apply mk_ext. intros r c _ Hc. f_equal. lia.
  - intros y t Ht. apply in_seq in Ht. rewrite Nat.mod_small, Nat.div_small by lia. reflexivity.
Qed.

(* block after block, each w columns wide: after k blocks the first w * k columns hold their values *)
Lemma fold_e_set_blocks m R w n (val : nat -> A) : shape m R (w * n) ->
  fold_left (fun m i => e_set_block S m 0 (w * i) (mk R w (fun r k => val ((i * w + k) * R + r)))) (seq 0 n) m
  = mk R (w * n) (fun r c => val (c * R + r)).
Proof.
  intros Sh.
  destruct (fold_seq_inv (fun m i => e_set_block S m 0 (w * i) (mk R w (fun r k => val ((i * w + k) * R + r))))
              (fun k m' => shape m' R (w * n) /\ forall r c, r < R -> c < w * k -> get m' r c = val (c * R + r))
              n m) as [Sh' Hg].
  - split; [exact Sh|]. intros; lia.
  - intros k y Hk [Shy Hy]. split; [apply shape_e_set_block; exact Shy|]. destruct Shy as (Ry & Cy & _).
    intros r c Hr Hc. pose proof (block_le w k n Hk). destruct (le_lt_dec (w * k) c) as [L|L].
    + rewrite get_e_set_block_in by (cbn; lia). rewrite get_mk by lia.
      replace (k * w + (c - w * k)) with c by lia. f_equal. lia.
    + rewrite get_e_set_block_out by (cbn; lia). apply Hy; assumption.
  - apply (mx_ext _ _ R (w * n)); [exact Sh'|apply shape_mk|].
    intros r c Hr Hc. rewrite get_mk by assumption. apply Hg; assumption.
Qed.

Lemma fold_e_set_block_cols m R C (val : nat -> A) : shape m R C ->
  fold_left (fun m i => e_set_block S m 0 i (mk R 1 (fun r _ => val (i * R + r)))) (seq 0 C) m
  = mk R C (fun r c => val (c * R + r)).
Proof.
  intros Sh. rewrite <- (Nat.mul_1_l C) in Sh. rewrite <- (Nat.mul_1_l C) at 2. rewrite <- (fold_e_set_blocks m R 1 C val Sh).
  apply fold_left_ext_in. intros y i _. rewrite Nat.mul_1_l. f_equal. apply mk_ext. intros r k _ Hk. f_equal. lia.
Qed.

Lemma e_fill_as_mk m r c b : shape m r c -> e_fill S m b = mk r c (fun i j => sofZ S (b + Z.of_nat (j * r + i))%Z).
Proof. intros (R & C & _). unfold e_fill. rewrite R, C. reflexivity. Qed.

Definition Consistent (g : gm) : Prop :=
  dim S g = dl S g + dc S g * dcc S g + dn S g
  /\ dcc S g = (if use_quat S g then 4 else 1)
  /\ dcov S g = dl S g + dc S g * (if use_quat S g then 3 else 1) + dn S g
  /\ shape (mean_ S g) (dim S g) (components S g)
  /\ shape (cov_ S g) (dcov S g) (dcov S g * components S g)
  /\ shape (weight_ S g) (components S g) 1.

Definition Consistent_ps (p : pset) : Prop :=
  Consistent (base S p) /\ shape (state_ S p) (dim S (base S p)) (components S (base S p)).

Lemma gm_consistentb_iff g : gm_consistentb S g = true <-> Consistent g.
Proof.
  unfold gm_consistentb, Consistent. rewrite !andb_true_iff, !Nat.eqb_eq, !shapeb_iff. tauto.
Qed.

Lemma ps_consistentb_iff p : ps_consistentb S p = true <-> Consistent_ps p.
Proof.
  unfold ps_consistentb, Consistent_ps. rewrite andb_true_iff, gm_consistentb_iff, shapeb_iff. tauto.
Qed.

Lemma gm_ctor_weight c l ci q : weight_ S (gm_ctor S c l ci q) = mk c 1 (fun _ _ => sdiv S (s1 S) (sofnat S c)).
Proof. apply (fold_e_set_vector _ c (fun _ => sdiv S (s1 S) (sofnat S c))), shape_e_zero. Qed.

Lemma gm_ctor_consistent c l ci q : Consistent (gm_ctor S c l ci q).
Proof.
  unfold Consistent. rewrite gm_ctor_weight. simpl.
  split; [destruct q; lia|]. split; [reflexivity|]. split; [destruct q; lia|].
  split; [apply shape_e_zero|]. split; [apply shape_e_zero|apply shape_mk].
Qed.

Lemma gm_ctor_fields c l ci q :
  let g := gm_ctor S c l ci q in
  components S g = c /\ dl S g = l /\ dc S g = ci /\ dn S g = 0 /\ use_quat S g = q.
Proof. cbv zeta. unfold gm_ctor; simpl. auto. Qed.

Lemma gm_ctor_zero c l ci q :
  let g := gm_ctor S c l ci q in
  (forall r i, r < dim S g -> i < c -> get (mean_ S g) r i = zero)
  /\ (forall r k, r < dcov S g -> k < dcov S g * c -> get (cov_ S g) r k = zero).
Proof. cbv zeta. unfold gm_ctor; simpl. split; intros; apply get_e_zero; auto. Qed.

Lemma gm_copy_id g : gm_copy S g = g.
Proof. destruct g; reflexivity. Qed.

Lemma gm_with_consistent g m c w : Consistent g ->
  shape m (dim S g) (components S g) -> shape c (dcov S g) (dcov S g * components S g) -> shape w (components S g) 1 ->
  Consistent (gm_with S g m c w).
Proof. intros (H1 & H2 & H3 & _) Hm Hc Hw. unfold Consistent, gm_with; simpl. auto 10. Qed.

Lemma gm_fill_consistent b g : Consistent g -> Consistent (gm_fill S b g).
Proof. intros H. apply (gm_with_consistent g _ _ _ H); apply shape_e_fill; apply H. Qed.

(* a write through a non-const accessor, whatever the index *)
Lemma gm_set_mean_el_consistent g i j x : Consistent g -> Consistent (gm_set_mean_el S g i j x).
Proof. intros H. apply gm_with_consistent; try apply shape_e_set; apply H. Qed.
Lemma gm_set_cov_el_consistent g i j k x : Consistent g -> Consistent (gm_set_cov_el S g i j k x).
Proof. intros H. apply gm_with_consistent; try apply shape_e_set; apply H. Qed.
Lemma gm_set_weight_consistent g i x : Consistent g -> Consistent (gm_set_weight S g i x).
Proof. intros H. apply gm_with_consistent; try apply shape_e_set; apply H. Qed.
Lemma gm_set_mean_consistent g i v : Consistent g -> Consistent (gm_set_mean S g i v).
Proof. intros H. apply gm_with_consistent; try apply shape_e_set_block; apply H. Qed.
Lemma gm_set_cov_consistent g i m : Consistent g -> Consistent (gm_set_cov S g i m).
Proof. intros H. apply gm_with_consistent; try apply shape_e_set_block; apply H. Qed.

(* Filling through the element or block accessors of every component gives the object that gm_fill gives;
   the loops are first moved from the record to its three matrices. *)
Lemma gm_with_eta g : gm_with S g (mean_ S g) (cov_ S g) (weight_ S g) = g.
Proof. destruct g; reflexivity. Qed.

(* a loop of writes through the accessors is a loop on each of the three matrices *)
Lemma fold_on_fields {Y} (f : gm -> Y -> gm) (hm hw : mx -> Y -> mx) (hc : nat -> mx -> Y -> mx) (l : list Y) g :
  (forall g y, f g y = gm_with S g (hm (mean_ S g) y) (hc (dcov S g) (cov_ S g) y) (hw (weight_ S g) y)) ->
  fold_left f l g
  = gm_with S g (fold_left hm l (mean_ S g)) (fold_left (hc (dcov S g)) l (cov_ S g)) (fold_left hw l (weight_ S g)).
Proof.
  intros H. revert g. induction l as [|y r IH]; intros g; simpl; [symmetry; apply gm_with_eta|].
  rewrite IH, H. reflexivity.
Qed.

Lemma fold_on_state {Y} (f : pset -> Y -> pset) (h : mx -> Y -> mx) (l : list Y) p :
  (forall p y, f p y = mkPs S (base S p) (h (state_ S p) y)) ->
  fold_left f l p = mkPs S (base S p) (fold_left h l (state_ S p)).
Proof.
  intros H. revert p. induction l as [|y r IH]; intros p; simpl; [destruct p; reflexivity|].
  rewrite IH, H. reflexivity.
Qed.

(* what gm_fill writes: every cell of the three matrices gets b + its linear index in the concatenated storage *)
Lemma gm_fill_as_mk b g : Consistent g ->
  let d := dim S g in let v := dcov S g in let n := components S g in
  gm_fill S b g
  = gm_with S g (mk d n (fun r c => sofZ S (b + Z.of_nat (c * d + r))))
                (mk v (v * n) (fun r c => sofZ S (b + Z.of_nat (d * n) + Z.of_nat (c * v + r))))
                (mk n 1 (fun r _ => sofZ S (b + Z.of_nat (d * n) + Z.of_nat (v * (v * n)) + Z.of_nat r))).
Proof.
  intros (_ & _ & _ & H4 & H5 & H6). pose proof H4 as (R4 & C4 & _). pose proof H5 as (R5 & C5 & _). cbv zeta.
  unfold gm_fill. rewrite (e_fill_as_mk _ _ _ _ H4), (e_fill_as_mk _ _ _ _ H5), (e_fill_as_mk _ _ _ _ H6), R4, C4, R5, C5.
  (* the weight vector has the one column 0, where 0 * n + r computes to r *)
  reflexivity.
Qed.

Theorem gm_fill_el_is_fill b g : Consistent g -> gm_fill_el S b g = gm_fill S b g.
Proof.
  intros HC. rewrite (gm_fill_as_mk b g HC). pose proof HC as (_ & _ & _ & H4 & H5 & H6). cbv zeta. unfold gm_fill_el.
  set (d := dim S g). set (v := dcov S g). set (n := components S g).
  rewrite (fold_on_fields _ (fun m _ => m)
             (fun w i => e_set S w i 0 (sofZ S (b + Z.of_nat (d * n) + Z.of_nat (v * (v * n)) + Z.of_nat i))) (fun _ c _ => c))
    by (intros; reflexivity).
  rewrite (fold_on_fields _ (fun m _ => m) (fun w _ => w)
             (fun dv m t => e_set S m (t mod v) (dv * (t / v / v) + t / v mod v) (sofZ S (b + Z.of_nat (d * n) + Z.of_nat t))))
    by (intros; reflexivity).
  rewrite (fold_on_fields _ (fun m t => e_set S m (t mod d) (t / d) (sofZ S (b + Z.of_nat t))) (fun w _ => w) (fun _ c _ => c))
    by (intros; reflexivity).
  rewrite !fold_left_id. cbn [mean_ cov_ weight_ dcov gm_with]. fold v.
  rewrite (fold_e_set_linear _ d n) by exact H4.
  (* the covariance loop runs over (component, column, row); the column of the storage is t / v *)
  rewrite (fold_left_ext_in _ (fun m t => e_set S m (t mod v) (t / v) (sofZ S (b + Z.of_nat (d * n) + Z.of_nat t)))).
  2:{ intros y t Ht. apply in_seq in Ht. f_equal.
      assert (v <> 0) by (intro E; rewrite E in Ht; simpl in Ht; lia).
      symmetry. apply Nat.div_mod. exact H. }
  rewrite (fold_e_set_linear _ v (v * n)) by exact H5.
  rewrite (fold_e_set_vector _ n) by exact H6. reflexivity.
Qed.

Theorem gm_fill_blk_is_fill b g : Consistent g -> gm_fill_blk S b g = gm_fill S b g.
Proof.
  intros HC. rewrite (gm_fill_as_mk b g HC). pose proof HC as (_ & _ & _ & H4 & H5 & H6). cbv zeta. unfold gm_fill_blk.
  set (d := dim S g). set (v := dcov S g). set (n := components S g).
  rewrite (fold_on_fields _
     (fun m i => e_set_block S m 0 i (mk d 1 (fun r _ => sofZ S (b + Z.of_nat (i * d + r)))))
     (fun w i => e_set S w i 0 (sofZ S (b + Z.of_nat (d * n) + Z.of_nat (v * (v * n)) + Z.of_nat i)))
     (fun dv m i => e_set_block S m 0 (dv * i) (mk v v (fun r k => sofZ S (b + Z.of_nat (d * n) + Z.of_nat ((i * v + k) * v + r))))))
    by (intros; reflexivity).
  fold v.
  rewrite (fold_e_set_block_cols _ d n (fun t => sofZ S (b + Z.of_nat t))) by exact H4.
  rewrite (fold_e_set_blocks _ v v n (fun t => sofZ S (b + Z.of_nat (d * n) + Z.of_nat t))) by exact H5.
  rewrite (fold_e_set_vector _ n) by exact H6. reflexivity.
Qed.

Lemma gm_fill_el_consistent b g : Consistent g -> Consistent (gm_fill_el S b g).
Proof. intros H. rewrite gm_fill_el_is_fill by exact H. apply gm_fill_consistent, H. Qed.

Lemma gm_fill_blk_consistent b g : Consistent g -> Consistent (gm_fill_blk S b g).
Proof. intros H. rewrite gm_fill_blk_is_fill by exact H. apply gm_fill_consistent, H. Qed.

(* the accessor loops write cells only: sizes are kept, consistent object or not *)
Lemma gm_fill_el_components b g : components S (gm_fill_el S b g) = components S g.
Proof. unfold gm_fill_el. repeat (apply fold_left_inv; [|intros y a E; exact E]). reflexivity. Qed.
Lemma gm_fill_blk_components b g : components S (gm_fill_blk S b g) = components S g.
Proof. unfold gm_fill_blk. apply fold_left_inv; [reflexivity|intros y a E; exact E]. Qed.
Lemma gm_fill_el_dim b g : dim S (gm_fill_el S b g) = dim S g.
Proof. unfold gm_fill_el. repeat (apply fold_left_inv; [|intros y a E; exact E]). reflexivity. Qed.
Lemma gm_fill_blk_dim b g : dim S (gm_fill_blk S b g) = dim S g.
Proof. unfold gm_fill_blk. apply fold_left_inv; [reflexivity|intros y a E; exact E]. Qed.

Lemma gm_resize_consistent c l ci g : Consistent g -> Consistent (gm_resize S junk c l ci g).
Proof.
  intros HC. pose proof HC as (H1 & H2 & H3 & H4 & H5 & H6). unfold gm_resize.
  destruct ((dl S g =? l) && (dc S g =? ci) && (components S g =? c)); [exact HC|].
  (* the new descriptors agree among themselves; only the storage depends on the branch *)
  assert (Ev : (if use_quat S g then l + ci * (dcc S g - 1) else l + ci * dcc S g)
               = l + ci * (if use_quat S g then 3 else 1) + 0) by (rewrite H2; destruct (use_quat S g); lia).
  destruct (_ && _ && negb _) eqn:E; (split; [simpl; lia|]; split; [exact H2|]; split; [exact Ev|]; simpl).
  - (* only the number of components changes: conservativeResize of the columns, the rows are those of the new descriptors *)
    apply andb_true_iff in E as [E _]; apply andb_true_iff in E as [E1 E2]; apply Nat.eqb_eq in E1, E2.
    split; [|split].
    + rewrite <- E1. eapply shape_e_cresize_cols, H4.
    + rewrite <- E2. eapply shape_e_cresize_cols, H5.
    + eapply shape_e_cresize_vec, H6.
  - (* anything else: three fresh matrices *)
    split; [|split]; apply shape_e_resize.
Qed.

Lemma shape_relocate_comp dold dcov' cv i r c : shape cv r c -> shape (relocate_comp S dold dcov' cv i) r c.
Proof. intros H. unfold relocate_comp. apply fold_left_inv; auto. intros. apply shape_e_swap_cols. auto. Qed.

Lemma shape_relocate comps dold dcov' cv r c : shape cv r c -> shape (relocate S comps dold dcov' cv) r c.
Proof. intros H. unfold relocate. apply fold_left_inv; auto. intros. apply shape_relocate_comp. auto. Qed.

Lemma shape_place_noise comps dold dadd dcov' q cv r c : shape cv r c -> shape (place_noise S comps dold dadd dcov' q cv) r c.
Proof. intros H. unfold place_noise. apply fold_left_inv; auto. intros. repeat apply shape_e_set_block. auto. Qed.

Lemma gm_augment_consistent q g : Consistent g -> Consistent (snd (gm_augment S q g)).
Proof.
  intros HC. pose proof HC as (H1 & H2 & H3 & H4 & H5 & H6). unfold gm_augment.
  destruct (negb (mrows S q =? mcols S q)); [exact HC|]. unfold Consistent; simpl.
  split; [lia|]. split; [exact H2|]. split; [lia|]. split; [|split; [|exact H6]].
  - apply shape_e_set_block. eapply shape_e_cresize_rows. eassumption.
  - apply shape_place_noise. apply shape_relocate. apply shape_e_cresize_like; [apply H5|apply shape_e_zero].
Qed.

Lemma gm_augment_ret q g : fst (gm_augment S q g) = (mrows S q =? mcols S q).
Proof. unfold gm_augment. destruct (mrows S q =? mcols S q); reflexivity. Qed.

Hint Resolve gm_fill_consistent gm_resize_consistent gm_augment_consistent gm_fill_el_consistent gm_fill_blk_consistent
  : c11inv.
Lemma gm_apply_consistent o g : Consistent g -> Consistent (gm_apply S junk o g).
Proof. intros H. destruct o; simpl; rewrite ?gm_copy_id; auto with c11inv. Qed.

Lemma gm_run_consistent ops g g' : Consistent g -> gm_run S junk ops g = Some g' -> Consistent g'.
Proof. apply (run_ops_inv_all Consistent). intros o y H _. apply gm_apply_consistent, H. Qed.

Definition Gaussian_ok (g : gm) : Prop := Consistent g /\ components S g = 1.

Lemma gm_resize_components c l ci g : components S (gm_resize S junk c l ci g) = c.
Proof.
  unfold gm_resize. destruct ((dl S g =? l) && (dc S g =? ci) && (components S g =? c)) eqn:E.
  - apply andb_true_iff in E as [_ E]. apply Nat.eqb_eq, E.
  - clear E. destruct (_ && _ && _); reflexivity.
Qed.

Lemma gm_resize_dim c l ci g : (dl S g =? l) && (dc S g =? ci) && (components S g =? c) = false ->
  dim S (gm_resize S junk c l ci g) = l + ci * dcc S g.
Proof. intros E. unfold gm_resize. rewrite E. clear E. destruct (_ && _ && _); reflexivity. Qed.

Lemma gm_augment_components q g : components S (snd (gm_augment S q g)) = components S g.
Proof. unfold gm_augment. destruct (negb _); reflexivity. Qed.

Lemma gauss_apply_consistent o g : Consistent g -> Consistent (gauss_apply S junk o g).
Proof. intros H. destruct o; simpl; unfold gauss_resize; rewrite ?gm_copy_id; auto with c11inv. Qed.

Lemma gauss_apply_ok o g : Gaussian_ok g -> gaussop_single S o = true -> Gaussian_ok (gauss_apply S junk o g).
Proof.
  intros [H H1] Hs. split; [apply gauss_apply_consistent; exact H|].
  destruct o; simpl in *; rewrite ?gm_augment_components, ?gm_fill_el_is_fill, ?gm_fill_blk_is_fill by exact H;
    try exact H1.
  - apply gm_resize_components.
  - apply Nat.eqb_eq in Hs. subst c. apply gm_resize_components.
Qed.

Lemma gauss_run_consistent ops g g' : Consistent g -> gauss_run S junk ops g = Some g' -> Consistent g'.
Proof. apply (run_ops_inv_all Consistent). intros o y H _. apply gauss_apply_consistent, H. Qed.

Lemma gauss_run_ok ops g g' : Gaussian_ok g -> forallb (gaussop_single S) ops = true ->
  gauss_run S junk ops g = Some g' -> Gaussian_ok g'.
Proof.
  intros H Hs R. eapply (run_ops_inv Gaussian_ok (gaussop_single S)); [|exact H|exact Hs|exact R].
  intros. apply gauss_apply_ok; auto.
Qed.

Lemma ps_ctor_consistent c l ci q : Consistent_ps (ps_ctor S c l ci q).
Proof. split; [apply gm_ctor_consistent|]. unfold ps_ctor; simpl. apply shape_e_zero. Qed.

Lemma ps_copy_id p : ps_copy S p = p.
Proof. destruct p. unfold ps_copy; simpl. rewrite gm_copy_id. reflexivity. Qed.

(* operator+ takes its left operand by value and applies += to the copy *)
Lemma ps_plus_is_concat lhs rhs : ps_plus S junk lhs rhs = ps_concat S junk rhs lhs.
Proof. unfold ps_plus. rewrite ps_copy_id. reflexivity. Qed.

Lemma ps_fill_consistent b p : Consistent_ps p -> Consistent_ps (ps_fill S b p).
Proof.
  intros [H Hs]. split; simpl; [apply gm_fill_consistent; auto|]. apply shape_e_fill. exact Hs.
Qed.

(* the particle states come after the storage of the mixture *)
Lemma ps_fill_as_mk b p : Consistent_ps p ->
  let d := dim S (base S p) in let v := dcov S (base S p) in let n := components S (base S p) in
  ps_fill S b p
  = mkPs S (gm_fill S b (base S p)) (mk d n (fun r c => sofZ S (b + Z.of_nat (d * n + v * (v * n) + n) + Z.of_nat (c * d + r)))).
Proof.
  intros [(_ & _ & _ & (R4 & C4 & _) & (R5 & C5 & _) & (R6 & _)) Hs]. cbv zeta.
  unfold ps_fill. rewrite (e_fill_as_mk _ _ _ _ Hs). cbn [gm_fill e_fill mean_ cov_ weight_ mrows mcols C11_Model.mk].
  rewrite R4, C4, R5, C5, R6. reflexivity.
Qed.

Theorem ps_fill_el_is_fill b p : Consistent_ps p -> ps_fill_el S b p = ps_fill S b p.
Proof.
  intros HP. rewrite (ps_fill_as_mk b p HP). destruct HP as [HC Hs]. cbv zeta.
  unfold ps_fill_el. rewrite (gm_fill_el_is_fill b _ HC). cbn [gm_fill dim dcov components].
  set (d := dim S (base S p)). set (v := dcov S (base S p)). set (n := components S (base S p)).
  rewrite (fold_on_state _ (fun m t => e_set S m (t mod d) (t / d) (sofZ S (b + Z.of_nat (d * n + v * (v * n) + n) + Z.of_nat t))))
    by (intros; reflexivity).
  cbn [base state_]. rewrite (fold_e_set_linear _ d n) by exact Hs. reflexivity.
Qed.

Theorem ps_fill_blk_is_fill b p : Consistent_ps p -> ps_fill_blk S b p = ps_fill S b p.
Proof.
  intros HP. rewrite (ps_fill_as_mk b p HP). destruct HP as [HC Hs]. cbv zeta.
  unfold ps_fill_blk. rewrite (gm_fill_blk_is_fill b _ HC). cbn [gm_fill dim dcov components].
  set (d := dim S (base S p)). set (v := dcov S (base S p)). set (n := components S (base S p)).
  rewrite (fold_on_state _ (fun m i => e_set_block S m 0 i (mk d 1 (fun r _ => sofZ S (b + Z.of_nat (d * n + v * (v * n) + n) + Z.of_nat (i * d + r))))))
    by (intros; reflexivity).
  cbn [base state_].
  rewrite (fold_e_set_block_cols _ d n (fun t => sofZ S (b + Z.of_nat (d * n + v * (v * n) + n) + Z.of_nat t))) by exact Hs.
  reflexivity.
Qed.

Lemma ps_fill_el_consistent b p : Consistent_ps p -> Consistent_ps (ps_fill_el S b p).
Proof. intros H. rewrite ps_fill_el_is_fill by exact H. apply ps_fill_consistent, H. Qed.

Lemma ps_fill_blk_consistent b p : Consistent_ps p -> Consistent_ps (ps_fill_blk S b p).
Proof. intros H. rewrite ps_fill_blk_is_fill by exact H. apply ps_fill_consistent, H. Qed.

Lemma ps_resize_consistent c l ci p : Consistent_ps p -> Consistent_ps (ps_resize S junk c l ci p).
Proof.
  intros [H Hs]. unfold ps_resize.
  destruct ((dl S (base S p) =? l) && (dc S (base S p) =? ci) && (components S (base S p) =? c)) eqn:E;
    [exact (conj H Hs)|].
  split; simpl; [apply gm_resize_consistent; exact H|]. rewrite gm_resize_components, (gm_resize_dim _ _ _ _ E).
  destruct ((dim S (base S p) =? l + ci * dcc S (base S p)) && negb (components S (base S p) =? c)) eqn:F.
  - apply andb_true_iff in F as [F _]. apply Nat.eqb_eq in F. rewrite <- F. eapply shape_e_cresize_cols, Hs.
  - apply shape_e_resize.
Qed.

Lemma ps_augment_consistent q p : Consistent_ps p -> Consistent_ps (snd (ps_augment S q p)).
Proof.
  intros [H Hs]. unfold ps_augment. destruct (negb (fst (gm_augment S q (base S p)))); simpl; [split; auto|].
  split; simpl; [apply gm_augment_consistent; auto|]. rewrite gm_augment_components.
  apply shape_e_set_block. eapply shape_e_cresize_rows. eassumption.
Qed.

(* the operand of a concatenation must be a particle set of the same total and covariance size *)
Definition concat_ok (rhs p : pset) : Prop :=
  Consistent_ps rhs /\ dim S (base S rhs) = dim S (base S p) /\ dcov S (base S rhs) = dcov S (base S p).

Lemma ps_concat_consistent rhs p : Consistent_ps p -> Consistent_ps (ps_concat S junk rhs p).
Proof.
  intros [(H1 & H2 & H3 & H4 & H5 & H6) Hs]. unfold ps_concat.
  split; [unfold Consistent|]; simpl.
  - split; [exact H1|]. split; [exact H2|]. split; [exact H3|]. split; [|split].
    + apply shape_e_set_block. eapply shape_e_cresize_cols. eassumption.
    + apply shape_e_set_block. eapply shape_e_cresize_cols. eassumption.
    + apply shape_e_set_block. eapply shape_e_cresize_vec. eassumption.
  - apply shape_e_set_block. eapply shape_e_cresize_cols. eassumption.
Qed.

Hint Resolve ps_fill_consistent ps_resize_consistent ps_augment_consistent ps_concat_consistent ps_fill_el_consistent
  ps_fill_blk_consistent : c11inv.
Lemma ps_apply_consistent o p : Consistent_ps p -> Consistent_ps (ps_apply S junk o p).
Proof. intros H. destruct o; simpl; rewrite ?ps_copy_id, ?ps_plus_is_concat; auto with c11inv. Qed.

Lemma ps_run_consistent ops p p' : Consistent_ps p -> ps_run S junk ops p = Some p' -> Consistent_ps p'.
Proof. apply (run_ops_inv_all Consistent_ps). intros o y H _. apply ps_apply_consistent, H. Qed.

Lemma pool0_all {Y} (P : Y -> Prop) (f : layout -> Y) ls : (forall l, P (f l)) ->
  pool_all Y P (map (fun l => (f l, true)) ls).
Proof.
  intros H i x b Hi. apply nth_error_In in Hi. apply in_map_iff in Hi. destruct Hi as [l [E _]].
  injection E as <- _. apply H.
Qed.

Lemma gm_fresh_consistent f : Consistent (gm_fresh S f).
Proof. destruct f as [[[c l] ci] q]. apply gm_ctor_consistent. Qed.
Lemma gauss_fresh_ok f : Gaussian_ok (gauss_fresh S f).
Proof. destruct f as [[[c l] ci] q]. split; [apply gm_ctor_consistent|reflexivity]. Qed.
Lemma ps_fresh_consistent f : Consistent_ps (ps_fresh S f).
Proof. destruct f as [[[c l] ci] q]. apply ps_ctor_consistent. Qed.

Lemma gm_krun_consistent ks p p' : pool_all gm Consistent p -> gm_krun S junk ks p = Some p' ->
  pool_all gm Consistent p' /\ length p' = length p.
Proof.
  apply (krun_inv_all _ _ _ _ _ _ _ _ _ Consistent).
  - intros. apply gm_apply_consistent; auto.
  - intros. rewrite gm_copy_id; auto.
  - apply gm_fresh_consistent.
  - intros a b _ _ D. discriminate D.
Qed.

Lemma gauss_krun_consistent ks p p' : pool_all gm Consistent p -> gauss_krun S junk ks p = Some p' ->
  pool_all gm Consistent p' /\ length p' = length p.
Proof.
  apply (krun_inv_all _ _ _ _ _ _ _ _ _ Consistent).
  - intros. apply gauss_apply_consistent; auto.
  - intros. rewrite gm_copy_id; auto.
  - intros f. apply gauss_fresh_ok.
  - intros a b _ _ D. discriminate D.
Qed.

Lemma gauss_krun_ok ks p p' : pool_all gm Gaussian_ok p ->
  forallb (kop_all (gaussop_single S)) ks = true -> gauss_krun S junk ks p = Some p' ->
  pool_all gm Gaussian_ok p' /\ length p' = length p.
Proof.
  intros H Hs R. eapply (krun_inv _ _ _ _ _ _ _ _ _ Gaussian_ok (gaussop_single S)); [| | | |exact H|exact Hs|exact R].
  - intros. apply gauss_apply_ok; auto.
  - intros. rewrite gm_copy_id; auto.
  - apply gauss_fresh_ok.
  - intros a b _ _ D. discriminate D.
Qed.

Lemma ps_krun_consistent ks p p' : pool_all pset Consistent_ps p -> ps_krun S junk ks p = Some p' ->
  pool_all pset Consistent_ps p' /\ length p' = length p.
Proof.
  apply (krun_inv_all _ _ _ _ _ _ _ _ _ Consistent_ps).
  - intros. apply ps_apply_consistent; auto.
  - intros. rewrite ps_copy_id; auto.
  - apply ps_fresh_consistent.
  - intros a b Ha _ _. rewrite ps_plus_is_concat. apply ps_concat_consistent; auto.
Qed.

(* the list-of-components view used by the algorithm-level models (C01-C08) *)
Definition gm_comps (g : gm) : list (mx * mx * A) :=
  map (fun i => (gm_mean S g i, gm_cov S g i, gm_weight S g i)) (seq 0 (components S g)).

Lemma gm_comps_length g : length (gm_comps g) = components S g.
Proof. unfold gm_comps. rewrite map_length, seq_length. reflexivity. Qed.

Lemma gm_comps_nth g i d : i < components S g ->
  nth i (gm_comps g) d = (gm_mean S g i, gm_cov S g i, gm_weight S g i).
Proof. intros H. unfold gm_comps. rewrite nth_map_seq by exact H. reflexivity. Qed.

(* specification-level block operations *)
Definition vcat (a b : mx) : mx :=
  mk (mrows S a + mrows S b) (mcols S a)
     (fun i j => if i <? mrows S a then get a i j else get b (i - mrows S a) j).
Definition blockdiag (a b : mx) : mx :=
  mk (mrows S a + mrows S b) (mcols S a + mcols S b)
     (fun i j => if i <? mrows S a
                 then (if j <? mcols S a then get a i j else zero)
                 else (if j <? mcols S a then zero else get b (i - mrows S a) (j - mcols S a))).

(* m.conservativeResize(r + k, NoChange); m.bottomRows(k) = 0: every column gets k zero rows *)
Lemma e_col_append_zero_rows m r k c i : mrows S m = r -> i < mcols S m ->
  e_col S (e_set_block S (e_cresize_rows S m (r + k)) (mrows S (e_cresize_rows S m (r + k)) - k) 0 (e_zero S k c)) i
  = vcat (e_col S m i) (e_zero S k 1).
Proof.
  intros <- Hi. unfold e_col, vcat. autorewrite with mxdim. cbn [mrows mcols C11_Model.mk e_zero].
  apply mk_ext. intros x j Hx Hj.
  rewrite get_e_set_block by (autorewrite with mxdim; lia).
  rewrite get_e_cresize_rows by lia.
  destruct (Nat.ltb_spec x (mrows S m)) as [L|L].
  - rewrite get_mk by lia. destruct (_ && _) eqn:E; [|reflexivity]. apply in_block in E. lia.
  - rewrite (get_e_zero k 1) by lia. destruct (_ && _) eqn:E; [|reflexivity]. apply in_block in E.
    apply get_e_zero; cbn [mrows mcols C11_Model.mk e_zero] in E; lia.
Qed.

(* invariant of the right-to-left relocation loop: the columns whose old position is >= Q0 have
   been moved to their new position, the columns below Q0 are still in place; rows >= dold untouched *)
Definition RInv (comps dold dcov' : nat) (cv0 : mx) (Q0 : nat) (m : mx) : Prop :=
  shape m dcov' (dcov' * comps)
  /\ (forall r c, dold <= r -> r < dcov' -> c < dcov' * comps -> get m r c = get cv0 r c)
  /\ (forall r i j, r < dold -> i < comps -> j < dold -> Q0 <= i * dold + j ->
        get m r (i * dcov' + j) = get cv0 r (i * dold + j))
  /\ (forall r c, r < dold -> c < Q0 -> get m r c = get cv0 r c).

Lemma RInv_step comps dold dcov' cv0 i j m :
  dold <= dcov' -> i < comps -> j < dold ->
  RInv comps dold dcov' cv0 (Datatypes.S (j + i * dold)) m ->
  RInv comps dold dcov' cv0 (j + i * dold) (e_swap_cols S m dold (i * dcov' + j) (i * dold + j)).
Proof.
  intros Hd Hi Hj (Sh & HA & HB & HC).
  pose proof (block_le dcov' i comps Hi). pose proof (Nat.mul_le_mono_l _ _ i Hd).
  split; [apply shape_e_swap_cols; exact Sh|]. destruct Sh as (R & C & W).
  split; [|split].
  - intros r c Hr Hr' Hc. rewrite get_e_swap_cols by lia.
    destruct (Nat.ltb_spec r dold); [lia|]. apply HA; auto.
  - intros r i' j' Hr Hi' Hj' HQ.
    pose proof (block_le dcov' i' comps Hi'). pose proof (Nat.mul_le_mono_l _ _ i' Hd).
    rewrite get_e_swap_cols by lia. destruct (Nat.ltb_spec r dold); [|lia].
    destruct (Nat.eqb_spec (i' * dcov' + j') (i * dcov' + j)) as [E|E].
    + apply divmod_inj in E; [|lia|lia]. destruct E; subst. apply HC; lia.
    + assert (NE : i' * dold + j' <> i * dold + j).
      { intro Eq. apply divmod_inj in Eq; [|lia|lia]. destruct Eq; subst. apply E; reflexivity. }
      destruct (Nat.eqb_spec (i' * dcov' + j') (i * dold + j)) as [E'|E']; [exfalso; lia|].
      apply HB; auto. lia.
  - intros r c Hr Hc. rewrite get_e_swap_cols by lia. destruct (Nat.ltb_spec r dold); [|lia].
    destruct (Nat.eqb_spec c (i * dcov' + j)); [lia|]. destruct (Nat.eqb_spec c (i * dold + j)); [lia|].
    apply HC; lia.
Qed.

(* component i: Q0 goes from (i + 1) * dold down to i * dold *)
Lemma RInv_comp comps dold dcov' cv0 i m :
  dold <= dcov' -> i < comps ->
  RInv comps dold dcov' cv0 (Datatypes.S i * dold) m ->
  RInv comps dold dcov' cv0 (i * dold) (relocate_comp S dold dcov' m i).
Proof.
  intros Hd Hi H.
  apply (fold_seq_down_inv (fun cv j => e_swap_cols S cv dold (i * dcov' + j) (i * dold + j)) (fun j => dold - 1 - j)
           (fun k m => RInv comps dold dcov' cv0 (k + i * dold) m) 0 dold); [intros; lia|exact H|].
  intros k y Hk. apply RInv_step; auto; lia.
Qed.

Lemma relocate_spec comps dold dcov' cv0 :
  1 <= comps -> dold <= dcov' -> shape cv0 dcov' (dcov' * comps) ->
  let m := relocate S comps dold dcov' cv0 in
  shape m dcov' (dcov' * comps)
  /\ (forall r c, dold <= r -> r < dcov' -> c < dcov' * comps -> get m r c = get cv0 r c)
  /\ (forall r i j, r < dold -> i < comps -> j < dold -> get m r (i * dcov' + j) = get cv0 r (i * dold + j)).
Proof.
  intros Hc Hd Sh. cbv zeta.
  (* components comps - 1, ..., 1; component 0 stays where it is *)
  destruct (fold_seq_down_inv (relocate_comp S dold dcov') (fun i => comps - 1 - i)
              (fun k m => RInv comps dold dcov' cv0 (k * dold) m) 1 (comps - 1) cv0) as (Sh' & HA & HB & HC).
  - intros; lia.
  - replace (1 + (comps - 1)) with comps by lia. split; [exact Sh|]. split; [auto|]. split; [|auto].
    intros r i j Hr Hi Hj HQ. pose proof (block_le dold i comps Hi). lia.
  - intros k y Hk. apply RInv_comp; auto; lia.
  - split; [exact Sh'|]. split; [exact HA|].
    intros r i j Hr Hi Hj. destruct i as [|i]; [apply HC; lia|apply HB; auto; lia].
Qed.

Lemma place_noise_spec comps dold dadd dcov' q m0 :
  dcov' = dold + dadd -> mrows S q = dadd -> mcols S q = dadd -> shape m0 dcov' (dcov' * comps) ->
  let m := place_noise S comps dold dadd dcov' q m0 in
  shape m dcov' (dcov' * comps)
  /\ (forall i k r, i < comps -> k < dcov' -> r < dcov' ->
        get m r (i * dcov' + k) =
        if dold <=? k then (if r <? dold then zero else get q (r - dold) (k - dold))
        else get m0 r (i * dcov' + k)).
Proof.
  intros Hd Rq Cq Sh. cbv zeta. unfold place_noise.
  (* after n rounds the noise columns of the components below n are in place *)
  destruct (fold_seq_inv
      (fun cv i => e_set_block S (e_set_block S cv dold (i * dcov' + dold) q) 0 (i * dcov' + dold) (e_zero S dold dadd))
      (fun n m => shape m dcov' (dcov' * comps)
          /\ (forall i k r, i < comps -> k < dcov' -> r < dcov' ->
                get m r (i * dcov' + k) =
                if (i <? n) && (dold <=? k) then (if r <? dold then zero else get q (r - dold) (k - dold))
                else get m0 r (i * dcov' + k))) comps m0) as [H1 H2].
  - split; [exact Sh|]. intros. reflexivity.
  - intros n y Hn [Shy Hy]. split; [repeat apply shape_e_set_block; exact Shy|].
    intros i k r Hi Hk Hr. specialize (Hy i k r Hi Hk Hr). destruct Shy as (Ry & Cy & _).
    pose proof (block_le dcov' i comps Hi).
    destruct (Nat.lt_trichotomy i n) as [L|[->|L]].
    + (* a column of an earlier component *)
      pose proof (block_le dcov' i n L). rewrite !get_e_set_block_out by (cbn; lia). rewrite Hy.
      rewrite (proj2 (Nat.ltb_lt i n)), (proj2 (Nat.ltb_lt i (Datatypes.S n))) by lia. reflexivity.
    + rewrite Nat.ltb_irrefl in Hy. rewrite (proj2 (Nat.ltb_lt _ _) (Nat.lt_succ_diag_r n)). cbn [andb] in *.
      destruct (Nat.leb_spec dold k); [destruct (Nat.ltb_spec r dold)|].
      * rewrite get_e_set_block_in by (cbn; lia). apply get_e_zero; lia.
      * rewrite get_e_set_block_out, get_e_set_block_in by (cbn; lia). f_equal; lia.
      * rewrite !get_e_set_block_out by (cbn; lia). exact Hy.
    + (* a column of a later component *)
      pose proof (block_le dcov' n i L). rewrite !get_e_set_block_out by (cbn; lia). rewrite Hy.
      rewrite (proj2 (Nat.ltb_ge i n)), (proj2 (Nat.ltb_ge i (Datatypes.S n))) by lia. reflexivity.
  - split; [exact H1|]. intros i k r Hi Hk Hr. rewrite H2 by assumption.
    rewrite (proj2 (Nat.ltb_lt _ _) Hi). reflexivity.
Qed.

Lemma gm_augment_content q g : Consistent g -> 1 <= components S g -> mrows S q = mcols S q ->
  let g' := snd (gm_augment S q g) in
  fst (gm_augment S q g) = true
  /\ components S g' = components S g /\ dl S g' = dl S g /\ dc S g' = dc S g
  /\ use_quat S g' = use_quat S g /\ dcc S g' = dcc S g
  /\ dn S g' = dn S g + mrows S q /\ dim S g' = dim S g + mrows S q /\ dcov S g' = dcov S g + mrows S q
  /\ forall i, i < components S g ->
       gm_mean S g' i = vcat (gm_mean S g i) (e_zero S (mrows S q) 1)
       /\ gm_cov S g' i = blockdiag (gm_cov S g i) q
       /\ gm_weight S g' i = gm_weight S g i.
Proof.
  intros HC Hc Hsq. pose proof HC as (H1 & H2 & H3 & (R4 & C4 & W4) & (R5 & C5 & W5) & H6). cbv zeta.
  unfold gm_augment. rewrite (proj2 (Nat.eqb_eq _ _) Hsq). simpl.
  do 9 (split; [reflexivity|]). intros i Hi. split; [|split; [|reflexivity]].
  - unfold gm_mean. cbn [mean_]. apply e_col_append_zero_rows; lia.
  - (* covariance *)
    set (dold := dcov S g). set (dadd := mrows S q). set (dcov' := dold + dadd). set (comps := components S g).
    assert (Sh1 : shape (e_cresize_like S (cov_ S g) (e_zero S dcov' (dcov' * comps))) dcov' (dcov' * comps))
      by (apply shape_e_cresize_like; [exact W5|apply shape_e_zero]).
    destruct (relocate_spec comps dold dcov' _ Hc (Nat.le_add_r _ _) Sh1) as (Sh2 & HA & HB).
    destruct (place_noise_spec comps dold dadd dcov' q _ eq_refl eq_refl (eq_sym Hsq) Sh2) as (Sh3 & HP).
    unfold gm_cov, blockdiag, e_middle_cols. simpl. fold dold dadd dcov' comps.
    destruct Sh3 as (R3 & C3 & _). rewrite R3, R5. fold dold. rewrite <- Hsq. fold dadd. fold dcov'.
    apply mk_ext. intros r k Hr Hk.
    rewrite (Nat.mul_comm dcov' i), HP by assumption.
    pose proof (block_le dcov' i comps Hi). pose proof (block_le dold i comps Hi).
    pose proof (Nat.mul_le_mono_r dold dcov' comps (Nat.le_add_r _ _)).
    destruct (Nat.leb_spec dold k); destruct (Nat.ltb_spec k dold); try lia;
    destruct (Nat.ltb_spec r dold); try reflexivity.
    + (* top-left: the old block, relocated *)
      rewrite HB by assumption.
      rewrite get_e_cresize_like by (simpl; lia). rewrite R5, C5. fold dold comps.
      rewrite (proj2 (Nat.ltb_lt r dold)), (proj2 (Nat.ltb_lt (i * dold + k) (dold * comps))) by lia. simpl.
      rewrite get_mk by assumption. f_equal. lia.
    + (* bottom-left: zero from conservativeResizeLike *)
      rewrite HA by lia.
      rewrite get_e_cresize_like by (simpl; lia). rewrite R5. fold dold.
      rewrite (proj2 (Nat.ltb_ge r dold)) by lia. simpl. apply get_e_zero; lia.
Qed.

Lemma gm_augment_defined_ok q g : 1 <= components S g -> gm_augment_defined S q g = true.
Proof. intros H. unfold gm_augment_defined. apply orb_true_iff. right. apply Nat.leb_le. exact H. Qed.

End C11.

(* the database of the section ends with it: declared again for the files that use these lemmas *)
Hint Rewrite mrows_e_set_block mcols_e_set_block mrows_e_cresize_cols mcols_e_cresize_cols mrows_e_cresize_vec
  mrows_e_cresize_rows mcols_e_cresize_rows : mxdim.
