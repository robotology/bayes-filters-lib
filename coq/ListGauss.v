(* ListGauss.v — the Gauss-Jordan routine of the executable list instance
   (ListOps.v: argmax_col, swap_rows, gj_step, gauss_jordan, linv, ldet, lsolve)
   instantiated at the scalars of an arbitrary realFieldType computes, on a
   well-formed n x n input whose MathComp interpretation is invertible, the
   MathComp inverse / determinant / solution.  Together with ListOpsCorrect.v
   this covers every operation of the list instance except the two oracles.
   Axiom-free (MathComp only). *)
Require Import ZArith QArith List.
Require Import BFL.Ops BFL.ListOps.
From mathcomp Require Import ssreflect ssrfun ssrbool eqtype ssrnat seq choice fintype bigop order ssralg ssrnum zmodp matrix mxalgebra perm.
Require Import BFL.MxOps BFL.ListOpsCorrect.
Set Implicit Arguments.
Unset Strict Implicit.
Unset Printing Implicit Defensive.
Import Order.Theory GRing.Theory Num.Theory.
Local Open Scope ring_scope.

(* Facts about matrices alone (this section and the next): one elimination step is a left multiplication by a matrix of
   known determinant; it turns the pivot column into a column of 1 and keeps those before it;
   the pivot the search selects is not 0. *)
Section MxStep.
Variable F : realFieldType.
Variables (n q : nat).

(* identity with column k replaced by v *)
Definition colrepl (k : 'I_n) (v : 'cV[F]_n) : 'M[F]_n :=
  \matrix_(i, j) if j == k then v i 0 else (i == j)%:R.

Lemma det_colrepl k v : \det (colrepl k v) = v k 0.
Proof.
rewrite (expand_det_col _ k).
have E i : cofactor (colrepl k v) i k = (i == k)%:R.
  have -> : cofactor (colrepl k v) i k = cofactor (1%:M : 'M[F]_n) i k.
    rewrite /cofactor; congr (_ * \det _).
    apply/matrixP => a b; rewrite !mxE.
    by rewrite eq_sym (negbTE (neq_lift k b)).
  have := adj1 F n; move/matrixP/(_ k i); rewrite !mxE => ->.
  by rewrite eq_sym.
rewrite (bigD1 k) //= big1 ?addr0 => [|i ik]; last by rewrite E (negbTE ik) mulr0.
by rewrite E eqxx mulr1 mxE eqxx.
Qed.

Lemma mul_colrepl k v (M : 'M[F]_(n, q)) i j :
  (colrepl k v *m M) i j = if i == k then v k 0 * M k j else M i j + v i 0 * M k j.
Proof.
rewrite mxE (bigD1 k) //= mxE eqxx.
case: (eqVneq i k) => [->|ik].
  rewrite big1 ?addr0 // => l lk; rewrite mxE (negbTE lk).
  by rewrite eq_sym (negbTE lk) mul0r.
rewrite (bigD1 i) //= mxE (negbTE ik) eqxx mul1r big1 ?addr0 1?addrC //.
move=> l /andP[lk li]; rewrite mxE (negbTE lk) eq_sym (negbTE li) mul0r //.
Qed.

(* the elimination step on the MathComp side: exchange rows k and p, divide row k by its
   entry in column c, subtract multiples of it from the other rows *)
Definition mx_gj (k p : 'I_n) (c : 'I_q) (M : 'M[F]_(n, q)) : 'M[F]_(n, q) :=
  let M1 := xrow k p M in
  \matrix_(i, j) if i == k then M1 k j / M1 k c
                 else M1 i j - M1 i c * (M1 k j / M1 k c).

(* ... is a left multiplication by this matrix *)
Definition elim_mx (k p : 'I_n) (c : 'I_q) (M : 'M[F]_(n, q)) : 'M[F]_n :=
  let M1 := xrow k p M in
  colrepl k (\col_i if i == k then (M1 k c)^-1 else - (M1 i c / M1 k c)) *m tperm_mx k p.

Lemma mx_gjE k p c M : mx_gj k p c M = elim_mx k p c M *m M.
Proof.
rewrite /elim_mx -mulmxA -xrowE; apply/matrixP => i j.
rewrite mul_colrepl !mxE eqxx.
case: (eqVneq i k) => [_|ik]; first by rewrite mulrC.
by rewrite mulNr mulrA [_ / _ * _]mulrAC.
Qed.

Lemma det_elim_mx k p c M :
  \det (elim_mx k p c M) = (xrow k p M k c)^-1 * (-1) ^+ (k != p).
Proof. by rewrite /elim_mx det_mulmx det_colrepl mxE eqxx det_perm odd_tperm. Qed.

(* With the columns numbered by c: if the columns before k are those of 1, the pivot row p is
   not above k and the pivot is not 0, then after the step the columns up to k are those of 1 *)
Lemma mx_gj_cols (c : 'I_n -> 'I_q) (k p : 'I_n) (M : 'M[F]_(n, q)) :
  (k <= p)%N -> M p (c k) != 0 ->
  (forall i j : 'I_n, (j < k)%N -> M i (c j) = (i == j)%:R) ->
  forall i j : 'I_n, (j < k.+1)%N -> mx_gj k p (c k) M i (c j) = (i == j)%:R.
Proof.
move=> kp pivnz cols i j; rewrite mxE ![xrow k p M k _]mxE tpermL.
rewrite ltnS leq_eqVlt => /predU1P[/val_inj->|jk].
  by rewrite divff // mulr1 subrr; case: (i == k).
have [kj pj] : (k == j) = false /\ (p == j) = false.
  by rewrite -!(inj_eq val_inj) /= !gtn_eqF // (leq_trans jk kp).
rewrite [M p (c j)]cols // pj mul0r mulr0 subr0 mxE cols //.
by case: tpermP => [->|->|/eqP/negbTE->]; rewrite ?kj ?pj ?if_same.
Qed.

End MxStep.

Section PivotNonzero.
Variable F : realFieldType.
Variable n : nat.

Lemma max_pivot_nonzero (A : 'M[F]_n) (k p : 'I_n) :
  A \in unitmx ->
  (forall i j : 'I_n, (j < k)%N -> A i j = (i == j)%:R) ->
  (forall i : 'I_n, (k <= i)%N -> `|A i k| <= `|A p k|) -> A p k != 0.
Proof.
move=> uA cols pmax; apply/eqP => p0.
have below (i : 'I_n) : (k <= i)%N -> A i k = 0.
  by move/pmax; rewrite p0 normr0 normr_le0 => /eqP.
(* column k vanishes from row k on and the columns before it are unit columns, so A sends
   e_k - col k A, whose entry k is 1, to 0 *)
pose v : 'cV[F]_n := delta_mx k ord0 - col k A.
have Av0 : A *m v = 0.
  rewrite mulmxBr -colE; apply/matrixP => i j; rewrite !mxE (bigD1 i) //= big1 => [|l li].
    by rewrite addr0 mxE; case: (ltnP i k) => [/cols->|/below->]; rewrite ?eqxx ?mul1r ?mulr0 subrr.
  by rewrite mxE; case: (ltnP l k) => [/cols->|/below->]; rewrite ?mulr0 // eq_sym (negbTE li) mul0r.
have : v = 0 by rewrite -[v](mulKmx uA) Av0 mulmx0.
move/matrixP/(_ k ord0); rewrite !mxE !eqxx (below k (leqnn k)) subr0 => /eqP.
by rewrite oner_eq0.
Qed.

End PivotNonzero.

Section ListLevel.
Variable F : realFieldType.
Variable tr : Transc F.
Let S := FOps tr.
Local Notation lmx := (lmxF F).

Lemma sabsE (x : F) : sabs S x = `|x|.
Proof.
rewrite /sabs /=; case: ltrP => [x0|x0]; first by rewrite ltr0_norm.
by rewrite ger0_norm.
Qed.

(* argmax_col scans the rows, numbered from i, for the largest |entry k|, starting from the
   candidate best with value bestv: the value bv it ends with bounds bestv and every scanned
   entry, and the result is best (bv = bestv) or the number of a row whose entry is bv *)
Lemma argmax_col_spec k (rows : lmx) i best bestv :
  exists bv, [/\ bestv <= bv,
    forall j, (j < length rows)%N -> `|List.nth k (List.nth j rows nil) 0| <= bv &
    (argmax_col S k rows i best bestv = best /\ bv = bestv) \/
    (exists j, [/\ (j < length rows)%N, argmax_col S k rows i best bestv = (i + j)%N
                 & bv = `|List.nth k (List.nth j rows nil) 0|])].
Proof.
elim: rows i best bestv => [|r rs IH] i best bestv /=.
  by exists bestv; split=> //; left.
rewrite sabsE; case: ltP => [lt|ge].
- case: (IH i.+1 i `|List.nth k r 0|) => bv [le1 all1 H].
  exists bv; split; first exact: le_trans (ltW lt) le1.
    by case=> [|j] //= jl; apply: all1.
  right; case: H => [[-> ->]|[j [jl -> ->]]].
    by exists 0%N; rewrite addn0.
  by exists j.+1; rewrite addSnnS.
- case: (IH i.+1 best bestv) => bv [le1 all1 H].
  exists bv; split=> //.
    by case=> [|j] //= jl; [exact: le_trans ge le1 | apply: all1].
  case: H => [[-> ->]|[j [jl -> ->]]]; first by left.
  by right; exists j.+1; rewrite addSnnS.
Qed.

(* argmax_col over rows numbered from i, with |entry k| of row i + j read off as v (i + j):
   the result maximises v over best and the rows, and is best or one of the row numbers *)
Lemma argmax_colP k (v : nat -> F) (rows : lmx) i best :
  (forall j, (j < length rows)%N -> `|List.nth k (List.nth j rows nil) 0| = v (i + j)%N) ->
  let p := argmax_col S k rows i best (v best) in
  [/\ v best <= v p, forall j, (j < length rows)%N -> v (i + j)%N <= v p
     & (p == best) || (i <= p < i + length rows)%N].
Proof.
move=> Hv p; have [bv [le1 all1 H]] := argmax_col_spec k rows i best (v best).
have [E B] : bv = v p /\ (p == best) || (i <= p < i + length rows)%N.
  rewrite /p; case: H => [[-> ->]|[j [jl -> ->]]]; first by rewrite eqxx.
  by rewrite Hv // leq_addr ltn_add2l jl orbT.
by rewrite -E; split=> // j jl; rewrite -Hv //; apply: all1.
Qed.

Definition pivot_of (L : lmx) k :=
  argmax_col S k (List.skipn k L) k k (sabs S (lget S L k k)).

Lemma pivot_spec n (L : lmx) k : length L = n -> (k < n)%N ->
  [/\ (k <= pivot_of L k)%N, (pivot_of L k < n)%N &
      forall i, (k <= i)%N -> (i < n)%N -> `|lget S L i k| <= `|lget S L (pivot_of L k) k|].
Proof.
move=> lL kn; rewrite /pivot_of sabsE.
have lsk : length (List.skipn k L) = (n - k)%N by rewrite List.skipn_length lL.
have [] := @argmax_colP k (fun i => `|lget S L i k|) (List.skipn k L) k k.
  by move=> j _; rewrite ListFacts.nth_skipn.
set p := argmax_col _ _ _ _ _ _ => _ all1; rewrite lsk (subnKC (ltnW kn)) => H.
have [kp pn] : (k <= p)%N /\ (p < n)%N by case/orP: H => [/eqP->|/andP[]].
by split=> // i ki il; rewrite -(subnKC ki); apply: all1; rewrite lsk ltn_sub2r.
Qed.

(* The body of gj_step in two named parts, the row exchange and the elimination (gj_step_eq);
   each is xrow, resp. the entry-wise formula of mx_gj, on the interpretations. *)
Definition tswap (k p i : nat) := if Nat.eqb i k then p else if Nat.eqb i p then k else i.

Definition swapped (L : lmx) k p := if Nat.eqb p k then L else swap_rows S k p L.

Lemma toM_swapped n q (L : lmx) (k p : 'I_n) : wf n q L ->
  wf n q (swapped L k p) /\ toM n q (swapped L k p) = xrow k p (toM n q L).
Proof.
move=> wL; have lL := proj1 wL; have [kn pn] := (ltn_ord k, ltn_ord p).
have nthE i : (i < n)%N -> List.nth i (swapped L k p) nil = List.nth (tswap k p i) L nil.
  move=> il; rewrite /swapped; case: (Nat.eqb_spec p k) => [->|_].
    by rewrite /tswap; case: (Nat.eqb_spec i k) => [->|].
  rewrite /swap_rows lL.
  exact: (nth_map_seqN (fun idx => List.nth (tswap k p idx) L nil) nil il).
split.
- apply: wf_of_nth => [|i il].
    by rewrite /swapped /swap_rows; case: Nat.eqb; rewrite ?List.map_length ?List.seq_length.
  rewrite nthE //; apply: (wf_nth_row wL).
  by rewrite /tswap; case: Nat.eqb => //; case: Nat.eqb.
- apply/matrixP => i j; rewrite !mxE nthE //; congr (List.nth j (List.nth _ L nil) 0).
  rewrite permE /= /tswap !nat_eqbE -!(inj_eq val_inj) /=.
  by case: (_ == _ :> nat) => //; case: (_ == _ :> nat).
Qed.

Definition eliminate (L1 : lmx) k : lmx :=
  let rk := List.nth k L1 nil in
  let piv := List.nth k rk (s0 S) in
  let rk' := List.map (fun x => sdiv S x piv) rk in
  List.map (fun ir : nat * list F =>
              let '(i, r) := ir in
              if Nat.eqb i k then rk'
              else let c := List.nth k r (s0 S) in
                   zipw S (fun x y => ssub S x (smul S c y)) r rk')
           (List.combine (List.seq 0 (length L1)) L1).

Lemma gj_step_eq (L : lmx) d k :
  gj_step S (L, d) k =
  (eliminate (swapped L k (pivot_of L k)) k,
   smul S (if Nat.eqb (pivot_of L k) k then d else sopp S d)
          (lget S (swapped L k (pivot_of L k)) k k)).
Proof. by []. Qed.

Lemma toM_eliminate n q (L1 : lmx) (k : 'I_n) (c : 'I_q) : wf n q L1 -> c = k :> nat ->
  wf n q (eliminate L1 k) /\
  toM n q (eliminate L1 k) =
    \matrix_(i, j) if i == k then toM n q L1 k j / toM n q L1 k c
                   else toM n q L1 i j - toM n q L1 i c * (toM n q L1 k j / toM n q L1 k c).
Proof.
move=> wL cE; have [lL kn] := (proj1 wL, ltn_ord k).
rewrite /eliminate.
set rk := List.nth k L1 nil; set piv := List.nth k rk (s0 S).
set rk' := List.map _ rk.
have lrk : length rk = q by apply: (wf_nth_row wL).
have lrk' : length rk' = q by rewrite List.map_length.
have nthrk' j : List.nth j rk' 0 = List.nth j rk 0 / piv.
  by rewrite -[X in List.nth j _ X](mul0r piv^-1) (List.map_nth (fun x => x / piv)).
set f := (fun ir : nat * list F => _).
have rowE i : (i < n)%N ->
    List.nth i (List.map f (List.combine (List.seq 0 (length L1)) L1)) nil
    = f (i, List.nth i L1 nil).
  move=> il; rewrite (nth_map_combine f nil 0%N nil) ?List.seq_length ?lL //.
  by rewrite List.seq_nth //; apply/ssrnat.ltP.
split.
- apply: wf_of_nth => [|i il].
    by rewrite length_map_combine List.seq_length lL minnn.
  rewrite rowE // /f; case: Nat.eqb => //.
  by rewrite length_zipw (wf_nth_row wL il) lrk' minnn.
- apply/matrixP => i j; rewrite !mxE cE rowE // /f nat_eqbE -(inj_eq val_inj) /=.
  case: eqP => [_|_]; first exact: nthrk'.
  by rewrite nth_zipw ?nthrk' ?(wf_nth_row wL (ltn_ord i)) ?lrk'.
Qed.

Lemma toM_gj_step n c (L : lmx) d (kO pO : 'I_n) (ck : 'I_c) :
  wf n c L -> ck = kO :> nat -> pO = pivot_of L kO :> nat ->
  [/\ wf n c (gj_step S (L, d) kO).1,
      toM n c (gj_step S (L, d) kO).1 = mx_gj kO pO ck (toM n c L) &
      (gj_step S (L, d) kO).2 =
        (if kO == pO then d else - d) * xrow kO pO (toM n c L) kO ck].
Proof.
move=> wL ckE pE; rewrite gj_step_eq -pE /=.
have [wL1 ML1] := toM_swapped kO pO wL.
have [wL2 ML2] := toM_eliminate wL1 ckE.
split=> //; first by rewrite ML2 ML1.
by rewrite nat_eqbE -(inj_eq val_inj) /= [(pO == kO :> nat)]eq_sym -ML1 mxE ckE.
Qed.

End ListLevel.

Section Main.
Variable F : realFieldType.
Variable tr : Transc F.
Let S := FOps tr.
Local Notation lmx := (lmxF F).

Lemma toM_map_skipn n q (L : lmx) :
  toM n q (List.map (List.skipn n) L) = rsubmx (toM n (n + q) L).
Proof.
apply/matrixP => i j; rewrite !mxE /=.
have -> : (nil : list F) = List.skipn n nil by rewrite List.skipn_nil.
by rewrite List.map_nth ListFacts.nth_skipn List.skipn_nil.
Qed.

Lemma map_skipn_wf n q (L : lmx) : wf n (n + q) L -> wf n q (List.map (List.skipn n) L).
Proof.
move=> wL; have lL := proj1 wL.
apply: wf_of_nth => [|i im]; first by rewrite List.map_length.
rewrite (nth_map_lt _ _ nil) ?lL // List.skipn_length (wf_nth_row wL im).
by rewrite -[LHS]/((n + q) - n)%N addKn.
Qed.

Lemma lhcat_nil (A : lmx) : lhcat S A (List.map (fun _ => nil) A) = A.
Proof. by rewrite /lhcat; elim: A => [|a A IH] //=; rewrite IH List.app_nil_r. Qed.

Section Fold.
Variables (n q : nat) (A0 : 'M[F]_n) (B0 : 'M[F]_(n, q)).
Hypothesis uA0 : A0 \in unitmx.

(* after k steps: the rows are E [A0 | B0] for the product E of the elimination matrices so
   far, the accumulated scalar is 1 / det E, and the first k columns are those of 1 *)
Definition gj_inv (k : nat) (st : lmx * F) : Prop :=
  wf n (n + q) st.1 /\
  exists E : 'M[F]_n,
    [/\ toM n (n + q) st.1 = E *m row_mx A0 B0, st.2 * \det E = 1 &
        forall i j : 'I_n, (j < k)%N -> toM n (n + q) st.1 i (lshift q j) = (i == j)%:R].

Lemma gj_inv_step k st : (k < n)%N -> gj_inv k st -> gj_inv k.+1 (gj_step S st k).
Proof.
case: st => L d kn [wL [E [ME dE cols]]].
(* only the projections: /= on the goal would unfold gj_step *)
rewrite [(L, d).1]/= in wL ME cols; rewrite [(L, d).2]/= in dE.
have [pk pn pmax] := pivot_spec tr (proj1 wL) kn.
pose kO := Ordinal kn; pose pO := Ordinal pn.
have [wL2 ML2 d2] := @toM_gj_step F tr n (n + q) L d kO pO (lshift q kO) wL erefl erefl.
set M := toM n (n + q) L in ME cols ML2 d2.
have uE : E \in unitmx.
  rewrite unitmxE unitfE; apply/eqP => e0; move/eqP: dE.
  by rewrite e0 mulr0 eq_sym oner_eq0.
have pivnz : M pO (lshift q kO) != 0.
  have uA : lsubmx M \in unitmx by rewrite ME mul_mx_row row_mxKl unitmx_mul uE uA0.
  suff: lsubmx M pO kO != 0 by rewrite mxE.
  apply: (max_pivot_nonzero uA) => [i j jk|i ki]; first by rewrite mxE; apply: cols.
  by rewrite !mxE; apply: pmax.
split=> //; exists (elim_mx kO pO (lshift q kO) M *m E); split.
- by rewrite ML2 mx_gjE ME mulmxA.
- rewrite d2 det_mulmx det_elim_mx mxE tpermL; case: (kO == pO) => /=.
    by rewrite expr0 mulr1 mulrA mulfK.
  by rewrite expr1 !mulrA mulfK // mulrN1 opprK.
- by rewrite ML2; exact: (mx_gj_cols (c:=lshift q) (k:=kO) (p:=pO) pk pivnz cols).
Qed.

Lemma gj_inv_fold k st0 : (k <= n)%N -> gj_inv 0 st0 ->
  gj_inv k (List.fold_left (gj_step S) (List.seq 0 k) st0).
Proof.
elim: k => [|k IH] kn H0 //.
rewrite List.seq_S List.fold_left_app /=.
by apply: gj_inv_step => //; apply: IH => //; apply: ltnW.
Qed.

End Fold.

(* the Gauss-Jordan reduction of [A | B] is [1 | A^-1 B], and the
   accumulated scalar is det A *)
Theorem gauss_jordan_correct n q (lA lB : lmx) :
  wf n n lA -> wf n q lB -> toM n n lA \in unitmx ->
  [/\ wf n (n + q) (gauss_jordan S n (lhcat S lA lB)).1,
      toM n (n + q) (gauss_jordan S n (lhcat S lA lB)).1
        = row_mx 1%:M (invmx (toM n n lA) *m toM n q lB) &
      (gauss_jordan S n (lhcat S lA lB)).2 = \det (toM n n lA)].
Proof.
move=> wA wB uA; rewrite /gauss_jordan.
set A0 := toM n n lA in uA *; set B0 := toM n q lB.
have H0 : gj_inv A0 B0 0 (lhcat S lA lB, s1 S).
  split; first exact: lhcat_wf.
  exists 1%:M; split=> //=; first by rewrite mul1mx (toM_lhcat tr).
  by rewrite det1 mulr1.
have [] := gj_inv_fold uA (leqnn n) H0.
set st := List.fold_left _ _ _ => wL [E [ME dE cols]].
have EA : E *m A0 = 1%:M.
  apply/matrixP => i j; have := cols i j (ltn_ord j).
  by rewrite ME mul_mx_row row_mxEl => ->; rewrite mxE.
have EV : E = invmx A0 by rewrite -[LHS]mulmx1 -(mulmxV uA) mulmxA EA mul1mx.
split=> //; first by rewrite ME mul_mx_row EA EV.
by rewrite -[LHS]mulr1 -(det1 F n) -EA det_mulmx mulrA dE mul1r.
Qed.

Section Results.
Variable n : nat.
Variable A : lmx.
Hypothesis wA : wf n n A.
Hypothesis uA : toM n n A \in unitmx.

Let firstnA : List.firstn n A = A.
Proof. by apply: List.firstn_all2; case: wA => -> _. Qed.

Theorem lsolve_correct q (B : lmx) : wf n q B ->
  wf n q (lsolve S n A B) /\ toM n q (lsolve S n A B) = invmx (toM n n A) *m toM n q B.
Proof.
move=> wB; rewrite /lsolve firstnA.
have [wL ML _] := gauss_jordan_correct wA wB uA.
split; first exact: map_skipn_wf.
by rewrite toM_map_skipn ML row_mxKr.
Qed.

Theorem linv_correct :
  wf n n (linv S n A) /\ toM n n (linv S n A) = invmx (toM n n A).
Proof.
have [w E] := lsolve_correct (@lbuild_wf F tr n n _ : wf n n (lid S n)).
by split=> //; rewrite -[RHS]mulmx1 -(toM_lid tr n).
Qed.

Theorem ldet_correct : ldet S n A = \det (toM n n A).
Proof.
rewrite /ldet firstnA -{1}(lhcat_nil A).
have wZ : wf n 0 (List.map (fun _ => nil) A : lmx).
  split; first by rewrite List.map_length; case: wA.
  by apply/List.Forall_forall => r /List.in_map_iff [r0 [<- _]].
by have [_ _ ->] := gauss_jordan_correct wA wZ uA.
Qed.

End Results.

End Main.

(* The premises are satisfiable, in every realFieldType, by a matrix whose
   reduction needs a row swap (the first pivot is 0, the pivot search moves
   to row 1), and the conclusions then hold for it. *)
Section NonVacuity.
Variable F : realFieldType.
Variable tr : Transc F.

Definition swap3 : lmxF F := [:: [:: 0; 1; 0]; [:: 1; 0; 0]; [:: 0; 0; 1]].

Lemma swap3_wf : wf 3 3 swap3.
Proof. by split=> //; repeat constructor. Qed.

Lemma swap3E : toM 3 3 swap3 = tperm_mx 0 1.
Proof.
apply/matrixP => i j; rewrite !mxE permE /=.
by case: i => [[|[|[|i]]] //= ?]; case: j => [[|[|[|j]]] //= ?].
Qed.

Lemma swap3_involutive : toM 3 3 swap3 *m toM 3 3 swap3 = 1%:M.
Proof. by rewrite swap3E -perm_mxM tperm2 perm_mx1. Qed.

Lemma swap3_unit : toM 3 3 swap3 \in unitmx.
Proof. by rewrite swap3E unitmx_perm. Qed.

Lemma swap3_needs_swap : pivot_of tr swap3 0 = 1%N.
Proof. by rewrite /pivot_of /= /lget /= !sabsE normr0 normr1 ltxx ltr01 ltr10. Qed.

Example gauss_premises_satisfiable :
  [/\ wf 3 3 swap3, toM 3 3 swap3 \in unitmx, pivot_of tr swap3 0 = 1%N,
      toM 3 3 (linv (FOps tr) 3 swap3) = toM 3 3 swap3 &
      ldet (FOps tr) 3 swap3 = \det (toM 3 3 swap3)].
Proof.
split; [exact: swap3_wf | exact: swap3_unit | exact: swap3_needs_swap | | ].
- have [_ ->] := linv_correct tr swap3_wf swap3_unit.
  by rewrite -[RHS]mul1mx -(mulVmx swap3_unit) -mulmxA swap3_involutive mulmx1.
- exact: (ldet_correct tr swap3_wf swap3_unit).
Qed.
End NonVacuity.

(* The same code run over exact rationals on a 3x3 matrix whose first pivot is
   0 (row swap 0 <-> 2, then 1 <-> 2): A * linv A = I, lsolve A B = linv A * B,
   ldet A = -8 (cofactor expansion by hand: 0*3 - 2*3 + 1*(-2)). *)
Example gauss_concrete_Q :
  let A := [:: [:: 0#1; 2#1; 1#1]; [:: 1#1; 1#1; 0#1]; [:: 2#1; 0#1; 3#1]]%Q in
  let B := [:: [:: 1#1; 0#1]; [:: 0#1; 1#1]; [:: 5#1; -7#2]]%Q in
  let I3 := [:: [:: 1#1; 0#1; 0#1]; [:: 0#1; 1#1; 0#1]; [:: 0#1; 0#1; 1#1]]%Q in
  [&& qmx_eqb (lmul QOps 3 3 3 A (linv QOps 3 A)) I3,
      qmx_eqb (lmul QOps 3 3 3 (linv QOps 3 A) A) I3,
      qmx_eqb (lmul QOps 3 3 2 A (lsolve QOps 3 A B)) B,
      Qeq_bool (ldet QOps 3 A) (-8#1)%Q &
      Nat.eqb (argmax_col QOps 0 A 0 0 (sabs QOps (lget QOps A 0 0))) 2] = true.
Proof. vm_compute. reflexivity. Qed.

Print Assumptions gauss_jordan_correct.
Print Assumptions lsolve_correct.
Print Assumptions linv_correct.
Print Assumptions ldet_correct.
