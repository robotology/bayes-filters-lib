(* C02_Transport.v — the Kalman prediction model executed at the LIST instance
   (the instance that is extracted and run), with the scalars of an arbitrary
   realFieldType, computes the same mixture as the model at the MathComp
   instance (the instance the C02 theorems are about).  This closes, for this
   step, the gap "same Gallina term applied to two operation records": the
   list record's operations are proved to implement the interface on
   well-formed inputs (ListOpsCorrect.v), and the step preserves
   well-formedness.  Only rounding separates the executed model from the
   theorems.  Here: the representation relation (repr, repr_gmix: entries,
   weights AND descriptors), LinearStateModel::propagate with all its branches
   for an arbitrary exogenous function that respects the representation, and
   the whole step with the three skip flags.  C02_TransportEntry.v instantiates
   this at the extracted entry points (affine exogenous model, sequences, spec).
   The first part is shared by all transport files: Forall2 over the list
   combinators, repr with rget / rbuild, one repr_* lemma per structural
   operation of the interface, for arbitrary list-level oracles (inverse and
   determinant: C01_Transport.v, UT_Transport.v). *)
Require Import ZArith List Bool.
Require Import BFL.Ops BFL.ListOps BFL.C02_Model.
From mathcomp Require Import ssreflect ssrfun ssrbool eqtype ssrnat seq choice fintype bigop order ssralg ssrnum zmodp matrix mxalgebra.
Require Import BFL.MxOps BFL.ListOpsCorrect BFL.C02_Proofs.
Set Implicit Arguments.
Unset Strict Implicit.
Unset Printing Implicit Defensive.
Import GRing.Theory.
Local Open Scope ring_scope.

(* Forall2 over the list combinators the models use (mixtures, sigma points and
   batches are lists of matrices) *)
Lemma F2_cons_inv (A B : Type) (R : A -> B -> Prop) a b l1 l2 : List.Forall2 R (a :: l1) (b :: l2) -> R a b /\ List.Forall2 R l1 l2.
Proof. by move=> H; inversion H. Qed.

Section F2.
Variables (A B : Type) (R : A -> B -> Prop).

Lemma F2_impl (R' : A -> B -> Prop) l1 l2 :
  (forall a b, R a b -> R' a b) -> List.Forall2 R l1 l2 -> List.Forall2 R' l1 l2.
Proof.
move=> H; elim=> [|a b l1' l2' Hab _ IH]; first exact: List.Forall2_nil.
by apply: List.Forall2_cons => //; exact: H.
Qed.

Lemma F2_Forall_r (P : B -> Prop) l1 l2 :
  List.Forall2 R l1 l2 -> List.Forall P l2 -> List.Forall2 (fun a b => R a b /\ P b) l1 l2.
Proof.
elim=> [|a b l1' l2' Hab _ IH] Hp; first exact: List.Forall2_nil.
have [Pb /IH] := proj1 (List.Forall_cons_iff _ _ _) Hp.
exact: List.Forall2_cons.
Qed.

Lemma F2_and (Q : A -> B -> Prop) l1 l2 :
  List.Forall2 R l1 l2 -> List.Forall2 Q l1 l2 -> List.Forall2 (fun a b => R a b /\ Q a b) l1 l2.
Proof.
elim=> [|a b l1' l2' Hab _ IH] H2; first exact: List.Forall2_nil.
by have [q /IH r] := F2_cons_inv H2; exact: List.Forall2_cons.
Qed.

Lemma F2_length l1 l2 : List.Forall2 R l1 l2 -> length l1 = length l2.
Proof. by elim=> [|a b l1' l2' _ _ IH] //=; rewrite IH. Qed.

Lemma F2_skipn j l1 l2 : List.Forall2 R l1 l2 -> List.Forall2 R (List.skipn j l1) (List.skipn j l2).
Proof.
move=> r; elim: j l1 l2 r => [|j IH] l1 l2 r //.
by case: r => [|a b l1' l2' _ r'] /=; [exact: List.Forall2_nil | apply: IH].
Qed.

Lemma F2_firstn j l1 l2 : List.Forall2 R l1 l2 -> List.Forall2 R (List.firstn j l1) (List.firstn j l2).
Proof.
move=> r; elim: j l1 l2 r => [|j IH] l1 l2 r /=; first exact: List.Forall2_nil.
case: r => [|a b l1' l2' Hab r'] /=; first exact: List.Forall2_nil.
by apply: List.Forall2_cons => //; apply: IH.
Qed.

Lemma F2_nth i l1 l2 d1 d2 : List.Forall2 R l1 l2 -> R d1 d2 -> R (List.nth i l1 d1) (List.nth i l2 d2).
Proof.
move=> r Hd; elim: r i => [|a b l1' l2' Hab _ IH] [|i] //=.
Qed.

Lemma F2_concat (l1 : list (list A)) (l2 : list (list B)) :
  List.Forall2 (List.Forall2 R) l1 l2 -> List.Forall2 R (List.concat l1) (List.concat l2).
Proof.
elim=> [|a b l1' l2' Hab _ IH] /=; first exact: List.Forall2_nil.
exact: List.Forall2_app.
Qed.

Lemma F2_map_in (f : nat -> A) (g : nat -> B) (s : list nat) :
  (forall i, List.In i s -> R (f i) (g i)) -> List.Forall2 R (List.map f s) (List.map g s).
Proof.
elim: s => [|i s IH] H /=; first exact: List.Forall2_nil.
apply: List.Forall2_cons; first by apply: H; left.
by apply: IH => j Hj; apply: H; right.
Qed.

Lemma F2_map_seq (f : nat -> A) (g : nat -> B) (s : list nat) :
  (forall i, R (f i) (g i)) -> List.Forall2 R (List.map f s) (List.map g s).
Proof. by move=> H; apply: F2_map_in. Qed.

(* the models' overwrite_prefix: the new entries over the first slots of the old list *)
Lemma F2_overwrite_prefix n1 n2 o1 o2 : List.Forall2 R n1 n2 -> List.Forall2 R o1 o2 ->
  List.Forall2 R (n1 ++ List.skipn (length n1) o1)%list (n2 ++ List.skipn (length n2) o2)%list.
Proof. by move=> rn ro; rewrite (F2_length rn); apply: List.Forall2_app => //; exact: F2_skipn. Qed.
End F2.

(* corresponding folds over corresponding lists *)
Lemma F2_fold_left (A B C D : Type) (R : A -> B -> Prop) (Q : C -> D -> Prop)
      (f : C -> A -> C) (g : D -> B -> D) l1 l2 c d :
  (forall c d a b, Q c d -> R a b -> Q (f c a) (g d b)) ->
  List.Forall2 R l1 l2 -> Q c d -> Q (fold_left f l1 c) (fold_left g l2 d).
Proof.
move=> H r; elim: r c d => [|a b l1' l2' Hab _ IH] c d Hcd //=.
by apply: IH; apply: H.
Qed.

Lemma F2_refl (A : Type) (l : list A) : List.Forall2 eq l l.
Proof. by elim: l => [|a l IH]; [exact: List.Forall2_nil | exact: List.Forall2_cons]. Qed.

Lemma F2_map (A B A' B' : Type) (R : A' -> B' -> Prop) (f : A -> A') (g : B -> B') l1 l2 :
  List.Forall2 (fun a b => R (f a) (g b)) l1 l2 -> List.Forall2 R (List.map f l1) (List.map g l2).
Proof.
elim=> [|a b l1' l2' H _ IH] /=; first exact: List.Forall2_nil.
exact: List.Forall2_cons.
Qed.

Lemma F2_map_eq (A B C : Type) (f : A -> C) (g : B -> C) l1 l2 :
  List.Forall2 (fun a b => f a = g b) l1 l2 -> List.map f l1 = List.map g l2.
Proof. by elim=> [|a b l1' l2' H _ IH] //=; rewrite H IH. Qed.

Lemma F2_combine (A B C D : Type) (R : A -> B -> Prop) (Q : C -> D -> Prop) l1 l2 k1 k2 :
  List.Forall2 R l1 l2 -> List.Forall2 Q k1 k2 ->
  List.Forall2 (fun a b => R a.1 b.1 /\ Q a.2 b.2) (List.combine l1 k1) (List.combine l2 k2).
Proof.
move=> r; elim: r k1 k2 => [|a b l1' l2' Hab _ IH] k1 k2 q /=; first exact: List.Forall2_nil.
case: q => [|c d k1' k2' Hcd q'] /=; first exact: List.Forall2_nil.
by apply: List.Forall2_cons => //; exact: IH.
Qed.

Lemma F2_combine_eq (A C D : Type) (Q : C -> D -> Prop) (l : list A) k1 k2 :
  List.Forall2 Q k1 k2 ->
  List.Forall2 (fun a b => a.1 = b.1 /\ Q a.2 b.2) (List.combine l k1) (List.combine l k2).
Proof.
move=> q; elim: q l => [|c d k1' k2' Hcd _ IH] [|a l] /=; try exact: List.Forall2_nil.
by apply: List.Forall2_cons => //; exact: IH.
Qed.

Lemma F2_combine_seq (A B : Type) (R : A -> B -> Prop) (s : list nat) l1 l2 :
  List.Forall2 R l1 l2 ->
  List.Forall2 (fun a b => a.1 = b.1 /\ R a.2 b.2) (List.combine s l1) (List.combine s l2).
Proof. exact: F2_combine_eq. Qed.

(* the oracle fields of the instance that runs the steps calling no oracle *)
Notation idL := (fun _ X => X) (only parsing).

Section T.
Variable F : realFieldType.
Variable tr : Transc F.
Variable sq : forall n, 'M[F]_n -> 'M[F]_n.
Variable eg : forall n, 'M[F]_n -> 'M[F]_(n,1).
Let S := FOps tr.
Let OL := ListMat S idL idL.
Let OM := MxMat tr sq eg.

(* a list matrix represents a MathComp matrix *)
Definition repr m n (l : lmxF F) (A : 'M[F]_(m,n)) : Prop := wf m n l /\ toM m n l = A.
Arguments repr : clear implicits.

(* One lemma per operation of the interface, for ARBITRARY list-level oracles sqL / egL (the
   executed instance takes them from the driver; the steps that call none run at identity
   functions): no operation below looks at the two oracle fields. *)
Section Ops.
Variables sqL egL : nat -> lmxF F -> lmxF F.
Let OLo := ListMat S sqL egL.

(* The two facts everything "mbuild over mget" follows from.
   Entries agree, also outside the index range (both sides read 0 there) ... *)
Lemma rget m n l (A : 'M[F]_(m,n)) : repr m n l A ->
  forall i j, @mget OLo m n l i j = @mget OM m n A i j.
Proof.
move=> [w <-] i j; rewrite /= /lget.
case: (ltnP i m) => [im|mi]; last first.
  have -> : List.nth i l nil = nil by apply: List.nth_overflow; rewrite (proj1 w); apply/leP.
  by rewrite mx_get_out_r //; case: j.
case: (ltnP j n) => [jn|nj]; last first.
  by rewrite mx_get_out_c // List.nth_overflow // (wf_nth_row w im); apply/leP.
by rewrite (mx_get_ord _ (Ordinal im) (Ordinal jn)) mxE.
Qed.

(* ... and entry-wise equal generators give corresponding matrices *)
Lemma rbuild m n (f g : nat -> nat -> F) :
  (forall i j, (i < m)%N -> (j < n)%N -> f i j = g i j) ->
  repr m n (@mbuild OLo m n f) (@mbuild OM m n g).
Proof.
move=> E; split; first exact: lbuild_wf.
by rewrite /= toM_lbuild; exact: mx_build_ext.
Qed.

(* together: re-indexing the entries (mslice, mcol, mrow of Ops.v) maps representations to
   representations *)
Lemma rbuild_get m n r c (f g : nat -> nat -> nat) l (A : 'M[F]_(m,n)) :
  repr m n l A ->
  repr r c (@mbuild OLo r c (fun i j => @mget OLo m n l (f i j) (g i j)))
           (@mbuild OM r c (fun i j => @mget OM m n A (f i j) (g i j))).
Proof. by move=> rA; apply: rbuild => i j _ _; exact: rget. Qed.

Lemma repr_mconst m n (c : F) : repr m n (mconst OLo m n c) (mconst OM m n c : 'M[F]_(m,n)).
Proof. exact: rbuild. Qed.

Lemma repr_mzero m n : repr m n (@mzero OLo m n) (0 : 'M[F]_(m,n)).
Proof. by split; [exact: lbuild_wf | exact: toM_mzero]. Qed.

Lemma repr_mid n : repr n n (@mid OLo n) (1%:M : 'M[F]_n).
Proof. by split; [exact: lbuild_wf | exact: toM_lid]. Qed.

Lemma repr_mul m n p l1 A1 l2 A2 : repr m n l1 A1 -> repr n p l2 A2 ->
  repr m p (@mmul OLo m n p l1 l2) (A1 *m A2).
Proof.
move=> [w1 <-] [w2 <-]; split; last exact: toM_lmul.
by apply: lmul_wf; case: w1.
Qed.

Lemma repr_add m n l1 A1 l2 A2 : repr m n l1 A1 -> repr m n l2 A2 ->
  repr m n (@madd OLo m n l1 l2) (A1 + A2).
Proof. by move=> [w1 <-] [w2 <-]; split; [exact: zipw2_wf | exact: toM_madd]. Qed.

Lemma repr_msub m n l1 A1 l2 A2 : repr m n l1 A1 -> repr m n l2 A2 ->
  repr m n (@msub OLo m n l1 l2) (A1 - A2).
Proof. by move=> [w1 <-] [w2 <-]; split; [exact: zipw2_wf | exact: toM_msub]. Qed.

Lemma repr_mopp m n l A : repr m n l A -> repr m n (@mopp OLo m n l) (- A).
Proof. by move=> [w <-]; split; [exact: map_wf | exact: toM_mopp]. Qed.

Lemma repr_tr m n l A : repr m n l A -> repr n m (@mtr OLo m n l) (A^T).
Proof. by move=> [w <-]; split; [exact: ltr_wf | exact: toM_ltr]. Qed.

Lemma repr_mscale m n (c : F) l A : repr m n l A -> repr m n (@mscale OLo m n c l) (c *: A).
Proof. by move=> [w <-]; split; [exact: map_wf | exact: toM_mscale]. Qed.

Lemma repr_mhcat m n1 n2 l1 A1 l2 A2 : repr m n1 l1 A1 -> repr m n2 l2 A2 ->
  repr m (n1 + n2) (@mhcat OLo m n1 n2 l1 l2) (row_mx A1 A2).
Proof. by move=> [w1 <-] [w2 <-]; split; [exact: lhcat_wf | exact: toM_lhcat]. Qed.

Lemma repr_mvcat m1 m2 n l1 A1 l2 A2 : repr m1 n l1 A1 -> repr m2 n l2 A2 ->
  repr (m1 + m2) n (@mvcat OLo m1 m2 n l1 l2) (col_mx A1 A2).
Proof. by move=> [w1 <-] [w2 <-]; split; [exact: lvcat_wf | apply: toM_lvcat; case: w1]. Qed.
End Ops.

(* mixtures *)
Definition repr_covs n (ls : list (lmxF F)) (As : list 'M[F]_n) : Prop :=
  List.Forall2 (fun l A => repr n n l A) ls As.

Definition repr_gmix n k (gl : gmix OL n k) (gm : gmix OM n k) : Prop :=
  repr n k (gm_means gl) (gm_means gm : 'M[F]_(n,k)) /\
  repr_covs (gm_covs gl) (gm_covs gm) /\
  gm_weights gl = gm_weights gm /\
  gm_layout gl = gm_layout gm.

Definition repr_exo n k (ul : option (lmxF F -> lmxF F)) (um : option ('M[F]_(n,k) -> 'M[F]_(n,k))) : Prop :=
  match ul, um with
  | None, None => True
  | Some fl, Some fm => forall l A, repr n k l A -> repr n k (fl l) (fm A)
  | _, _ => False
  end.

Lemma repr_cov_step n lF (Fm : 'M[F]_n) lQ (Q : 'M[F]_n) lP (P : 'M[F]_n) :
  repr n n lF Fm -> repr n n lQ Q -> repr n n lP P ->
  repr n n (@kf_predict_cov OL n lF lQ lP) (@kf_predict_cov OM n Fm Q P).
Proof.
move=> rF rQ rP; rewrite /kf_predict_cov.
by apply: repr_add => //; apply: repr_mul; [apply: repr_mul | apply: repr_tr].
Qed.

(* LinearStateModel::propagate, all branches (the last one keeps the content of the output) *)
Theorem lin_propagate_transport n k lF (Fm : 'M[F]_n) ul um ss se lcur (cur : 'M[F]_(n,k)) lold (old : 'M[F]_(n,k)) :
  repr n n lF Fm -> repr_exo ul um -> repr n k lcur cur -> repr n k lold old ->
  repr n k (@lin_propagate OL n k lF ul ss se lcur lold) (@lin_propagate OM n k Fm um ss se cur old).
Proof.
move=> rF rU rC rO; rewrite /lin_propagate.
case: ul um rU => [fl|] [fm|] // rU.
- case: ss; case: se => //.
  + exact: rU.
  + exact: repr_mul.
  + by apply: repr_add; [exact: repr_mul | exact: rU].
- by case: ss => //; exact: repr_mul.
Qed.

(* the whole prediction step commutes with the representation *)
Theorem kf_predict_transport n k lF (Fm : 'M[F]_n) lQ (Q : 'M[F]_n) ul um
        (prevl oldl : gmix OL n k) (prevm oldm : gmix OM n k) sp ss se :
  repr n n lF Fm -> repr n n lQ Q -> repr_exo ul um ->
  repr_gmix prevl prevm -> repr_gmix oldl oldm ->
  repr_gmix (@gaussian_predict OL n k lF lQ ul sp ss se prevl oldl)
            (@gaussian_predict OM n k Fm Q um sp ss se prevm oldm).
Proof.
move=> rF rQ rU rP rO; rewrite !gaussian_predictE; case: (sp || ss) => //.
case: rP => rPm [rPc [rPw rPl]]; case: rO => rOm [rOc [rOw rOl]].
split; last split => //.
- exact: (@lin_propagate_transport n k lF Fm ul um false se).
- apply: F2_overwrite_prefix => //.
  by apply: F2_map; apply: F2_impl rPc => l A; exact: repr_cov_step.
Qed.

End T.

Print Assumptions kf_predict_transport.
