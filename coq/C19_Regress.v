(* C19_Regress.v — regression specification, NOT part of any property theorem.
   The transcription of directional_mean as it was before /repo commit
   "fix: directional_mean of a single sample returns its principal value"
   (one column returned AS IS), and the proof that this old code violates three
   literal clauses of C19.  If the shortcut is reintroduced, the correspondence
   check differs on one-column inputs and the oracle reports
   C19:mean:single-column:not-arg-of-resultant / :shift-changes-result. *)
Require Import ZArith Reals Lra Lia List.
Require Import BFL.Ops BFL.C19_ROps BFL.C19_Model BFL.C19_Proofs.
Import ListNotations.
Local Open Scope R_scope.

Section Prefix.
Variable S : SOps.
(* pre-fix: cols == 1 ? a.col(0) : arg(exp(j a) * w) *)
Definition dir_mean_prefix (cols : nat) (a : list (list (T S))) (w : list (T S)) : list (T S) :=
  if Nat.eqb cols 1 then map (fun row => nth 0 row (s0 S)) a
  else map (fun row => mean_row S row w) a.
End Prefix.

Lemma prefix_single_column a w : dir_mean_prefix ROps 1 a w = map (fun row => nth 0 row 0) a.
Proof. reflexivity. Qed.

(* away from one column the old and the new code agree *)
Lemma prefix_general cols a w : cols <> 1%nat -> dir_mean_prefix ROps cols a w = dir_mean ROps cols a w.
Proof.
  intros Hc. unfold dir_mean_prefix, dir_mean. destruct (Nat.eqb_spec cols 1); [contradiction | reflexivity].
Qed.

(* (i) not the argument of the resultant (not even for a positive weight), (ii) follows 2 pi shifts,
   (iii) ignores the weight *)
Lemma C19_mean_single_column_literal_refuted :
  (exists a w, 0 < w /\ dir_mean_prefix ROps 1 [[a]] [w] <> [mean_row ROps [a] [w]]) /\
  (exists a w, 0 < w /\ dir_mean_prefix ROps 1 [[a + 2 * IZR 1 * PI]] [w] <> dir_mean_prefix ROps 1 [[a]] [w]) /\
  (exists a w, w < 0 /\ ~ cong2pi (mean_row ROps [a] [w]) (nth 0 (dir_mean_prefix ROps 1 [[a]] [w]) 0)).
Proof.
  pose proof PI_RGT_0 as Hp. repeat split.
  - exists (3 * PI), 1. split; [lra|]. rewrite prefix_single_column. cbn [map nth].
    assert (E0 : mean_row ROps [3 * PI] [1] = wrap ROps (3 * PI)).
    { apply (mean_row_all_equal (3 * PI) 1 [1]). simpl. lra. }
    destruct wrap_concrete as [E _]. intros H. injection H as H'. pose proof (eq_trans H' (eq_trans E0 E)) as H2. lra.
  - exists 0, 1. split; [lra|]. rewrite !prefix_single_column. cbn [map nth]. intros H. injection H. lra.
  - exists 0, (-1). split; [lra|]. rewrite prefix_single_column. cbn [map nth].
    replace (mean_row ROps _ _) with PI by (symmetry; exact mean_row_neg_weight). apply not_cong_half_turn.
Qed.

(* the repaired code satisfies the first two clauses exactly (Properties_C19.C19_mean_all_equal_single_column,
   C19_mean_shift_single_column) *)
Print Assumptions C19_mean_single_column_literal_refuted.
