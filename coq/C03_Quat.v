(* C03_Quat.v — whole-layout exactness of the unscented transform for layouts with linear rows,
   QUATERNION blocks and an appended noise block, at the real matrix instance RF (C03_RFun.v), on top
   of C18's quaternion theory, C03_QuatAlg.v, C03_Sigma.v and the component theorem of C03_Euler.v (SymComponent).
   Setting: input layout (lin linear rows, circ quaternions, noise rows; storage d = lin + 4 circ + noise,
   tangent dc = lin + 3 circ + noise), output layout (olin linear rows, the same number circ of
   quaternions).  The propagated function is x -> Am x + b column by column in storage coordinates where
     - a linear output row does not read the quaternion rows                        (map_lin)
     - the t-th output quaternion is rl_t * (t-th input quaternion) * rr_t for unit quaternions
       rl_t, rr_t (what the harness' L(r) / R(r) blocks do)                          (map_quat)
   and J (pc x dc) is the matrix of the tangent map: on a linear output row it is Am restricted to the
   linear and noise columns (tangent_lin), on the rotation rows of block t it is the rotation by rl_t of
   the t-th rotation-vector block (tangent_rot).
   Smallness, per component, in terms of the factor A = sq P the oracle returned (small_rot): every
   rotation-vector block sqrt(c) A_[t],k of a sigma offset is zero, or outside the 1e-4 cut-off zone of
   the exp / log pair and strictly within a half turn (ok_rv); and every block has a positive weighted
   resultant w0 + 2 wi sum_k cos |sqrt(c) A_[t],k|.  The eigen-solver oracle enters through its contract
   (max_eig_contract: unit eigenvector of the largest eigenvalue), a per-instance premise.
   Result: mean Am m + b on linear rows and +- rl_t q_t rr_t on quaternion blocks (the same rotation),
   covariance J P J^T (+ N), cross-covariance the non-noise rows of P J^T (quat_image); the overloads follow by
   C03_Sigma.core_exact (Properties_C03_Real.v).
   Axioms: the four standard axioms of Coq's Reals. *)
Require Import ZArith Reals Lra Lia List Bool Arith.
Require Import BFL.Ops BFL.ListFacts BFL.C03_Model BFL.C19_ROps BFL.C18_Model BFL.C18_Proofs BFL.C18_Mean BFL.C03_Real.
Require Import BFL.C03_RFun BFL.C03_Sigma BFL.C03_Euler BFL.C03_QuatAlg.
Import ListNotations.
Local Open Scope R_scope.

(* blocks of w consecutive rows: row t * w + k is component k of block t, and back *)
Lemma divmod_block w t k : (k < w)%nat -> ((t * w + k) / w = t /\ (t * w + k) mod w = k)%nat.
Proof.
  intros Hk. split.
  - rewrite Nat.add_comm, Nat.div_add by lia. rewrite Nat.div_small by lia. lia.
  - rewrite Nat.add_comm, Nat.mod_add by lia. apply Nat.mod_small. lia.
Qed.
Lemma divmod3 t k : (k < 3)%nat -> ((t * 3 + k) / 3 = t /\ (t * 3 + k) mod 3 = k)%nat.
Proof. apply divmod_block. Qed.

(* n blocks after o rows: row o + t * w + k is one of them, component k of block t *)
Lemma block_row w o n t k : (t < n)%nat -> (k < w)%nat ->
  (o + t * w + k <? o)%nat = false /\ (o + t * w + k <? o + n * w)%nat = true /\
  ((o + t * w + k - o) / w = t)%nat /\ ((o + t * w + k - o) mod w = k)%nat.
Proof.
  intros Ht Hk. replace (o + t * w + k - o)%nat with (t * w + k)%nat by lia.
  split; [apply Nat.ltb_ge; lia|]. split; [apply Nat.ltb_lt; nia | now apply divmod_block].
Qed.

Lemma block_index w o n i : (0 < w)%nat -> (o <= i)%nat -> (i < o + n * w)%nat ->
  exists t k, (t < n)%nat /\ (k < w)%nat /\ i = (o + t * w + k)%nat /\ ((i - o) / w = t)%nat /\ ((i - o) mod w = k)%nat.
Proof.
  intros Hw H1 H2. exists ((i - o) / w)%nat, ((i - o) mod w)%nat.
  pose proof (Nat.div_mod (i - o) w ltac:(lia)) as E. pose proof (Nat.mod_upper_bound (i - o) w ltac:(lia)) as Hm.
  repeat split; try lia. apply Nat.div_lt_upper_bound; nia.
Qed.

Definition vcomp (v : V) (k : nat) : R := match k with 0%nat => vx v | 1%nat => vy v | _ => vz v end.

Lemma rv_nth_toV (r : C03_Model.rvec RM) k : rv_nth (O:=RM) r k = vcomp (toV r) k.
Proof. destruct r as [[x y] z]. destruct k as [|[|k]]; reflexivity. Qed.

Lemma q_nth_tuple (q : C03_Model.quat RM) :
  (q_nth (O:=RM) q 0, q_nth (O:=RM) q 1, q_nth (O:=RM) q 2, q_nth (O:=RM) q 3) = q.
Proof. destruct q as [[[a b] c] d]. reflexivity. Qed.

Lemma q_nth_qcomp (q : C03_Model.quat RM) k : q_nth (O:=RM) q k = qcomp ROps (toQ q) k.
Proof. destruct q as [[[a b] c] d]. destruct k as [|[|[|k]]]; reflexivity. Qed.

Lemma qmul_neg_r a b : C18_Model.qmul ROps a (qneg b) = qneg (C18_Model.qmul ROps a b).
Proof. rewrite !qmul_R. unfold qneg. simpl. f_equal; lra. Qed.
Lemma qconj_neg a : C18_Model.qconj ROps (qneg a) = qneg (C18_Model.qconj ROps a).
Proof. rewrite !qconj_R. unfold qneg. simpl. reflexivity. Qed.

(* the tangent difference from +-qc of a quaternion a * qc is 2 log a *)
Lemma qdiff_pm (a qc : Q) : qnorm2 qc = 1 ->
  qdiff_one ROps (C18_Model.qmul ROps a qc) qc = q_to_rv ROps a /\
  qdiff_one ROps (C18_Model.qmul ROps a qc) (qneg qc) = q_to_rv ROps (qneg a).
Proof.
  intros H. split; [now apply left_convention_diff|].
  unfold qdiff_one. rewrite qconj_neg, qmul_neg_r, qmul_cancel_r by assumption. reflexivity.
Qed.

(* C18's weighted sum of rotation cosines over equal weights *)
Lemma wcos_repeat wi (v : nat -> V) n : wcos (repeat wi n) (map v (seq 0 n)) = wi * rsum n (fun k => rcos (v k)).
Proof.
  rewrite <- (lsumR_seq rcos v). generalize 0%nat.
  induction n as [|n IH]; intros s0; simpl; [lra|]. rewrite IH. lra.
Qed.

(* the rows of a layout of quaternions, component k of block t: the sigma quaternion, the rotation-vector
   difference, the oracle's mean quaternion *)
Section QuatRows.
Variables sq eg : nat -> fmx -> fmx.
Notation O := (RF sq eg).
Variable L : layout.
Hypothesis Lq : l_quat L = true.

Lemma add_mean_quat d dc central (m pt : fmx) t k : (t < l_circ L)%nat -> (k < 4)%nat -> (l_lin L + t * 4 + k < d)%nat ->
  add_mean (O:=O) L d dc central m pt (l_lin L + t * 4 + k)%nat 0%nat =
  if central then m (l_lin L + t * 4 + k)%nat 0%nat
  else q_nth (O:=O) (C03_Model.qsum (O:=O) (quat_at (O:=O) (r:=d) m (l_lin L + t * 4)) (rv_at (O:=O) (r:=dc) pt (l_lin L + t * 3))) k.
Proof.
  intros Ht Hk Hd. rewrite add_mean_entry by exact Hd. unfold add_mean_row, l_cw. rewrite Lq.
  destruct (block_row 4 (l_lin L) (l_circ L) t k Ht Hk) as (-> & -> & -> & ->).
  destruct central; [apply colget_entry; exact Hd | reflexivity].
Qed.

(* the quaternion helpers depend on the matrix instance only through its scalars *)
Lemma qdiffF (a b' : C03_Model.quat O) k :
  rv_nth (O:=O) (C03_Model.qdiff (O:=O) a b') k = vcomp (qdiff_one ROps (toQ a) (toQ b')) k.
Proof.
  change (rv_nth (O:=O) (C03_Model.qdiff (O:=O) a b') k) with (rv_nth (O:=RM) (C03_Model.qdiff (O:=RM) a b') k).
  rewrite rv_nth_toV, qdiff_is_C18. reflexivity.
Qed.

Lemma offsets_rot rows pc (y ref : fmx) t k : (t < l_circ L)%nat -> (k < 3)%nat -> (l_lin L + t * 3 + k < pc)%nat ->
  offsets (O:=O) L (p:=rows) pc y ref (l_lin L + t * 3 + k)%nat 0%nat =
  vcomp (qdiff_one ROps (toQ (quat_at (O:=O) (r:=rows) y (l_lin L + t * 4))) (toQ (quat_at (O:=O) (r:=rows) ref (l_lin L + t * 4)))) k.
Proof.
  intros Ht Hk Hp. rewrite offsets_entry by exact Hp. unfold offset_row, l_tw. rewrite Lq.
  destruct (block_row 3 (l_lin L) (l_circ L) t k Ht Hk) as (-> & -> & -> & ->). apply qdiffF.
Qed.

Lemma out_mean_quat p wm (Ys : list fmx) t k : (t < l_circ L)%nat -> (k < 4)%nat -> (l_lin L + t * 4 + k < p)%nat ->
  out_mean (O:=O) L p wm Ys (l_lin L + t * 4 + k)%nat 0%nat =
  colget (O:=O) (r:=4) (mean_quaternion (O:=O) wm (map (fun y => quat_at (O:=O) (r:=p) y (l_lin L + t * 4)) Ys)) k.
Proof.
  intros Ht Hk Hp. rewrite out_mean_entry by exact Hp. unfold l_cw. rewrite Lq.
  destruct (block_row 4 (l_lin L) (l_circ L) t k Ht Hk) as (-> & -> & -> & ->). reflexivity.
Qed.
End QuatRows.

Section QuatComponent.
Variables sq eg : nat -> fmx -> fmx.
Notation O := (RF sq eg).
Variables lin circ noise olin : nat.
Let Lin := mkLayout lin circ true noise.
Let Lout := mkLayout olin circ true 0.
Variables d dc dx p pc : nat.
Hypothesis Hd : d = (lin + circ * 4 + noise)%nat.
Hypothesis Hdc : dc = (lin + circ * 3 + noise)%nat.
Hypothesis Hdx : dx = (lin + circ * 3)%nat.
Hypothesis Hp : p = (olin + circ * 4)%nat.
Hypothesis Hpc : pc = (olin + circ * 3)%nat.

Variables (c : R) (m P : fmx) (Am b J : fmx).
Variables rl rr : nat -> Q.
Let s := sqrt c.
Let A := sq dc P.
Hypothesis c_pos : 0 < c.
Hypothesis factor : forall a b', (a < dc)%nat -> (b' < dc)%nat -> rsum dc (fun k => A a k * A b' k) = P a b'.

(* a quaternion read from four consecutive rows of a column; the t-th rotation-vector block of a
   tangent vector *)
Definition qraw (x : fmx) (o : nat) : Q := mkQR (x o 0%nat) (x (o + 1)%nat 0%nat) (x (o + 2)%nat 0%nat) (x (o + 3)%nat 0%nat).
Definition blk (o : nat) (e : nat -> R) (t : nat) : V :=
  mkVR (e (o + t * 3)%nat) (e (o + t * 3 + 1)%nat) (e (o + t * 3 + 2)%nat).
Notation qbar t := (qraw m (lin + t * 4)).

Lemma quat_at_raw rows (x : fmx) o : (o + 3 < rows)%nat -> toQ (quat_at (O:=O) (r:=rows) x o) = qraw x o.
Proof. intros Ho. unfold quat_at, toQ, qraw. rewrite !colget_entry by lia. reflexivity. Qed.

Lemma rv_at_raw rows (x : fmx) o : (o + 2 < rows)%nat ->
  toV (rv_at (O:=O) (r:=rows) x o) = mkVR (x o 0%nat) (x (o + 1)%nat 0%nat) (x (o + 2)%nat 0%nat).
Proof. intros Ho. unfold rv_at, toV. rewrite !colget_entry by lia. reflexivity. Qed.

(* a quaternion read row by row *)
Lemma qraw_rows (x : fmx) o (f : nat -> R) : (forall k, (k < 4)%nat -> x (o + k)%nat 0%nat = f k) ->
  qraw x o = mkQR (f 0%nat) (f 1%nat) (f 2%nat) (f 3%nat).
Proof. intros H. unfold qraw. rewrite <- !H by lia. now rewrite Nat.add_0_r. Qed.

Hypothesis mean_unit : forall t, (t < circ)%nat -> qnorm2 (qbar t) = 1.
Hypothesis rl_unit : forall t, (t < circ)%nat -> qnorm2 (rl t) = 1.
Hypothesis rr_unit : forall t, (t < circ)%nat -> qnorm2 (rr t) = 1.

Definition is_sigma_q (e : nat -> R) (x : fmx) : Prop :=
  (forall j, (j < lin)%nat -> x j 0%nat = e j + m j 0%nat) /\
  (forall t, (t < circ)%nat -> qraw x (lin + t * 4) = qsum_one ROps (qbar t) (blk lin e t)) /\
  (* a noise row sits circ rows lower in the tangent vector than in storage *)
  (forall j, (lin + circ * 4 <= j < d)%nat -> x j 0%nat = e (j - circ)%nat + m j 0%nat).

Lemma add_mean_noise_q central (pt : fmx) j : (lin + circ * 4 <= j < d)%nat ->
  add_mean (O:=O) Lin d dc central m pt j 0%nat = pt (j - circ)%nat 0%nat + m j 0%nat.
Proof.
  intros Hj. rewrite add_mean_noise by (unfold Lin, l_cw; simpl; lia). replace (d - dc)%nat with circ by lia. reflexivity.
Qed.

(* block t of the mean (+) pt: the mean quaternion itself for the central point, else the sigma quaternion *)
Lemma add_mean_block central (pt : fmx) t : (t < circ)%nat ->
  qraw (add_mean (O:=O) Lin d dc central m pt) (lin + t * 4) =
  if central then qbar t else qsum_one ROps (qbar t) (blk lin (fun j => pt j 0%nat) t).
Proof.
  intros Ht.
  rewrite (qraw_rows _ (lin + t * 4) _ (fun k Hk => add_mean_quat sq eg Lin eq_refl d dc central m pt t k Ht Hk ltac:(simpl; lia))).
  destruct central; [unfold qraw; now rewrite Nat.add_0_r|].
  set (qq := C03_Model.qsum (O:=O) _ _).
  assert (E : toQ qq = qsum_one ROps (qbar t) (blk lin (fun j => pt j 0%nat) t)).
  { unfold qq. etransitivity;
      [exact (qsum_is_C18 (quat_at (O:=O) (r:=d) m (lin + t * 4)) (rv_at (O:=O) (r:=dc) pt (lin + t * 3)))|].
    rewrite quat_at_raw by lia. rewrite rv_at_raw by lia. reflexivity. }
  rewrite <- E. destruct qq as [[[qa qb] qc'] qd]. reflexivity.
Qed.

Lemma add_mean_sigma_q (pt : fmx) :
  is_sigma_q (fun j => pt j 0%nat) (add_mean (O:=O) Lin d dc false m pt).
Proof.
  split; [|split].
  - intros j Hj. apply add_mean_lin; simpl; lia.
  - intros t Ht. exact (add_mean_block false pt t Ht).
  - intros j Hj. apply add_mean_noise_q; exact Hj.
Qed.

Lemma qsum_zero q : qsum_one ROps q V0 = q.
Proof.
  unfold qsum_one. rewrite exp_V0. apply qmul_1_l.
Qed.

Notation X0q := (sig0 sq eg Lin d dc m).
Notation Xpq := (sig_plus sq eg Lin d dc c m P).
Notation Xnq := (sig_minus sq eg Lin d dc c m P).

Lemma is_sigma_q_ext e e' x : (forall j, (j < dc)%nat -> e j = e' j) -> is_sigma_q e x -> is_sigma_q e' x.
Proof.
  intros E (H1 & H2 & H3). split; [|split].
  - intros j Hj. rewrite (H1 j Hj), E by lia. reflexivity.
  - intros t Ht. rewrite (H2 t Ht). unfold blk. rewrite !E by lia. reflexivity.
  - intros j Hj. rewrite (H3 j Hj), E by lia. reflexivity.
Qed.

Lemma X0q_sigma : is_sigma_q (fun _ => 0) X0q.
Proof.
  split; [|split].
  - intros j Hj. unfold sig0. rewrite add_mean_lin by (simpl; lia). reflexivity.
  - intros t Ht. change (blk lin (fun _ => 0) t) with V0. rewrite qsum_zero.
    exact (add_mean_block true _ t Ht).
  - intros j Hj. unfold sig0. rewrite add_mean_noise_q by exact Hj. reflexivity.
Qed.

Lemma Xpq_sigma k : (k < dc)%nat -> is_sigma_q (fun j => s * A j k) (Xpq k).
Proof.
  intros Hk. eapply is_sigma_q_ext; [|apply add_mean_sigma_q]. intros j Hj. now apply pert_plus_get.
Qed.

Lemma Xnq_sigma k : (k < dc)%nat -> is_sigma_q (fun j => - (s * A j k)) (Xnq k).
Proof.
  intros Hk. eapply is_sigma_q_ext; [|apply add_mean_sigma_q]. intros j Hj. now apply pert_minus_get.
Qed.

(* the code's difference operator recovers the offset on the rotation rows *)
Lemma vcomp_blk o e t k : (k < 3)%nat -> vcomp (blk o e t) k = e (o + t * 3 + k)%nat.
Proof.
  intros Hk. destruct k as [|[|[|k]]]; try lia; simpl; [now rewrite Nat.add_0_r | reflexivity | reflexivity].
Qed.

Lemma quat_index o n i : (o <= i)%nat -> (i < o + n * 4)%nat ->
  exists t k, (t < n)%nat /\ (k < 4)%nat /\ i = (o + t * 4 + k)%nat /\ ((i - o) / 4 = t)%nat /\ ((i - o) mod 4 = k)%nat.
Proof. apply block_index. lia. Qed.

Lemma input_offset_q e x i : is_sigma_q e x -> (forall t, (t < circ)%nat -> ok_rv (blk lin e t)) -> (lin <= i < dx)%nat ->
  offsets (O:=O) Lin (p:=d) dx x m i 0%nat = e i.
Proof.
  intros (S1 & S2 & S3) Hok [H1 Hi].
  destruct (block_index 3 lin circ i ltac:(lia) H1 ltac:(lia)) as (t & k & Ht & Hk & -> & _).
  etransitivity; [exact (offsets_rot sq eg Lin eq_refl d dx x m t k Ht Hk Hi)|]. change (l_lin Lin) with lin.
  rewrite !quat_at_raw by lia.
  rewrite (S2 t Ht), (diff_sum_one _ _ (mean_unit t Ht)).
  destruct (log_pm_exp _ (Hok t Ht)) as [-> _]. now apply vcomp_blk.
Qed.

Definition Yfq (x : fmx) : fmx := @madd O p 1 (@mmul O p d 1 Am x) b.
Definition mu_q (i : nat) : R := rsum d (fun j => Am i j * m j 0%nat) + b i 0%nat.
(* a tangent vector written on the storage rows (zero on the quaternion rows) *)
Definition es (e : nat -> R) (j : nat) : R :=
  if (j <? lin)%nat then e j else if (j <? lin + circ * 4)%nat then 0 else e (j - circ)%nat.
Definition qJ (e : nat -> R) (i : nat) : R := rsum dc (fun a => J i a * e a).

Hypothesis map_lin : forall i j, (i < olin)%nat -> (lin <= j)%nat -> (j < lin + circ * 4)%nat -> Am i j = 0.
Hypothesis map_quat : forall x t, (t < circ)%nat ->
  qraw (Yfq x) (olin + t * 4) = C18_Model.qmul ROps (C18_Model.qmul ROps (rl t) (qraw x (lin + t * 4))) (rr t).
Hypothesis tangent_lin : forall e i, (i < olin)%nat -> rsum d (fun j => Am i j * es e j) = qJ e i.
Hypothesis tangent_rot : forall e t k, (t < circ)%nat -> (k < 3)%nat ->
  qJ e (olin + t * 3 + k) = vcomp (rotv (rl t) (blk lin e t)) k.

Lemma Yq_lin e x i : is_sigma_q e x -> (i < olin)%nat -> Yfq x i 0%nat = mu_q i + qJ e i.
Proof.
  intros (S1 & S2 & S3) Hi. unfold Yfq. rewrite affine_get by lia. unfold mu_q. rewrite <- (tangent_lin e i Hi).
  rewrite (rsum_ext d (fun j => Am i j * x j 0%nat) (fun j => Am i j * m j 0%nat + Am i j * es e j)).
  - rewrite rsum_plus. lra.
  - intros j Hj. unfold es. destruct (Nat.ltb_spec j lin) as [H1|H1].
    + rewrite (S1 j H1). lra.
    + destruct (Nat.ltb_spec j (lin + circ * 4)) as [H2|H2].
      * rewrite (map_lin i j Hi H1 H2). lra.
      * rewrite (S3 j) by lia. lra.
Qed.

Definition qc (t : nat) : Q := C18_Model.qmul ROps (C18_Model.qmul ROps (rl t) (qbar t)) (rr t).

Lemma qc_unit t : (t < circ)%nat -> qnorm2 (qc t) = 1.
Proof. intros Ht. unfold qc. rewrite !qnorm2_mul, rl_unit, rr_unit, mean_unit by assumption. lra. Qed.

Lemma Yq_quat e x t : is_sigma_q e x -> (t < circ)%nat ->
  qraw (Yfq x) (olin + t * 4) = C18_Model.qmul ROps (rv_to_q ROps (rotv (rl t) (blk lin e t))) (qc t).
Proof.
  intros (S1 & S2 & S3) Ht. rewrite (map_quat x t Ht), (S2 t Ht). apply sandwich_sigma. now apply rl_unit.
Qed.

(* what the three kinds of sigma points contribute to output row i *)
Lemma qJ_zero i : qJ (fun _ => 0) i = 0.
Proof. exact (lin_img_zero dc J i). Qed.
Lemma qJ_plus k i : qJ (fun j => s * A j k) i = s * AmA sq dc dc P J i k.
Proof. apply lin_img_scal. Qed.
Lemma qJ_minus k i : qJ (fun j => - (s * A j k)) i = - (s * AmA sq dc dc P J i k).
Proof. rewrite <- qJ_plus. exact (lin_img_opp dc J (fun j => s * A j k) i). Qed.

Hypothesis small_rot : forall t k, (t < circ)%nat -> (k < dc)%nat -> ok_rv (blk lin (fun j => s * A j k) t).

Lemma small_rot_neg t k : (t < circ)%nat -> (k < dc)%nat -> ok_rv (blk lin (fun j => - (s * A j k)) t).
Proof. intros Ht Hk. apply (ok_rv_neg (blk lin (fun j => s * A j k) t)), small_rot; assumption. Qed.

Lemma in_block_q i : (lin <= i < dx)%nat ->
  sym_reads sq eg Lin d dc c m P (fun x => offsets (O:=O) Lin (p:=d) dx x m i 0%nat) (A i).
Proof.
  intros Hi. split; [apply (input_offset_q _ _ i X0q_sigma); [intros; left; reflexivity | exact Hi]|].
  intros k Hk. split.
  - apply (input_offset_q _ _ i (Xpq_sigma k Hk)); [intros t Ht; now apply small_rot | exact Hi].
  - apply (input_offset_q _ _ i (Xnq_sigma k Hk)); [intros t Ht; now apply small_rot_neg | exact Hi].
Qed.

Lemma lin_map_q i : (i < olin)%nat ->
  sym_reads sq eg Lin d dc c m P (fun x => Yfq x i 0%nat - mu_q i) (AmA sq dc dc P J i).
Proof.
  intros Hi. split; [rewrite (Yq_lin _ _ i X0q_sigma Hi), qJ_zero; lra|]. intros k Hk. split.
  - rewrite (Yq_lin _ _ i (Xpq_sigma k Hk) Hi), qJ_plus. unfold s. lra.
  - rewrite (Yq_lin _ _ i (Xnq_sigma k Hk) Hi), qJ_minus. unfold s. lra.
Qed.

Variables (w0 w0c wi : R).
Let wm := w0 :: repeat wi (2 * dc).
Let wc := w0c :: repeat wi (2 * dc).
Hypothesis w_sum : w0 + 2 * INR dc * wi = 1.
Hypothesis w_i : 2 * wi * c = 1.
Hypothesis dc_pos : (0 < dc)%nat.
Hypothesis resultant_q : forall t, (t < circ)%nat ->
  0 < w0 + 2 * wi * rsum dc (fun k => cos (n3 (blk lin (fun j => s * A j k) t))).

Lemma wi_pos : 0 < wi.
Proof. assert (0 < wi * c) by lra. nra. Qed.

Let Xs := sigma_comp (O:=O) Lin d dc c m P.
Let Ys := affine_cols (O:=O) (d:=d) (p:=p) Am b Xs.
Let ybar := out_mean (O:=O) Lout p wm Ys.

Lemma ybar_lin_q i : (i < olin)%nat -> ybar i 0%nat = mu_q i.
Proof.
  intros Hi. apply (sym_mean_lin sq eg Lin Lout d dc dx p pc dc c m P Am b J w0 wi w_sum);
    [lia | simpl; lia | simpl; lia | exact lin_map_q | exact Hi].
Qed.

(* the output mean quaternion of block t, as the eigenvector oracle returned it *)
Definition qs_out (t : nat) : list (C03_Model.quat O) := map (fun y => quat_at (O:=O) (r:=p) y (olin + t * 4)) Ys.
Definition mquat (t : nat) : Q :=
  let M := mean_quaternion (O:=O) wm (qs_out t) in
  mkQR (colget (O:=O) (r:=4) M 0) (colget (O:=O) (r:=4) M 1) (colget (O:=O) (r:=4) M 2) (colget (O:=O) (r:=4) M 3).

Lemma ybar_quat t : (t < circ)%nat -> qraw ybar (olin + t * 4) = mquat t.
Proof.
  intros Ht. apply (qraw_rows ybar _ (fun k => colget (O:=O) (r:=4) (mean_quaternion (O:=O) wm (qs_out t)) k)).
  intros k Hk. apply (out_mean_quat sq eg Lout eq_refl p wm Ys t k Ht Hk). simpl. lia.
Qed.

(* the eigen-solver contract, per block, on the matrix the model hands to the oracle *)
Hypothesis eig_contract : forall t, (t < circ)%nat ->
  max_eig_contract (fun i j => fget 4 4 (quat_outer (O:=O) wm (qs_out t)) i j) (mquat t).

Definition vrot (t k : nat) : V := rotv (rl t) (blk lin (fun j => s * A j k) t).

Lemma osum_lsumR l i j : osum l i j = lsumR (fun pq : R * Q => fst pq * qcomp ROps (snd pq) i * qcomp ROps (snd pq) j) l.
Proof. induction l as [|x l IH]; simpl; [reflexivity|]. now rewrite IH. Qed.

Lemma quat_outer_entry ws (qs : list (C03_Model.quat O)) i j : (i < 4)%nat -> (j < 4)%nat ->
  fget 4 4 (quat_outer (O:=O) ws qs) i j = outer_sum ROps ws (map toQ qs) i j.
Proof.
  intros Hi Hj. unfold quat_outer. rewrite fold_add_get. rewrite outer_sum_R, osum_lsumR, combine_map_r, lsumR_map.
  simpl fget at 1. unfold fget at 1. rewrite inb_true by assumption. rewrite Rplus_0_l.
  apply lsumR_ext. intros [w q] _. cbn [fst snd].
  rewrite <- !(q_nth_qcomp q). simpl. unfold fget, fbuild. rewrite !inb_true by (assumption || lia). simpl.
  (* the left side is written with the instance's sadd / smul: + and * only up to conversion, which ring does not see *)
  assert (E : forall X Y : R, w * (0 + X * Y) = w * X * Y) by (intros; lra). apply E.
Qed.

(* the output quaternions of block t are a symmetric set around qc t: offsets exp(vrot t k / 2) and their conjugates *)
Definition al_out (t : nat) : list Q := map (fun k => rv_to_q ROps (vrot t k)) (seq 0 dc).

Lemma qs_out_sym t : (t < circ)%nat -> map toQ (qs_out t) = sym_quats (qc t) (al_out t).
Proof.
  intros Ht. unfold qs_out, sym_quats, al_out, Ys, affine_cols, Xs. rewrite !map_map, sigma_comp_eq.
  cbn [map]. rewrite map_app, !map_map.
  assert (Ho : (olin + t * 4 + 3 < p)%nat) by lia.
  f_equal; [|f_equal].
  - rewrite quat_at_raw by exact Ho. etransitivity; [exact (Yq_quat _ _ t X0q_sigma Ht)|].
    change (blk lin (fun _ => 0) t) with V0. rewrite rotv_V0. apply qsum_zero.
  - apply map_seq_ext. intros k Hk.
    rewrite quat_at_raw by exact Ho. exact (Yq_quat _ _ t (Xpq_sigma k Hk) Ht).
  - apply map_seq_ext. intros k Hk.
    rewrite quat_at_raw by exact Ho. etransitivity; [exact (Yq_quat _ _ t (Xnq_sigma k Hk) Ht)|].
    change (blk lin (fun j => - (s * A j k)) t) with (vneg (blk lin (fun j => s * A j k) t)).
    rewrite rotv_neg, exp_neg. reflexivity.
Qed.

Lemma wi_all_pos : Forall (fun w => 0 < w) (repeat wi dc).
Proof. pose proof wi_pos as Hw. clear - Hw. induction dc; simpl; constructor; assumption. Qed.

Lemma resultant_coef t : (t < circ)%nat ->
  2 * vcoef (repeat wi dc) (al_out t) < w0 + 2 * sym_coef (repeat wi dc) (al_out t).
Proof.
  intros Ht. unfold al_out. rewrite <- (map_map (vrot t) (rv_to_q ROps)).
  (* C18: the margin is the weighted sum of the rotation cosines, and a rotation keeps the angle *)
  pose proof (sigma_margin (repeat wi dc) (map (vrot t) (seq 0 dc))) as E. rewrite wcos_repeat in E.
  assert (Hle : rsum dc (fun k => cos (n3 (blk lin (fun j => s * A j k) t))) <= rsum dc (fun k => rcos (vrot t k))).
  { apply rsum_le. intros k _. rewrite <- (n3_rotv (rl t)) by (now apply rl_unit). apply cos_le_rcos. }
  pose proof (resultant_q t Ht) as Hr. pose proof wi_pos as Hw. nra.
Qed.

Lemma outer_matrix_sym t i j : (t < circ)%nat -> (i < 4)%nat -> (j < 4)%nat ->
  fget 4 4 (quat_outer (O:=O) wm (qs_out t)) i j =
  outer_sum ROps (sym_weights w0 (repeat wi dc)) (sym_quats (qc t) (al_out t)) i j.
Proof.
  intros Ht Hi Hj. rewrite quat_outer_entry by assumption. rewrite (qs_out_sym t Ht).
  unfold wm, sym_weights. replace (2 * dc)%nat with (dc + dc)%nat by lia. rewrite repeat_app. reflexivity.
Qed.

Lemma al_out_len t : length (repeat wi dc) = length (al_out t).
Proof. unfold al_out. now rewrite repeat_length, map_length, seq_length. Qed.

(* an oracle that returns the centre meets its contract: the premise eig_contract is satisfiable *)
Lemma oracle_centre_ok t : (t < circ)%nat -> mquat t = qc t ->
  max_eig_contract (fun i j => fget 4 4 (quat_outer (O:=O) wm (qs_out t)) i j) (mquat t).
Proof.
  intros Ht E. rewrite E.
  apply (max_eig_contract_ext4 (outer_sum ROps (sym_weights w0 (repeat wi dc)) (sym_quats (qc t) (al_out t)))).
  - intros i j Hi Hj. symmetry. now apply outer_matrix_sym.
  - apply sym_centre_contract; [now apply qc_unit | apply al_out_len | apply wi_all_pos | now apply resultant_coef].
Qed.

Lemma mquat_pm t : (t < circ)%nat -> mquat t = qc t \/ mquat t = qneg (qc t).
Proof.
  intros Ht.
  apply (centre_dominant (fun i j => fget 4 4 (quat_outer (O:=O) wm (qs_out t)) i j) (qc t) (mquat t) w0 (repeat wi dc) (al_out t)).
  - now apply qc_unit.
  - apply al_out_len.
  - apply wi_all_pos.
  - now apply resultant_coef.
  - intros i j Hi Hj. now apply outer_matrix_sym.
  - now apply eig_contract.
Qed.

(* the output offsets on the rotation rows are the propagated tangent offsets *)
Lemma output_offset_q e x i : is_sigma_q e x -> (forall t, (t < circ)%nat -> ok_rv (blk lin e t)) -> (olin <= i < pc)%nat ->
  offsets (O:=O) Lout (p:=p) pc (Yfq x) ybar i 0%nat = qJ e i.
Proof.
  intros Hx Hok [H1 Hi].
  destruct (block_index 3 olin circ i ltac:(lia) H1 ltac:(lia)) as (t & k & Ht & Hk & -> & _).
  etransitivity; [exact (offsets_rot sq eg Lout eq_refl p pc (Yfq x) ybar t k Ht Hk Hi)|]. change (l_lin Lout) with olin.
  rewrite !quat_at_raw by lia. rewrite (Yq_quat e x t Hx Ht), (ybar_quat t Ht).
  set (v := rotv (rl t) (blk lin e t)).
  assert (Hv : ok_rv v) by (apply ok_rv_rotv; [now apply rl_unit | now apply Hok]).
  destruct (log_pm_exp v Hv) as [L1 L2]. destruct (qdiff_pm (rv_to_q ROps v) (qc t) (qc_unit t Ht)) as [D1 D2].
  rewrite (tangent_rot e t k Ht Hk). fold v.
  destruct (mquat_pm t Ht) as [-> | ->]; [rewrite D1, L1 | rewrite D2, L2]; reflexivity.
Qed.

Lemma out_block_q i : (olin <= i < pc)%nat ->
  sym_reads sq eg Lin d dc c m P (fun x => offsets (O:=O) Lout (p:=p) pc (Yfq x) ybar i 0%nat) (AmA sq dc dc P J i).
Proof.
  intros Hi. split.
  - rewrite (output_offset_q _ _ i X0q_sigma); [apply qJ_zero | intros; left; reflexivity | exact Hi].
  - intros k Hk. split.
    + rewrite (output_offset_q _ _ i (Xpq_sigma k Hk)); [apply qJ_plus | intros t Ht; now apply small_rot | exact Hi].
    + rewrite (output_offset_q _ _ i (Xnq_sigma k Hk)); [apply qJ_minus | intros t Ht; now apply small_rot_neg | exact Hi].
Qed.

Let u := ut_component (O:=O) Lin Lout (d:=d) (p:=p) pc dx (mkUtw (O:=O) wm wc c) m Xs Ys.

Lemma comp_mean_lin_q i : (i < olin)%nat -> colget (O:=O) (r:=p) (uc_mean u) i = mu_q i.
Proof. intros Hi. rewrite colget_entry by lia. now apply ybar_lin_q. Qed.

Lemma comp_mean_quat_q t : (t < circ)%nat ->
  qraw (uc_mean u) (olin + t * 4) = qc t \/ qraw (uc_mean u) (olin + t * 4) = qneg (qc t).
Proof. intros Ht. change (uc_mean u) with ybar. rewrite (ybar_quat t Ht). now apply mquat_pm. Qed.

Lemma comp_cov_q i j : (i < pc)%nat -> (j < pc)%nat -> @mget O pc pc (uc_cov u) i j = cov_image dc P J i j.
Proof.
  apply (sym_comp_cov sq eg Lin Lout d dc dx p pc dc c m P Am b J w0 w0c wi c_pos w_sum w_i factor);
    [lia | simpl; lia | simpl; lia | exact lin_map_q | exact out_block_q].
Qed.

Lemma comp_cross_q i j : (i < dx)%nat -> (j < pc)%nat -> @mget O dx pc (uc_cross u) i j = cross_image dc P J i j.
Proof.
  apply (sym_comp_cross sq eg Lin Lout d dc dx p pc dc c m P Am b J w0 w0c wi c_pos w_sum w_i factor);
    [lia | simpl; lia | simpl; lia | exact lin_map_q | exact in_block_q | exact out_block_q].
Qed.
End QuatComponent.

(* the map: unit quaternions on both sides of every quaternion block, linear rows that do not read the
   quaternion rows, and J the matrix of the tangent map *)
Definition quat_map_ok (sq eg : nat -> fmx -> fmx) (lin circ olin d dc p : nat) (Am b J : fmx) (rl rr : nat -> Q) : Prop :=
  (forall t, (t < circ)%nat -> qnorm2 (rl t) = 1) /\
  (forall t, (t < circ)%nat -> qnorm2 (rr t) = 1) /\
  (forall i j, (i < olin)%nat -> (lin <= j)%nat -> (j < lin + circ * 4)%nat -> Am i j = 0) /\
  (forall x t, (t < circ)%nat ->
     qraw (Yfq sq eg d p Am b x) (olin + t * 4) =
     C18_Model.qmul ROps (C18_Model.qmul ROps (rl t) (qraw x (lin + t * 4))) (rr t)) /\
  (forall e i, (i < olin)%nat -> rsum d (fun j => Am i j * es lin circ e j) = qJ dc J e i) /\
  (forall e t k, (t < circ)%nat -> (k < 3)%nat -> qJ dc J e (olin + t * 3 + k) = vcomp (rotv (rl t) (blk lin e t)) k).

(* one component: factor contract, unit mean quaternions, every rotation-vector block of every sigma offset
   readable by the exp / log pair (zero, or outside the cut-off zone and within a half turn), positive
   weighted resultant per block, eigen-solver contract per block *)
Definition quat_comp_ok (sq eg : nat -> fmx -> fmx) (lin circ noise olin d dc p : nat) (c w0 wi : R) (Am b : fmx)
           (mc : fmx * fmx) : Prop :=
  factor_ok sq dc (snd mc) /\
  (forall t, (t < circ)%nat -> qnorm2 (qraw (fst mc) (lin + t * 4)) = 1) /\
  (forall t k, (t < circ)%nat -> (k < dc)%nat -> ok_rv (blk lin (fun j => sqrt c * sq dc (snd mc) j k) t)) /\
  (forall t, (t < circ)%nat ->
     0 < w0 + 2 * wi * rsum dc (fun k => cos (n3 (blk lin (fun j => sqrt c * sq dc (snd mc) j k) t)))) /\
  (forall t, (t < circ)%nat ->
     max_eig_contract
       (fun i j => fget 4 4 (quat_outer (O:=RF sq eg) (w0 :: repeat wi (2 * dc))
                               (qs_out sq eg lin circ noise olin d dc p c (fst mc) (snd mc) Am b t)) i j)
       (mquat sq eg lin circ noise olin d dc p c (fst mc) (snd mc) Am b w0 wi t)).

Section QuatMixture.
Variables sq eg : nat -> fmx -> fmx.
Notation O := (RF sq eg).
Variables lin circ noise olin : nat.
Let Lin := mkLayout lin circ true noise.
Let Lout := mkLayout olin circ true 0.
Let d := l_dim Lin.
Let dc := l_dcov Lin.
Let dx := l_dx Lin.
Let p := l_dim Lout.
Let pc := l_dcov Lout.
Variables alpha beta kappa : R.
Let w := ut_weights (O:=O) dc alpha beta kappa.
Let c := w_c w.
Let w0 := nth 0 (w_mean w) 0.
Let wi := nth 1 (w_mean w) 0.
Variables Am b J : fmx.
Variables rl rr : nat -> Q.
Variable comps : list (fmx * fmx).
Let k := length comps.

Hypothesis dc_pos : (0 < dc)%nat.
Hypothesis c_pos : 0 < c.
Hypothesis map_ok : quat_map_ok sq eg lin circ olin d dc p Am b J rl rr.
Hypothesis comps_ok : forall mc, In mc comps -> quat_comp_ok sq eg lin circ noise olin d dc p c w0 wi Am b mc.

(* what the property states about one transformed component *)
Definition quat_image (N : fmx) (mc : fmx * fmx) (u : ut_comp O p pc dx) : Prop :=
  (forall i, (i < olin)%nat -> colget (O:=O) (r:=p) (uc_mean u) i = mu_q d (fst mc) Am b i) /\
  (forall t, (t < circ)%nat ->
     qraw (uc_mean u) (olin + t * 4) = qc lin (fst mc) rl rr t \/
     qraw (uc_mean u) (olin + t * 4) = qneg (qc lin (fst mc) rl rr t)) /\
  (forall i j, (i < pc)%nat -> (j < pc)%nat -> @mget O pc pc (uc_cov u) i j = cov_image dc (snd mc) J i j + N i j) /\
  (forall i j, (i < dx)%nat -> (j < pc)%nat -> @mget O dx pc (uc_cross u) i j = cross_image dc (snd mc) J i j).

Let X := sigma_points (O:=O) Lin d dc c comps.
Let r := ut_core (O:=O) Lin Lout (d:=d) (dc:=dc) (p:=p) pc dx w comps X (affine_cols (O:=O) (d:=d) (p:=p) Am b X).

Lemma dims_q : d = (lin + circ * 4 + noise)%nat /\ dc = (lin + circ * 3 + noise)%nat /\ dx = (lin + circ * 3)%nat /\
               p = (olin + circ * 4)%nat /\ pc = (olin + circ * 3)%nat.
Proof. unfold d, dc, dx, p, pc, l_dim, l_dcov, l_dx, l_cw, l_tw, Lin, Lout. simpl. lia. Qed.

Lemma r_image_q i u0 mc0 : (i < k)%nat -> quat_image (fun _ _ => 0) (nth i comps mc0) (nth i (ur_comps r) u0).
Proof.
  intros Hi. destruct dims_q as (E1 & E2 & E3 & E4 & E5). destruct (ut_weights_R_sums sq eg dc alpha beta kappa dc_pos (Rgt_not_eq _ _ c_pos)) as [W1 W2].
  assert (Hin : In (nth i comps mc0) comps) by (apply nth_In; exact Hi).
  destruct (comps_ok _ Hin) as (HF & HU & HS & HR & HE).
  destruct map_ok as (M1 & M2 & M3 & M4 & M5 & M6).
  unfold r, X, c. rewrite (core_comp sq eg Lin Lout d dc dx p pc w Am b comps i u0 mc0 Hi). fold c.
  rewrite (ut_weights_R_form sq eg dc alpha beta kappa dc_pos : w = _).
  split; [|split; [|split]].
  - intros i' Hi'. eapply comp_mean_lin_q with (J := J); eassumption.
  - intros t Ht. eapply comp_mean_quat_q; eassumption.
  - intros i' j' Hi' Hj'. rewrite Rplus_0_r. eapply comp_cov_q with (rl := rl) (rr := rr); eassumption.
  - intros i' j' Hi' Hj'. eapply comp_cross_q with (rl := rl) (rr := rr); eassumption.
Qed.

Lemma noise_image_q N i u0 mc0 : (i < k)%nat ->
  quat_image N (nth i comps mc0) (nth i (ur_comps (add_noise_cov (O:=O) N r)) u0).
Proof.
  intros Hi. destruct (r_image_q i u0 mc0 Hi) as (M1 & M1' & M2 & M3).
  destruct (core_noise sq eg Lin Lout d dc dx p pc w Am b comps N i u0 Hi) as (N1 & N3 & N2).
  fold c X r in N1, N2, N3.
  split; [|split; [|split]]; [rewrite N1; exact M1 | rewrite N1; exact M1' | | rewrite N3; exact M3].
  intros i' j' Hi' Hj'. rewrite (N2 i' j' Hi' Hj'), (M2 i' j' Hi' Hj'), Rplus_0_r. reflexivity.
Qed.

End QuatMixture.
