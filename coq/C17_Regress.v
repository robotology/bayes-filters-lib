(* C17_Regress.v — the transcription of HistoryBuffer::setHistorySize BEFORE
   fix 3576481 (Section Old) and, after it, of directional_mean's single-column branch
   before dee9c81, kept so that a reintroduction of either defect is recognised.
   Not part of any property theorem, not extracted.

   C++ (snapshot 00682bb):
     if (tmp < window_ && tmp < history_buffer_.size())
         for (unsigned int i = 0; i < (window_ - tmp); ++i) history_buffer_.pop_back();
   (pop_back on an empty deque is undefined behaviour; removelast [] = [] is the
   most benign reading.) *)
Require Import ZArith List Lia.
Require Import BFL.C17_Model.
Import ListNotations.

Section Old.
Variable A : Type.

Fixpoint pop_n (k : nat) (b : list A) : list A :=
  match k with O => b | S k' => pop_n k' (removelast b) end.

Definition old_hist_set_size (w : Z) (h : hist A) : hist A :=
  if (w =? Z.of_nat (window h))%Z then h
  else let tmp := clamp_window w in
       mkHist tmp (if (Nat.ltb tmp (window h) && Nat.ltb tmp (length (buf h)))%bool
                   then pop_n (window h - tmp) (buf h) else buf h).

(* 3 stored, window 5 -> 2: nothing is left, although the 2 most recent should be kept *)
Lemma old_shrink_keeps_recent_refuted (a b c : A) :
  exists h w, length (buf h) <= window h /\ 2 <= window h <= 30 /\
    buf (old_hist_set_size w h) <> firstn (window (old_hist_set_size w h)) (buf h).
Proof.
  exists (mkHist 5 [a; b; c]), 2%Z. simpl. repeat split; try lia. discriminate.
Qed.

(* the repaired code on the same input *)
Lemma new_shrink_on_the_witness (a b c : A) :
  buf (hist_set_size 2 (mkHist 5 [a; b; c])) = [a; b].
Proof. reflexivity. Qed.
End Old.

(* directional_mean's single-column branch BEFORE /repo dee9c81: the one
   column was returned as it was.  EstimatesExtraction::mean (one particle)
   and every windowed variant with exactly one stored estimate therefore
   returned circular components unwrapped: congruent modulo 2 PI, but outside
   (-PI, PI] whenever the input was.  Kept so that a reintroduction is
   recognised (the check's corpus has single particles at 7.0 / -9.5 rad). *)
Require Import Reals Lra.
Require Import BFL.Ops BFL.C19_ROps BFL.C19_Model.
Local Open Scope R_scope.

Definition old_dir_mean (S : SOps) (cols : nat) (a : list (list (T S))) (w : list (T S)) : list (T S) :=
  if Nat.eqb cols 1 then map (fun row => nth 0 row (s0 S)) a
  else map (fun row => mean_row S row w) a.

(* the old code returns one particle as it is ... *)
Lemma old_single_column_as_is (a : R) (w : list R) : old_dir_mean ROps 1 [[a]] w = [a].
Proof. reflexivity. Qed.

(* ... hence "every circular output lies in (-PI, PI]" was false of the old code *)
Lemma old_circular_in_range_refuted :
  exists (a : R) (w : list R), ~ (- PI < nth 0 (old_dir_mean ROps 1 [[a]] w) 0 <= PI).
Proof.
  exists 7, [1]. rewrite old_single_column_as_is. cbn [nth]. intros [_ H].
  pose proof PI_4 as P4. lra.
Qed.
