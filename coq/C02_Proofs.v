(* C02_Proofs.v — the Kalman prediction model: the step in one equation (any instance), then
   its fields and the spec function at the MathComp instance. *)
Require Import ZArith List Bool Lia.
Require Import BFL.Ops BFL.ListFacts BFL.C02_Model.
From mathcomp Require Import ssreflect ssrfun ssrbool eqtype ssrnat seq choice fintype bigop order ssralg ssrnum zmodp matrix mxalgebra.
Require Import BFL.MxOps BFL.LinAlg.
Set Implicit Arguments.
Unset Strict Implicit.
Unset Printing Implicit Defensive.
Import Order.Theory GRing.Theory Num.Theory.
Local Open Scope ring_scope.

(* GaussianPrediction::predict in one equation, at every instance: either skip flag returns the
   input object; otherwise the fields are written one by one *)
Lemma gaussian_predictE (O : MatOps) n k (Ft Q : M O n n) exo sp ss se (prev old : gmix O n k) :
  gaussian_predict Ft Q exo sp ss se prev old =
  if sp || ss then prev
  else mkGmix (lin_propagate Ft exo false se (gm_means prev) (gm_means old))
              (overwrite_prefix (List.map (kf_predict_cov Ft Q) (gm_covs prev)) (gm_covs old))
              (gm_weights old) (gm_layout old).
Proof. by case: sp; case: ss. Qed.

Section KFP.
Variable F : realFieldType.
Variable tr : Transc F.
Variable sq : forall n, 'M[F]_n -> 'M[F]_n.
Variable eg : forall n, 'M[F]_n -> 'M[F]_(n,1).
Let O := MxMat tr sq eg.

(* the structural column accessor of Ops.v reads 0 out of range (in range it is MathComp's col: MxOps.mcol_ord) *)
Lemma mcol_out n k (A : 'M[F]_(n,k)) (i : nat) : (k <= i)%N ->
  (mcol (O:=O) i A : 'cV[F]_n) = 0.
Proof. by move=> ki; apply/matrixP=> r c; rewrite /mcol /= !mxE mx_get_out_c. Qed.

Lemma col_mulmx n p k (A : 'M[F]_(n,p)) (X : 'M[F]_(p,k)) (j : 'I_k) :
  col j (A *m X) = A *m col j X.
Proof.
by apply/matrixP=> r c; rewrite !mxE; apply: eq_bigr => l _; rewrite !mxE.
Qed.

Lemma mcol_mul n p k (A : 'M[F]_(n,p)) (X : 'M[F]_(p,k)) (i : nat) :
  (mcol (O:=O) i (A *m X : 'M[F]_(n,k)) : 'cV[F]_n) = A *m (mcol (O:=O) i X : 'cV[F]_p).
Proof.
case: (ltnP i k) => [ik|ki]; first by rewrite !(mcol_ord tr sq eg _ ik) col_mulmx.
by rewrite !mcol_out // mulmx0.
Qed.

Lemma mcol_add n k (A B : 'M[F]_(n,k)) (i : nat) :
  (mcol (O:=O) i (A + B : 'M[F]_(n,k)) : 'cV[F]_n) = mcol (O:=O) i A + mcol (O:=O) i B.
Proof.
case: (ltnP i k) => [ik|ki]; first by rewrite !(mcol_ord tr sq eg _ ik) linearD.
by rewrite !mcol_out // addr0.
Qed.

Variables (n k : nat).
Variables (Ft Q : 'M[F]_n).
Implicit Types (prev old : gmix O n k) (u : 'M[F]_(n,k) -> 'M[F]_(n,k)).

Lemma kfp_means_exo u prev old :
  (gm_means (kf_predict (O:=O) Ft Q (Some u) prev old) : 'M[F]_(n,k)) =
  Ft *m gm_means prev + u (gm_means prev).
Proof. by []. Qed.

Lemma kfp_means_noexo prev old :
  (gm_means (kf_predict (O:=O) Ft Q None prev old) : 'M[F]_(n,k)) = Ft *m gm_means prev.
Proof. by []. Qed.

Lemma kfp_mean_i_exo u prev old (i : nat) :
  (gm_mean_i (kf_predict (O:=O) Ft Q (Some u) prev old) i : 'cV[F]_n) =
  Ft *m gm_mean_i prev i + mcol (O:=O) i (u (gm_means prev)).
Proof. by rewrite /gm_mean_i kfp_means_exo mcol_add mcol_mul. Qed.

Lemma kfp_mean_i_noexo prev old (i : nat) :
  (gm_mean_i (kf_predict (O:=O) Ft Q None prev old) i : 'cV[F]_n) = Ft *m gm_mean_i prev i.
Proof. by rewrite /gm_mean_i kfp_means_noexo mcol_mul. Qed.

(* the spec-level function the violation search evaluates is the same formula *)
Lemma kfp_mean_i_is_spec u prev old (i : nat) :
  gm_mean_i (kf_predict (O:=O) Ft Q (Some u) prev old) i =
  spec_mean (O:=O) Ft (mcol (O:=O) i (u (gm_means prev))) (gm_mean_i prev i).
Proof. exact: kfp_mean_i_exo. Qed.

(* overwrite_prefix: the covariance loop writes the first (length new) slots only *)
Lemma overwrite_prefix_nth1 A (new old : list A) i d :
  (i < length new)%coq_nat -> List.nth i (overwrite_prefix new old) d = List.nth i new d.
Proof. by move=> h; rewrite /overwrite_prefix app_nth1. Qed.

Lemma overwrite_prefix_nth2 A (new old : list A) i d :
  (length new <= i)%coq_nat -> List.nth i (overwrite_prefix new old) d = List.nth i old d.
Proof.
rewrite /overwrite_prefix; elim: new old i => [|a new IH] old i //=.
case: i => [|i] h; first by inversion h.
case: old => [|b old] /=.
  by rewrite app_nil_r nth_overflow //; lia.
by apply: IH; lia.
Qed.

Lemma overwrite_prefix_full A (new old : list A) :
  (length old <= length new)%coq_nat -> overwrite_prefix new old = new.
Proof. by move=> h; rewrite /overwrite_prefix skipn_all2 // app_nil_r. Qed.

Lemma overwrite_prefix_length A (new old : list A) :
  (length new <= length old)%coq_nat -> length (overwrite_prefix new old) = length old.
Proof.
move=> h; rewrite /overwrite_prefix app_length skipn_length.
by rewrite -Minus.le_plus_minus.
Qed.

Lemma kfp_covs exo prev old :
  gm_covs (kf_predict (O:=O) Ft Q exo prev old) =
  overwrite_prefix (List.map (kf_predict_cov (O:=O) Ft Q) (gm_covs prev)) (gm_covs old).
Proof. by []. Qed.

Lemma kfp_cov_i exo prev old (i : nat) d :
  (i < length (gm_covs prev))%coq_nat ->
  (List.nth i (gm_covs (kf_predict (O:=O) Ft Q exo prev old)) d : 'M[F]_n) =
  Ft *m List.nth i (gm_covs prev) d *m Ft^T + Q.
Proof.
move=> h; rewrite kfp_covs overwrite_prefix_nth1 ?map_length //.
by rewrite (nth_map_in _ _ _ _ d).
Qed.

Lemma kfp_cov_psd (P : 'M[F]_n) : psd P -> psd Q ->
  psd (kf_predict_cov (O:=O) Ft Q P : 'M[F]_n).
Proof. by move=> pP pQ; apply: psd_add => //; exact: psd_congr. Qed.

Lemma kfp_cov_count exo prev old :
  length (gm_covs old) = length (gm_covs prev) ->
  length (gm_covs (kf_predict (O:=O) Ft Q exo prev old)) = length (gm_covs prev).
Proof.
move=> e; rewrite kfp_covs overwrite_prefix_length ?map_length ?e //.
Qed.

Lemma kfp_exo_skipped_is_noexo u sp ss prev old :
  gaussian_predict (O:=O) Ft Q (Some u) sp ss true prev old =
  gaussian_predict (O:=O) Ft Q None sp ss true prev old.
Proof. by rewrite !gaussian_predictE; case: (sp || ss). Qed.

Lemma gl_same_shapeP (a b : glayout) :
  gl_same_shape a b ->
  [/\ gl_components a = gl_components b, gl_dim a = gl_dim b & gl_dim_cov a = gl_dim_cov b].
Proof.
rewrite /gl_same_shape => /andP [/andP [h1 h2] h3].
by split; apply/PeanoNat.Nat.eqb_eq.
Qed.

Lemma mcol_const1 (i : nat) : (i < k)%N ->
  (mcol (O:=O) i (mconst O 1 k (1 : F)) : 'M[F]_(1,1)) = 1%:M.
Proof.
move=> ik; apply/matrixP=> r c; rewrite /mcol /mconst /= !mxE.
by rewrite mx_get_build // [r]ord1 [c]ord1 eqxx.
Qed.

Lemma mcol_affine_exo (B : 'M[F]_n) (c : 'cV[F]_n) (X : 'M[F]_(n,k)) (i : nat) : (i < k)%N ->
  (mcol (O:=O) i (affine_exo (O:=O) B c X) : 'cV[F]_n) = B *m mcol (O:=O) i X + c.
Proof.
move=> ik; rewrite /affine_exo.
rewrite [LHS](mcol_add (B *m X) (c *m (mconst O 1 k (1 : F) : 'M[F]_(1,k)))) !mcol_mul.
by rewrite mcol_const1 // mulmx1.
Qed.

Lemma kf_spec_length e (means : 'M[F]_(n,k)) (covs : list 'M[F]_n) :
  length (kf_spec (O:=O) Ft Q e means covs) = length covs.
Proof. by rewrite /kf_spec map_length combine_length seq_length PeanoNat.Nat.min_id. Qed.

Lemma kf_spec_nth e (means : 'M[F]_(n,k)) (covs : list 'M[F]_n) (i : nat) dm dc :
  (i < length covs)%coq_nat ->
  List.nth i (kf_spec (O:=O) Ft Q e means covs) (dm, dc) =
  ((match e with
    | Some (B, c) => Ft *m mcol (O:=O) i means + (B *m mcol (O:=O) i means + c)
    | None => Ft *m mcol (O:=O) i means + 0
    end : 'cV[F]_n),
   (Ft *m List.nth i covs dc *m Ft^T + Q : 'M[F]_n)).
Proof.
move=> h; rewrite /kf_spec (nth_map_in _ _ _ _ (0%N, dc)); last by rewrite combine_length seq_length PeanoNat.Nat.min_id.
rewrite combine_nth ?seq_length // seq_nth // /= /spec_mean /kf_predict_cov /=.
by case: e => [[B c]|].
Qed.

End KFP.

Section KFS.
Variable F : realFieldType.
Variable tr : Transc F.
Variable sq : forall n, 'M[F]_n -> 'M[F]_n.
Variable eg : forall n, 'M[F]_n -> 'M[F]_(n,1).
Let O := MxMat tr sq eg.
Implicit Types (c : kf_call O) (calls : list (kf_call O)).

Lemma kf_seq_length calls : length (kf_predict_seq calls) = length calls.
Proof. by rewrite /kf_predict_seq map_length. Qed.

End KFS.
