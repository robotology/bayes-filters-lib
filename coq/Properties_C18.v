(* Properties_C18.v — property C18: the quaternion utilities of utils.h form a
   consistent exponential/logarithm pair on rotations.  The lemmas about the two
   conversions, the Hamilton product and the accumulated matrix are in C18_Proofs and
   C18_Mean; the labels (a), (b), (c) on the mean theorems are those of the head of C18_Mean.v.
   The model functions (q_to_rv = logarithm,
   rv_to_q = exponential, qsum_one/qsum, qdiff_one/qdiff, qmean, outer_sum of
   C18_Model) are the ones extracted and run against the library; here they are
   read at the Coq-reals instance ROps.
   cut = 1e-4 (the code's constant); n3 = Euclidean norm of a 3-vector;
   qnorm2 = squared norm of a quaternion; vdist = Euclidean distance. *)
Require Import ZArith Reals Lra List Permutation.
Require Import BFL.Ops BFL.C19_ROps BFL.C18_Model BFL.C18_Proofs BFL.C18_Mean.
Import ListNotations.
Local Open Scope R_scope.

Theorem C18_exp_unit (r : V) : qnorm2 (rv_to_q ROps r) = 1.
Proof. exact (exp_unit r). Qed.

(* log after exp: exact outside the cut-off zone ... *)
Theorem C18_log_exp (r : V) : cut < sin (n3 r / 2) -> n3 r <= PI -> q_to_rv ROps (rv_to_q ROps r) = r.
Proof. exact (log_exp r). Qed.

(* ... and for every |r| <= PI either exact, or 0 with |r| <= 2 asin(1e-4) *)
Theorem C18_log_exp_dichotomy (r : V) : n3 r <= PI ->
  (cut < sin (n3 r / 2) /\ q_to_rv ROps (rv_to_q ROps r) = r) \/
  (sin (n3 r / 2) <= cut /\ n3 r <= 2 * asin cut /\ q_to_rv ROps (rv_to_q ROps r) = V0).
Proof. exact (log_exp_cases r). Qed.

Theorem C18_log_exp_error_bound (r : V) : n3 r <= PI ->
  vdist (q_to_rv ROps (rv_to_q ROps r)) r <= 2 * asin cut.
Proof. exact (log_exp_error_bound r). Qed.

(* the true bound is strictly above the property's 2e-4, by at most 4e-13 *)
Theorem C18_true_bound_exceeds_2e_4 : 2 / 10000 < 2 * asin cut.
Proof. pose proof cut_lt_asin. unfold cut in *. lra. Qed.

Theorem C18_true_bound_numeric : 2 * asin cut <= 2 / 10000 + 4 / 10 ^ 13.
Proof.
  set (y := 1 / 10000 + 2 / 10 ^ 13).
  assert (Hy : 0 < y < 1) by (unfold y; lra).
  pose proof PI2_1 as Hp. unfold PI2 in Hp. pose proof PI_RGT_0.
  assert (Hlb : cut <= sin y).
  { pose proof (sin_ge_cubic y) as L. unfold cut, y in *. lra. }
  pose proof (asin_bound cut) as [A1 A2].
  assert (asin cut <= y); [|unfold y in *; lra].
  apply sin_incr_0; try lra. now rewrite sin_asin by apply cut_range.
Qed.

(* so the property's literal "at most 2e-4" is false of the faithful model at |r| = 2 asin(1e-4) *)
Theorem C18_bound_2e_4_refuted : exists r : V, n3 r <= PI /\ 2 / 10000 < vdist (q_to_rv ROps (rv_to_q ROps r)) r.
Proof.
  pose proof asin_cut_pos as Hp. pose proof C18_true_bound_numeric as Hn. pose proof C18_true_bound_exceeds_2e_4 as He.
  pose proof PI2_1 as H1. unfold PI2 in H1.
  exists (mkVR (2 * asin cut) 0 0).
  assert (E : n3 (mkVR (2 * asin cut) 0 0) = 2 * asin cut) by (apply n3_axis; lra).
  split; [rewrite E; lra|].
  rewrite log_exp_zone; [rewrite vdist_V0, E; lra | | rewrite E; lra].
  rewrite E. replace (2 * asin cut / 2) with (asin cut) by lra. rewrite sin_asin by apply cut_range. lra.
Qed.

(* exp after log on unit quaternions with non-negative real part *)
Theorem C18_exp_log (q : Q) : qnorm2 q = 1 -> 0 <= qw q -> cut < n3 (qvec ROps q) ->
  rv_to_q ROps (q_to_rv ROps q) = q.
Proof.
  intros Hu Hw Hv. pose proof cut_pos as Hc. pose proof (unit_w_range q Hu) as Hr.
  set (th := acos (qw q)). set (vn := n3 (qvec ROps q)) in *.
  pose proof (acos_bound (qw q)) as [T1 T2]. fold th in T1, T2.
  assert (Hcos : cos th = qw q) by (apply cos_acos; lra).
  assert (Hsin : sin th = vn) by (unfold th, vn; rewrite sin_acos by lra; symmetry; now apply unit_vec_norm).
  assert (Hth : cut < th) by (apply half_gt_cut; lra).
  rewrite q_to_rv_pos by assumption. fold th vn.
  assert (Hn : n3 (vsd (2 * th) (qvec ROps q) vn) = 2 * th).
  { unfold vn. rewrite n3_vsd by (fold vn; lra). apply Rabs_pos_eq. lra. }
  apply quat_eq.
  - rewrite qw_exp, Hn by (rewrite Hn; lra). replace (2 * th / 2) with th by lra. exact Hcos.
  - rewrite qvec_exp, Hn by (rewrite Hn; lra). replace (2 * th / 2) with th by lra. rewrite Hsin. apply vsd_inv; lra.
Qed.

(* negative real part: the round trip returns the other representative of the same rotation *)
Theorem C18_exp_log_neg (q : Q) : qnorm2 q = 1 -> qw q < 0 -> cut < n3 (qvec ROps q) ->
  rv_to_q ROps (q_to_rv ROps q) = qneg q.
Proof.
  intros Hu Hw Hv.
  rewrite <- (qneg_involutive q) at 1. rewrite double_cover by (simpl; lra).
  apply C18_exp_log; [now rewrite qnorm2_neg | simpl; lra | now rewrite n3_qvec_neg].
Qed.

Theorem C18_exp_log_pm (q : Q) : qnorm2 q = 1 -> cut < n3 (qvec ROps q) ->
  rv_to_q ROps (q_to_rv ROps q) = q \/ rv_to_q ROps (q_to_rv ROps q) = qneg q.
Proof.
  intros Hu Hv. destruct (Rlt_dec (qw q) 0) as [Hn|Hp]; [right; now apply C18_exp_log_neg | left; apply C18_exp_log; lra || assumption].
Qed.

(* inside the cut-off the round trip returns the identity, at distance <= sqrt 2 * 1e-4 from q *)
Theorem C18_exp_log_cutoff_zone (q : Q) : qnorm2 q = 1 -> 0 <= qw q -> n3 (qvec ROps q) <= cut ->
  rv_to_q ROps (q_to_rv ROps q) = Q1 /\ (qw q - 1)² + (qx q)² + (qy q)² + (qz q)² <= 2 * cut².
Proof.
  intros Hu Hw Hv. split.
  - rewrite q_to_rv_zone by assumption. exact exp_V0.
  - pose proof (n3_sq (qvec ROps q)) as Hs. pose proof (n3_nonneg (qvec ROps q)) as Hn.
    unfold ss, qnorm2, Rsqr in *. simpl in *.
    assert (Hvv : qx q * qx q + qy q * qy q + qz q * qz q <= cut * cut) by nra.
    assert (Hw1 : qw q <= 1) by nra.
    (* 1 - w = (1 - w^2) / (1 + w) <= 1 - w^2 *)
    assert (1 - qw q <= 1 - qw q * qw q) by nra. nra.
Qed.

(* q and -q are the same rotation *)
Theorem C18_double_cover (q : Q) : qw q <> 0 -> q_to_rv ROps (qneg q) = q_to_rv ROps q.
Proof. exact (double_cover q). Qed.

(* real part exactly 0: the two half turns r and -r (the same rotation) *)
Theorem C18_double_cover_half_turn (q : Q) : qw q = 0 -> q_to_rv ROps (qneg q) = vneg (q_to_rv ROps q).
Proof.
  intros Hw. pose proof cut_pos as Hc. destruct (Rlt_dec cut (n3 (qvec ROps q))) as [Hv|Hv].
  - rewrite (q_to_rv_pos q) by lra.
    rewrite (q_to_rv_pos (qneg q)) by (rewrite ?n3_qvec_neg; simpl; lra).
    rewrite n3_qvec_neg, qvec_neg, vsd_neg, vneg_vsd. simpl. now rewrite Hw, Ropp_0.
  - rewrite !q_to_rv_zone by (rewrite ?n3_qvec_neg; lra). unfold vneg, V0. simpl. f_equal; lra.
Qed.

Theorem C18_log_norm_le_pi (q : Q) : qnorm2 q = 1 -> n3 (q_to_rv ROps q) <= PI.
Proof.
  intros Hu. pose proof PI_RGT_0 as Hp. pose proof cut_pos. pose proof (unit_w_range q Hu) as Hr.
  destruct (Rlt_dec cut (n3 (qvec ROps q))) as [Hv|Hv].
  - destruct (Rlt_dec (qw q) 0) as [Hn|Hn].
    + rewrite q_to_rv_neg by assumption. rewrite n3_vsd by lra.
      pose proof (acos_bound (- qw q)) as [A1 _]. pose proof (acos_le_PI2 (- qw q)).
      rewrite Rabs_left1 by lra. lra.
    + rewrite q_to_rv_pos by lra. rewrite n3_vsd by lra.
      pose proof (acos_bound (qw q)) as [A1 _]. pose proof (acos_le_PI2 (qw q)).
      rewrite Rabs_pos_eq by lra. lra.
  - rewrite q_to_rv_zone by lra. rewrite n3_V0. lra.
Qed.

Theorem C18_sum_unit (q : Q) (r : V) : qnorm2 q = 1 -> qnorm2 (qsum_one ROps q r) = 1.
Proof. exact (sum_unit q r). Qed.

Theorem C18_diff_sum (q : Q) (rs : list V) : qnorm2 q = 1 ->
  qdiff ROps (qsum ROps q rs) q = map (fun r => q_to_rv ROps (rv_to_q ROps r)) rs.
Proof.
  intros H. unfold qdiff, qsum. rewrite map_map. apply map_ext. intros r. now apply diff_sum_one.
Qed.

Theorem C18_diff_sum_round_trip (q : Q) (r : V) : qnorm2 q = 1 -> cut < sin (n3 r / 2) -> n3 r <= PI ->
  qdiff_one ROps (qsum_one ROps q r) q = r.
Proof. exact (diff_sum_round_trip q r). Qed.

Theorem C18_diff_sum_error_bound (q : Q) (r : V) : qnorm2 q = 1 -> n3 r <= PI ->
  vdist (qdiff_one ROps (qsum_one ROps q r) q) r <= 2 * asin cut.
Proof. exact (diff_sum_error_bound q r). Qed.

Theorem C18_diff_norm_le_pi (a b : Q) : qnorm2 a = 1 -> qnorm2 b = 1 -> n3 (qdiff_one ROps a b) <= PI.
Proof.
  intros Ha Hb. unfold qdiff_one. apply C18_log_norm_le_pi. rewrite qnorm2_mul, Ha.
  rewrite qconj_R. unfold qnorm2 in *. simpl. lra.
Qed.

Theorem C18_diff_double_cover (a b : Q) : qw (qmul ROps a (qconj ROps b)) <> 0 ->
  qdiff_one ROps (qneg a) b = qdiff_one ROps a b.
Proof. intros H. unfold qdiff_one. rewrite qmul_neg_l. now apply double_cover. Qed.

(* the convention, observably: the increment is recovered in the GLOBAL frame by multiplying with conj q on
   the right, and a difference of (e * q) and q is log e *)
Theorem C18_left_convention (q e : Q) (r : V) : qnorm2 q = 1 ->
  qmul ROps (qsum_one ROps q r) (qconj ROps q) = rv_to_q ROps r /\
  qdiff_one ROps (qmul ROps e q) q = q_to_rv ROps e.
Proof. intros H. split; [unfold qsum_one; now apply qmul_cancel_r | now apply left_convention_diff]. Qed.

(* the Hamilton product is not commutative, so the order is observable *)
Theorem C18_product_order_matters :
  qmul ROps (mkQR 0 1 0 0) (mkQR 0 0 1 0) = mkQR 0 0 0 1 /\
  qmul ROps (mkQR 0 0 1 0) (mkQR 0 1 0 0) = mkQR 0 0 0 (-1).
Proof. rewrite !qmul_R. simpl. split; f_equal; lra. Qed.

(* the right (body-frame) convention q * exp(r/2) fails that statement: q = j, r = (PI, 0, 0) *)
Theorem C18_right_convention_differs :
  let q := mkQR 0 0 1 0 in let r := mkVR PI 0 0 in
  qnorm2 q = 1 /\ rv_to_q ROps r = mkQR 0 1 0 0 /\
  qmul ROps (qmul ROps q (rv_to_q ROps r)) (qconj ROps q) = mkQR 0 (-1) 0 0 /\
  qmul ROps (qmul ROps q (rv_to_q ROps r)) (qconj ROps q) <> rv_to_q ROps r.
Proof.
  intros q r. pose proof PI_RGT_0 as Hp. pose proof PI2_1 as H1. unfold PI2 in H1.
  assert (En : n3 r = PI) by (apply n3_axis; lra).
  assert (Er : rv_to_q ROps r = mkQR 0 1 0 0).
  { rewrite rv_to_q_big by (rewrite En; unfold cut; lra). rewrite En, cos_PI2, sin_PI2. unfold r. simpl.
    unfold Rdiv. rewrite !Rmult_0_r, Rmult_0_l, Rmult_1_l, Rinv_r by lra. reflexivity. }
  (* j i = -k, then (-k) (-j) = -i *)
  assert (Ep : qmul ROps (qmul ROps q (rv_to_q ROps r)) (qconj ROps q) = mkQR 0 (-1) 0 0).
  { rewrite Er. unfold q. rewrite (proj2 C18_product_order_matters), qmul_R, qconj_R. simpl. f_equal; lra. }
  repeat split; try assumption.
  - unfold q, qnorm2. simpl. lra.
  - rewrite Ep, Er. intros H. injection H. lra.
Qed.

(* weighted mean; eig is the eigen-solver oracle, its contract a premise where needed *)
Theorem C18_mean_negation_invariant eig (bs : list bool) (w : list R) (qs : list Q) :
  qmean ROps eig w (flip bs qs) = qmean ROps eig w qs.
Proof. apply qmean_ext. intros i j. apply osum_flip. Qed.

Theorem C18_mean_permutation_invariant eig (w : list R) (qs : list Q) w' qs' :
  Permutation (combine w qs) (combine w' qs') -> qmean ROps eig w' qs' = qmean ROps eig w qs.
Proof. intros H. apply qmean_ext. intros i j. now apply osum_perm. Qed.

(* the accumulated matrix is sum_k w_k q_k q_k^T *)
Theorem C18_mean_matrix_pinned (w : list R) (qs : list Q) i j :
  outer_sum ROps w qs i j = osum (combine w qs) i j.
Proof. exact (outer_sum_R w qs i j). Qed.

Theorem C18_mean_all_equal eig (w : list R) (qs : list Q) (q : Q) :
  qnorm2 q = 1 -> all_pm q qs -> 0 < wtot w qs ->
  max_eig_contract (outer_sum ROps w qs) (qmean ROps eig w qs) ->
  qmean ROps eig w qs = q \/ qmean ROps eig w qs = qneg q.
Proof.
  intros Hq Hall HW Hc.
  exact (contract_line _ _ q _ (fun _ _ => eq_refl) (all_pm_top_simple q w qs Hq Hall HW) (all_pm_contract q w qs Hq Hall HW) Hc).
Qed.

Theorem C18_mean_symmetric_centre_is_eigenvector (qc : Q) w0 (ws : list R) (al : list Q) :
  length ws = length al ->
  is_eigvec (outer_sum ROps (sym_weights w0 ws) (sym_quats qc al)) qc (qnorm2 qc * (w0 + 2 * sym_coef ws al)).
Proof. exact (sym_centre_eigvec qc w0 ws al). Qed.

(* non-negative weights, unit offsets a_j closer than a quarter turn (tight a := |a| = 1 /\ Re(a)^2 > 1/2):
   the eigen-gap is DERIVED (every eigen-direction other than the centre's has a smaller eigenvalue) ... *)
Theorem C18_mean_symmetric_gap (qc : Q) w0 (ws : list R) (al : list Q) :
  qnorm2 qc = 1 -> length ws = length al -> 0 <= w0 -> Forall (fun w => 0 < w) ws -> Forall tight al ->
  (0 < w0 \/ al <> []) ->
  forall u mu, is_eigvec (outer_sum ROps (sym_weights w0 ws) (sym_quats qc al)) u mu ->
               (forall k, u <> qscale k qc) -> mu < w0 + 2 * sym_coef ws al.
Proof. exact (sym_gap qc w0 ws al). Qed.

(* ... so the mean of a symmetric set is +- its centre (eigen-solver contract as the only oracle premise) *)
Theorem C18_mean_symmetric eig (qc : Q) w0 (ws : list R) (al : list Q) :
  qnorm2 qc = 1 -> length ws = length al -> 0 <= w0 -> Forall (fun w => 0 < w) ws -> Forall tight al ->
  (0 < w0 \/ al <> []) ->
  max_eig_contract (outer_sum ROps (sym_weights w0 ws) (sym_quats qc al)) (qmean ROps eig (sym_weights w0 ws) (sym_quats qc al)) ->
  qmean ROps eig (sym_weights w0 ws) (sym_quats qc al) = qc \/
  qmean ROps eig (sym_weights w0 ws) (sym_quats qc al) = qneg qc.
Proof.
  intros Hq Hlen Hw0 Hws Hal Hne Hc. apply (mean_symmetric_partial eig qc w0 ws al Hq Hlen Hc).
  now apply sym_gap.
Qed.

(* (a) negation / permutation as equalities of the accumulated matrix (mat_eq = entrywise) ... *)
Theorem C18_mean_matrix_negation_invariant (bs : list bool) (w : list R) (qs : list Q) :
  mat_eq (outer_sum ROps w (flip bs qs)) (outer_sum ROps w qs).
Proof. exact (outer_sum_flip bs w qs). Qed.

Theorem C18_mean_matrix_permutation_invariant (w : list R) (qs : list Q) w' qs' :
  Permutation (combine w qs) (combine w' qs') -> mat_eq (outer_sum ROps w' qs') (outer_sum ROps w qs).
Proof. exact (outer_sum_perm w qs w' qs'). Qed.

(* ... and what the eigen-solver contract fixes: two answers meeting it on equal matrices are the same ROTATION
   (v' = +-v) as soon as the largest eigenvalue is simple
   (is_top A lam: lam dominates every eigenvalue; top_simple A: the eigenvectors of a dominating eigenvalue are collinear) *)
Theorem C18_mean_contract_fixes_rotation (A B : mat4 ROps) (v v' : Q) : mat_eq A B -> top_simple A ->
  max_eig_contract A v -> max_eig_contract B v' -> v' = v \/ v' = qneg v.
Proof. exact (contract_line A B v v'). Qed.

(* the simplicity premise cannot be dropped: M = I/4 (the four basis quaternions, equal weights); 1 and i both meet the contract *)
Theorem C18_mean_contract_needs_simplicity :
  let w := [1/4; 1/4; 1/4; 1/4] in
  let qs := [mkQR 1 0 0 0; mkQR 0 1 0 0; mkQR 0 0 1 0; mkQR 0 0 0 1] in
  max_eig_contract (outer_sum ROps w qs) (mkQR 1 0 0 0) /\ max_eig_contract (outer_sum ROps w qs) (mkQR 0 1 0 0).
Proof.
  intros w qs.
  assert (E : diag_action (outer_sum ROps w qs) (1 / 4) (1 / 4) (1 / 4) (1 / 4)).
  { intros u. rewrite !mv_outer_sum. unfold w, qs. simpl. unfold qdot. simpl. repeat split; lra. }
  (* every unit quaternion meets the contract *)
  assert (C : forall v, qnorm2 v = 1 -> max_eig_contract (outer_sum ROps w qs) v).
  { intros v Hv. split; [exact Hv|]. exists (1 / 4). split; [|apply (diag_is_top _ _ _ _ _ _ E); lra].
    apply (diag_eigvec _ _ _ _ _ _ _ E). repeat split; reflexivity. }
  split; apply C; unfold qnorm2; simpl; lra.
Qed.

(* two (possibly different) eigen-solver oracles, e.g. the solver on differently rounded matrices *)
Theorem C18_mean_negation_invariant_rotation eig eig' (bs : list bool) (w : list R) (qs : list Q) :
  top_simple (outer_sum ROps w qs) ->
  max_eig_contract (outer_sum ROps w qs) (qmean ROps eig w qs) ->
  max_eig_contract (outer_sum ROps w (flip bs qs)) (qmean ROps eig' w (flip bs qs)) ->
  qmean ROps eig' w (flip bs qs) = qmean ROps eig w qs \/ qmean ROps eig' w (flip bs qs) = qneg (qmean ROps eig w qs).
Proof. intros Hs. exact (contract_line _ _ _ _ (mat_eq_sym _ _ (outer_sum_flip bs w qs)) Hs). Qed.

Theorem C18_mean_permutation_invariant_rotation eig eig' (w : list R) (qs : list Q) w' qs' :
  Permutation (combine w qs) (combine w' qs') -> top_simple (outer_sum ROps w qs) ->
  max_eig_contract (outer_sum ROps w qs) (qmean ROps eig w qs) ->
  max_eig_contract (outer_sum ROps w' qs') (qmean ROps eig' w' qs') ->
  qmean ROps eig' w' qs' = qmean ROps eig w qs \/ qmean ROps eig' w' qs' = qneg (qmean ROps eig w qs).
Proof. intros Hp Hs. exact (contract_line _ _ _ _ (mat_eq_sym _ _ (outer_sum_perm w qs w' qs' Hp)) Hs). Qed.

(* (b) all inputs +-q, positive total weight W: the matrix is W q q^T, its spectrum is {W on the line of q, 0 on
   the orthogonal complement}, W is simple (DERIVED), and q itself meets the contract (the premise is satisfiable) *)
Theorem C18_mean_all_equal_matrix (q : Q) (w : list R) (qs : list Q) i j : all_pm q qs ->
  outer_sum ROps w qs i j = wtot w qs * qcomp ROps q i * qcomp ROps q j.
Proof. exact (outer_sum_all_pm q w qs i j). Qed.

Theorem C18_mean_all_equal_spectrum (q : Q) (w : list R) (qs : list Q) (u : Q) mu :
  qnorm2 q = 1 -> all_pm q qs -> 0 < wtot w qs -> qnorm2 u <> 0 ->
  is_eigvec (outer_sum ROps w qs) u mu ->
  (mu = wtot w qs /\ u = qscale (qdot q u) q) \/ (mu = 0 /\ qdot q u = 0).
Proof. intros Hq Hall HW. exact (all_pm_spectrum q w qs Hq Hall HW u mu). Qed.

Theorem C18_mean_all_equal_simple (q : Q) (w : list R) (qs : list Q) :
  qnorm2 q = 1 -> all_pm q qs -> 0 < wtot w qs ->
  top_simple (outer_sum ROps w qs) /\ is_top (outer_sum ROps w qs) (wtot w qs) /\ max_eig_contract (outer_sum ROps w qs) q.
Proof. intros H1 H2 H3. exact (conj (all_pm_top_simple q w qs H1 H2 H3) (conj (all_pm_is_top q w qs H1 H2 H3) (all_pm_contract q w qs H1 H2 H3))). Qed.

(* the property's form: one weight per input, weights summing to one *)
Theorem C18_mean_all_equal_sum_one eig (w : list R) (qs : list Q) (q : Q) :
  qnorm2 q = 1 -> all_pm q qs -> length w = length qs -> fold_right Rplus 0 w = 1 ->
  max_eig_contract (outer_sum ROps w qs) (qmean ROps eig w qs) ->
  qmean ROps eig w qs = q \/ qmean ROps eig w qs = qneg q.
Proof.
  intros Hq Hall Hlen Hsum Hc. apply (C18_mean_all_equal eig w qs q Hq Hall); [|exact Hc].
  rewrite wtot_sum, Hsum by assumption. lra.
Qed.

(* (c) symmetric sets with a central weight of ANY sign (unscented sets), positive pair weights: explicit premise
   2 sum_j w_j |vec a_j|^2 < w0 + 2 sum_j w_j Re(a_j)^2   (vcoef / sym_coef); the eigen-gap is DERIVED from it ... *)
Theorem C18_mean_symmetric_gap_any_central_weight (qc : Q) w0 (ws : list R) (al : list Q) :
  qnorm2 qc = 1 -> length ws = length al -> Forall (fun w => 0 < w) ws ->
  2 * vcoef ws al < w0 + 2 * sym_coef ws al ->
  forall u mu, is_eigvec (outer_sum ROps (sym_weights w0 ws) (sym_quats qc al)) u mu ->
               (forall k, u <> qscale k qc) -> mu < w0 + 2 * sym_coef ws al.
Proof. exact (sym_gap_resultant qc w0 ws al). Qed.

(* ... the largest eigenvalue is simple and the centre meets the contract (the oracle premise is satisfiable) ... *)
Theorem C18_mean_symmetric_simple (qc : Q) w0 (ws : list R) (al : list Q) :
  qnorm2 qc = 1 -> length ws = length al -> Forall (fun w => 0 < w) ws ->
  2 * vcoef ws al < w0 + 2 * sym_coef ws al ->
  top_simple (outer_sum ROps (sym_weights w0 ws) (sym_quats qc al)) /\
  max_eig_contract (outer_sum ROps (sym_weights w0 ws) (sym_quats qc al)) qc.
Proof. intros H1 H2 H3 H4. exact (conj (sym_top_simple qc w0 ws al H1 H2 H3 H4) (sym_centre_contract qc w0 ws al H1 H2 H3 H4)). Qed.

(* ... so the mean is +- the centre *)
Theorem C18_mean_symmetric_any_central_weight eig (qc : Q) w0 (ws : list R) (al : list Q) :
  qnorm2 qc = 1 -> length ws = length al -> Forall (fun w => 0 < w) ws ->
  2 * vcoef ws al < w0 + 2 * sym_coef ws al ->
  max_eig_contract (outer_sum ROps (sym_weights w0 ws) (sym_quats qc al)) (qmean ROps eig (sym_weights w0 ws) (sym_quats qc al)) ->
  qmean ROps eig (sym_weights w0 ws) (sym_quats qc al) = qc \/
  qmean ROps eig (sym_weights w0 ws) (sym_quats qc al) = qneg qc.
Proof.
  intros Hq Hlen Hws Hprem Hc. apply (mean_symmetric_partial eig qc w0 ws al Hq Hlen Hc).
  now apply sym_gap_resultant.
Qed.

(* the library's own sigma-point layout  qc, qc (+) d_j, qc (+) (-d_j)  (sigma_quats, built with the model's qsum):
   it is a symmetric set with offsets exp(d_j / 2) ... *)
Theorem C18_sigma_set_layout (qc : Q) (ds : list V) :
  sigma_quats qc ds = qc :: qsum ROps qc ds ++ qsum ROps qc (map vneg ds) /\
  sigma_quats qc ds = sym_quats qc (map (rv_to_q ROps) ds).
Proof. exact (conj eq_refl (sigma_quats_sym qc ds)). Qed.

(* ... rcos d = 2 Re(exp(d/2))^2 - 1 is cos|d| outside the exponential's cut-off and 1 inside ... *)
Theorem C18_sigma_angle (d : V) : (cut < n3 d -> rcos d = cos (n3 d)) /\ (n3 d <= cut -> rcos d = 1).
Proof. exact (conj (rcos_big d) (rcos_zone d)). Qed.

(* ... and its mean is +- the centre when  0 < w0 + 2 sum_j w_j cos|d_j|  (wcos), whatever the sign of w0 *)
Theorem C18_mean_sigma_set eig (qc : Q) w0 (ws : list R) (ds : list V) :
  qnorm2 qc = 1 -> length ws = length ds -> Forall (fun w => 0 < w) ws ->
  0 < w0 + 2 * wcos ws ds ->
  max_eig_contract (outer_sum ROps (sym_weights w0 ws) (sigma_quats qc ds)) (qmean ROps eig (sym_weights w0 ws) (sigma_quats qc ds)) ->
  qmean ROps eig (sym_weights w0 ws) (sigma_quats qc ds) = qc \/
  qmean ROps eig (sym_weights w0 ws) (sigma_quats qc ds) = qneg qc.
Proof.
  intros Hq Hlen Hws Hprem. rewrite sigma_quats_sym. apply C18_mean_symmetric_any_central_weight; try assumption.
  - now rewrite map_length.
  - pose proof (sigma_margin ws ds). lra.
Qed.

(* for weights summing to one the premise reads  2 sum_j w_j (1 - cos|d_j|) < 1  (wvers) *)
Theorem C18_sigma_margin_sum_one w0 (ws : list R) (ds : list V) :
  length ws = length ds -> w0 + 2 * fold_right Rplus 0 ws = 1 -> w0 + 2 * wcos ws ds = 1 - 2 * wvers ws ds.
Proof.
  intros Hlen Hs. rewrite (wcos_wvers ws ds Hlen). lra.
Qed.

(* WITHOUT the premise the clause "equals the common centre" is false for an unscented weight set: n = 1,
   n + lambda = 1/2, weights (-1, 1, 1) summing to one, offsets +-2 atan(3/4) around the identity: the accumulated
   matrix is diag(7/25, 18/25, 0, 0), every vector meeting the contract is +-i, orthogonal to the centre *)
Theorem C18_mean_symmetric_negative_weight_refuted :
  let qc := Q1 in let al := [mkQR (4/5) (3/5) 0 0] in let ws := [1] in let w0 := -1 in
  qnorm2 qc = 1 /\ length ws = length al /\ Forall (fun w => 0 < w) ws /\ Forall tight al /\
  w0 + 2 * fold_right Rplus 0 ws = 1 /\
  (forall v, max_eig_contract (outer_sum ROps (sym_weights w0 ws) (sym_quats qc al)) v ->
             (v = mkQR 0 1 0 0 \/ v = mkQR 0 (-1) 0 0) /\ v <> qc /\ v <> qneg qc) /\
  max_eig_contract (outer_sum ROps (sym_weights w0 ws) (sym_quats qc al)) (mkQR 0 1 0 0).
Proof.
  intros qc al ws w0. set (A := outer_sum ROps (sym_weights w0 ws) (sym_quats qc al)).
  assert (E : diag_action A (7 / 25) (18 / 25) 0 0).
  { intros u. unfold A, qc. rewrite !mv_outer_sum, sym_quats_Q1. unfold sym_weights, al, ws, w0.
    cbn [map app]. rewrite qconj_R. simpl. unfold qdot, Q1. simpl. repeat split; lra. }
  pose proof (diag_is_top A _ _ _ _ (18 / 25) E) as T.
  assert (I : is_eigvec A (mkQR 0 1 0 0) (18 / 25)) by (apply (diag_eigvec _ _ _ _ _ _ _ E); simpl; repeat split; lra).
  split; [unfold qc, qnorm2; simpl; lra|]. split; [reflexivity|]. split; [repeat constructor; lra|].
  split; [repeat constructor; unfold qnorm2; simpl; lra|]. split; [unfold w0, ws; simpl; lra|]. split.
  - intros v [Hv [lam [He Hmax]]]. apply (diag_eigvec _ _ _ _ _ _ _ E) in He. destruct He as [E0 [_ [E2 E3]]].
    assert (Hl : 18 / 25 <= lam) by (apply (Hmax (mkQR 0 1 0 0)); [unfold qnorm2; simpl; lra | exact I]).
    apply eig_comp_zero in E0; [|lra]. apply eig_comp_zero in E2; [|lra]. apply eig_comp_zero in E3; [|lra].
    destruct v as [a b c d]. unfold qnorm2 in Hv. simpl in *. subst a c d.
    assert (Hb : (b - 1) * (b + 1) = 0) by lra. apply Rmult_integral in Hb.
    split; [destruct Hb; [left|right]; f_equal; lra|].
    unfold qc, Q1, qneg. simpl. split; intros Hx; injection Hx; intros; lra.
  - split; [unfold qnorm2; simpl; lra|]. exists (18 / 25). split; [exact I | apply T; lra].
Qed.

(* partial: symmetric sets outside the explicit premise above (the premise bounds the spectrum on the complement of the
   centre by its trace; sets whose offsets point in different directions can have a dominant centre although the trace
   bound fails): dominance of the centre's eigenvalue is then a premise (explicit eigen-gap), not derived *)
Theorem C18_mean_symmetric_partial eig (qc : Q) w0 (ws : list R) (al : list Q) :
  qnorm2 qc = 1 -> length ws = length al ->
  let A := outer_sum ROps (sym_weights w0 ws) (sym_quats qc al) in
  let m := qmean ROps eig (sym_weights w0 ws) (sym_quats qc al) in
  max_eig_contract A m ->
  (forall u mu, is_eigvec A u mu -> (forall k, u <> qscale k qc) -> mu < w0 + 2 * sym_coef ws al) ->
  m = qc \/ m = qneg qc.
Proof. exact (mean_symmetric_partial eig qc w0 ws al). Qed.

Example C18_unit_quaternion_exists : qnorm2 (mkQR (3/5) (4/5) 0 0) = 1.
Proof. unfold qnorm2. simpl. lra. Qed.
Example C18_log_exp_premises_satisfiable : let r := mkVR 1 0 0 in cut < sin (n3 r / 2) /\ n3 r <= PI.
Proof. exact example_log_exp_premises. Qed.
Example C18_symmetric_premises_satisfiable :
  let qc := Q1 in let al := [mkQR (4/5) (3/5) 0 0] in let ws := [1/4] in let w0 := 1/2 in
  qnorm2 qc = 1 /\ length ws = length al /\ 0 <= w0 /\ Forall (fun w => 0 < w) ws /\ Forall tight al /\ (0 < w0 \/ al <> []) /\
  sym_quats qc al = [Q1; mkQR (4/5) (3/5) 0 0; mkQR (4/5) (-(3/5)) 0 0] /\ w0 + 2 * sym_coef ws al = 41/50.
Proof.
  intros qc al ws w0. unfold qc, al, ws, w0.
  split; [unfold qnorm2; simpl; lra|]. split; [reflexivity|]. split; [lra|].
  split; [repeat constructor; lra|]. split; [repeat constructor; unfold qnorm2; simpl; lra|].
  split; [right; discriminate|]. split.
  - rewrite sym_quats_Q1. cbn [map app]. rewrite qconj_R. simpl. repeat f_equal; lra.
  - simpl. lra.
Qed.
(* non-vacuity of C18_mean_symmetric_any_central_weight with a NEGATIVE central weight: the unscented set n = 1,
   n + lambda = 1/4 (weights -3, 2, 2), offsets (35/37, +-12/37, 0, 0) around the identity *)
Example C18_negative_central_weight_premises_satisfiable :
  let qc := Q1 in let al := [mkQR (35/37) (12/37) 0 0] in let ws := [2] in let w0 := -3 in
  qnorm2 qc = 1 /\ length ws = length al /\ Forall (fun w => 0 < w) ws /\ w0 < 0 /\
  w0 + 2 * fold_right Rplus 0 ws = 1 /\ 2 * vcoef ws al < w0 + 2 * sym_coef ws al.
Proof.
  intros qc al ws w0. unfold qc, al, ws, w0.
  split; [unfold qnorm2; simpl; lra|]. split; [reflexivity|]. split; [repeat constructor; lra|].
  split; [lra|]. split; [simpl; lra|]. simpl. unfold qnorm2. simpl. lra.
Qed.
Example C18_eigen_contract_satisfiable : max_eig_contract (outer_sum ROps [1] [Q1]) Q1.
Proof.
  assert (E : diag_action (outer_sum ROps [1] [Q1]) 1 0 0 0).
  { intros u. rewrite !mv_outer_sum. simpl. unfold qdot, Q1. simpl. repeat split; lra. }
  split; [unfold qnorm2; simpl; lra|]. exists 1. split.
  - apply (diag_eigvec _ _ _ _ _ _ _ E). simpl. repeat split; lra.
  - apply (diag_is_top _ _ _ _ _ _ E); lra.
Qed.

Print Assumptions C18_exp_unit.
Print Assumptions C18_log_exp.
Print Assumptions C18_log_exp_dichotomy.
Print Assumptions C18_log_exp_error_bound.
Print Assumptions C18_true_bound_exceeds_2e_4.
Print Assumptions C18_true_bound_numeric.
Print Assumptions C18_bound_2e_4_refuted.
Print Assumptions C18_exp_log.
Print Assumptions C18_exp_log_neg.
Print Assumptions C18_exp_log_pm.
Print Assumptions C18_exp_log_cutoff_zone.
Print Assumptions C18_double_cover.
Print Assumptions C18_double_cover_half_turn.
Print Assumptions C18_log_norm_le_pi.
Print Assumptions C18_sum_unit.
Print Assumptions C18_diff_sum.
Print Assumptions C18_diff_sum_round_trip.
Print Assumptions C18_diff_sum_error_bound.
Print Assumptions C18_diff_norm_le_pi.
Print Assumptions C18_diff_double_cover.
Print Assumptions C18_left_convention.
Print Assumptions C18_product_order_matters.
Print Assumptions C18_right_convention_differs.
Print Assumptions C18_mean_negation_invariant.
Print Assumptions C18_mean_permutation_invariant.
Print Assumptions C18_mean_matrix_pinned.
Print Assumptions C18_mean_all_equal.
Print Assumptions C18_mean_symmetric_centre_is_eigenvector.
Print Assumptions C18_mean_symmetric_gap.
Print Assumptions C18_mean_symmetric.
Print Assumptions C18_mean_matrix_negation_invariant.
Print Assumptions C18_mean_matrix_permutation_invariant.
Print Assumptions C18_mean_contract_fixes_rotation.
Print Assumptions C18_mean_contract_needs_simplicity.
Print Assumptions C18_mean_negation_invariant_rotation.
Print Assumptions C18_mean_permutation_invariant_rotation.
Print Assumptions C18_mean_all_equal_matrix.
Print Assumptions C18_mean_all_equal_spectrum.
Print Assumptions C18_mean_all_equal_simple.
Print Assumptions C18_mean_all_equal_sum_one.
Print Assumptions C18_mean_symmetric_gap_any_central_weight.
Print Assumptions C18_mean_symmetric_simple.
Print Assumptions C18_mean_symmetric_any_central_weight.
Print Assumptions C18_sigma_set_layout.
Print Assumptions C18_sigma_angle.
Print Assumptions C18_mean_sigma_set.
Print Assumptions C18_sigma_margin_sum_one.
Print Assumptions C18_mean_symmetric_negative_weight_refuted.
Print Assumptions C18_mean_symmetric_partial.
