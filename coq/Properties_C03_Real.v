(* Properties_C03_Real.v — property C03 for layouts with circular rows, over Coq's reals.
   The statements follow from the lemmas of C03_Sigma.v / C03_Euler.v / C03_Spread.v / C03_Quat.v /
   C03_QuatAlg.v / C03_QuatSpread.v / C03_QuatEx.v.

   The model functions are the ones of C03_Model.v that are extracted and run (sigma_comp,
   sigma_points, ut_generic, ut_state, ut_additive_state, ut_meas, ut_additive_meas, offsets,
   out_mean ...), instantiated at the matrix instance RF sq eg of C03_RFun.v: scalars are Coq's R
   (C19's ROps: sqrt, sin, cos, atan2 defined from atan, ...), an m x n matrix is a function
   nat -> nat -> R read through its declared dimensions, sq / eg are the square-root and
   eigenvector oracles (universally quantified; the factor contract is a per-instance premise).
   Results are stated entry by entry (mget / colget of the model's outputs).

   Predicates used below (C03_Euler.v, C03_Spread.v):
     circ_row l c i            row i is one of the c circular rows that follow l linear rows
     factor_ok sq dc P         forall a b < dc, sum_k (sq dc P) a k * (sq dc P) b k = P a b
     small_spread ...          every sigma offset sqrt(c) A_jk on a circular input row and every
                               propagated offset sqrt(c) (Am A)_ik on a circular output row has
                               absolute value < PI (half turn), and every circular output row has a
                               positive weighted resultant w0 + 2 wi sum_k cos(sqrt(c) (Am A)_ik)
     small_cov ...             c P_jj < PI^2 on circular input rows; c (Am P Am^T)_ii < PI^2 and
                               (Am P Am^T)_ii < 2 on circular output rows
     mu d m Am b i             (Am m + b)_i              = sum_{j<d} Am i j * m j 0 + b i 0
     cov_image d P Am i j      (Am P Am^T)_ij            = sum_{a,b<d} Am i a * P a b * Am j b
     cross_image d P Am i j    (P Am^T)_ij               = sum_{b<d} P i b * Am j b
     euler_image ... N (m, P) u   the transformed component u has mean (Am m + b)_i on linear rows
                               and arg(exp(j (Am m + b)_i)) on circular rows, covariance
                               Am P Am^T + N and cross-covariance the non-noise rows of P Am^T
   and for quaternion layouts (C03_Quat.v, C03_QuatAlg.v; Q, V are C18's quaternion / vector records):
     qraw x o                  the quaternion in rows o .. o+3 of column x
     blk o e t                 the t-th rotation-vector block (e (o+3t), e (o+3t+1), e (o+3t+2)) of e
     rotv r v                  the vector v rotated by the unit quaternion r (vector part of r (0,v) conj r)
     ok_rv v                   v = 0, or 1e-4 < sin(|v|/2) and |v| < PI: the exp / log pair of the code
                               (with its 1e-4 cut-offs) reads v back exactly
     quat_map_ok               unit rl_t, rr_t; linear output rows do not read quaternion rows; the t-th
                               output quaternion of Am x + b is rl_t * (t-th input quaternion) * rr_t; J is
                               the matrix of the tangent map (Am on linear / noise columns for linear
                               rows, rotation by rl_t on the t-th rotation block)
     quat_comp_ok              factor_ok; unit mean quaternions; ok_rv of every rotation-vector block of
                               every sigma offset; positive weighted resultant w0 + 2 wi sum_k cos |block_k|
                               per block; eigen-solver contract (max_eig_contract of C18: unit eigenvector of
                               the largest eigenvalue) for the matrix the model hands to the oracle
     quat_image ... N (m, P) u mean (Am m + b)_i on linear rows and +- rl_t q_t rr_t on quaternion blocks
                               (the same rotation), covariance J P J^T + N, cross-covariance = the
                               non-noise rows of P J^T
   Axioms: the four standard axioms of Coq's Reals, nothing else. *)
Require Import ZArith Reals Lra Lia List Bool Arith.
Require Import BFL.Ops BFL.C03_Model BFL.C19_ROps BFL.C19_Model BFL.C19_Proofs BFL.C03_Real.
Require Import BFL.C03_RFun BFL.C03_Sigma BFL.C03_Euler BFL.C03_Spread.
Require Import BFL.C18_Model BFL.C18_Proofs BFL.C18_Mean BFL.C03_QuatAlg BFL.C03_Quat BFL.C03_QuatEx BFL.C03_QuatSpread.
Import ListNotations.
Local Open Scope R_scope.

Section C03Euler.
Variables sq eg : nat -> fmx -> fmx.
Notation O := (RF sq eg).
(* input layout: lin linear rows, circ Euler angles, noise appended noise rows;
   output layout: olin linear rows, ocirc Euler angles *)
Variables lin circ noise olin ocirc : nat.
Let Lin := mkLayout lin circ false noise.
Let Lout := mkLayout olin ocirc false 0.
Let d := l_dim Lin.
Let dc := l_dcov Lin.
Let dx := l_dx Lin.
Let p := l_dim Lout.
Let pc := l_dcov Lout.
Variables alpha beta kappa : R.
Let w := ut_weights (O:=O) dc alpha beta kappa.
Let c := w_c w.
Let w0 := nth 0 (w_mean w) 0.
Let w0c := nth 0 (w_cov w) 0.
Let wi := nth 1 (w_mean w) 0.

(* Moments preserved, one component (m, P) of a layout with Euler rows and noise rows, n + lambda > 0,
   sigma offsets on the circular rows within a half turn: 2 dc + 1 sigma points; each is the mean (+) its
   tangent offset e (0, +sqrt(c) A_.k, -sqrt(c) A_.k): plain sum on linear and noise rows,
   arg(exp(j (e_j + m_j))) on circular rows, and the code's own difference operator (offsets) reads e
   back on the non-noise rows; the first sigma point is the mean (modulo 2 pi on circular rows); under the
   mean weights the offsets average to zero (the weighted mean in the chart at m is m), under the
   covariance weights their second moment is P. *)
Theorem C03_euler_sigma_moments (m P : fmx) :
  (0 < dc)%nat -> 0 < c -> factor_ok sq dc P ->
  (forall j k, circ_row lin circ j = true -> (k < dc)%nat -> Rabs (sqrt c * sq dc P j k) < PI) ->
  let Xs := sigma_comp (O:=O) Lin d dc c m P in
  let E := tangent_offsets sq dc c P in
  length Xs = (2 * dc + 1)%nat /\
  Forall2 (fun e x => is_sigma lin circ d m e x /\
                      forall i, (i < dx)%nat -> offsets (O:=O) Lin (p:=d) dx x m i 0%nat = e i) E Xs /\
  (forall x0 j, (j < d)%nat ->
     nth 0 Xs x0 j 0%nat = if circ_row lin circ j then C19_Model.wrap ROps (m j 0%nat) else m j 0%nat) /\
  (forall j, lsumR (fun q => fst q * (m j 0%nat + snd q j)) (combine (w0 :: repeat wi (2 * dc)) E) = m j 0%nat) /\
  (forall i j, (i < dc)%nat -> (j < dc)%nat ->
     lsumR (fun q => fst q * (snd q i * snd q j)) (combine (w0c :: repeat wi (2 * dc)) E) = P i j).
Proof.
  (* not used here; cleared so that the theorem is not generalised over them when the section closes *)
  clear Lout p pc. intros Hdc Hc HF Hs. destruct (dims_eq lin circ noise 0 0) as (E1 & E2 & E3 & _).
  destruct (ut_weights_R_sums sq eg dc alpha beta kappa Hdc (Rgt_not_eq _ _ Hc)) as [W1 W2].
  apply (sigma_moments_euler sq eg lin circ noise 0 0 d dc dx 0 0 E1 E2 E3 eq_refl eq_refl); assumption.
Qed.

Variables Am b : fmx.
Variable comps : list (fmx * fmx).
Let k := length comps.
Let X := sigma_points (O:=O) Lin d dc c comps.
Let r := ut_core (O:=O) Lin Lout (d:=d) (dc:=dc) (p:=p) pc dx w comps X (affine_cols (O:=O) (d:=d) (p:=p) Am b X).

(* Exactness on affine maps, whole mixture, all five overloads.  The map is x -> Am x + b column by
   column in storage coordinates (affine_cols, the function the correspondence harness runs), where a
   linear output row does not read circular input rows and a circular output row reads circular input
   rows with integer coefficients (a rotation / offset of the circle; reals elsewhere).  Smallness is
   stated on the factor the oracle returned (small_spread). *)
Theorem C03_euler_affine_exact :
  (0 < dc)%nat -> 0 < c ->
  (forall i j, (i < olin)%nat -> circ_row lin circ j = true -> Am i j = 0) ->
  (forall i j, circ_row olin ocirc i = true -> circ_row lin circ j = true -> exists z : Z, Am i j = IZR z) ->
  (forall mc, In mc comps -> factor_ok sq dc (snd mc)) ->
  (forall mc, In mc comps -> small_spread sq lin circ olin ocirc d dc c w0 wi Am (snd mc)) ->
  ut_generic (O:=O) Lin Lout (d:=d) (dc:=dc) (p:=p) pc dx w comps
             (fun X => Some (affine_cols (O:=O) (d:=d) (p:=p) Am b X)) = Some r /\
  ut_meas (O:=O) Lin Lout (d:=d) (dc:=dc) (p:=p) pc dx w comps
          (fun X => Some (affine_cols (O:=O) (d:=d) (p:=p) Am b X)) = Some r /\
  ut_state (O:=O) Lin Lout (d:=d) (dc:=dc) (p:=p) pc dx w comps (affine_cols (O:=O) (d:=d) (p:=p) Am b) = r /\
  (forall N, ut_additive_state (O:=O) Lin Lout (d:=d) (dc:=dc) (p:=p) pc dx w comps
               (affine_cols (O:=O) (d:=d) (p:=p) Am b) N = add_noise_cov (O:=O) N r /\
             ut_additive_meas (O:=O) Lin Lout (d:=d) (dc:=dc) (p:=p) pc dx w comps
               (fun X => Some (affine_cols (O:=O) (d:=d) (p:=p) Am b X)) N = Some (add_noise_cov (O:=O) N r)) /\
  ur_weights r = repeat (1 / INR k) k /\ length (ur_comps r) = k /\
  (forall N, ur_weights (add_noise_cov (O:=O) N r) = repeat (1 / INR k) k /\
             length (ur_comps (add_noise_cov (O:=O) N r)) = k) /\
  (forall i u0 mc0, (i < k)%nat ->
     euler_image sq eg lin circ noise olin ocirc Am b (fun _ _ => 0) (nth i comps mc0) (nth i (ur_comps r) u0)) /\
  (forall N i u0 mc0, (i < k)%nat ->
     euler_image sq eg lin circ noise olin ocirc Am b N (nth i comps mc0)
                 (nth i (ur_comps (add_noise_cov (O:=O) N r)) u0)).
Proof.
  intros Hdc Hc H1 H2 HF HS. apply core_exact.
  split; [exact (r_image sq eg lin circ noise olin ocirc alpha beta kappa Am b comps Hdc Hc H1 H2 HF HS)
         | exact (noise_image sq eg lin circ noise olin ocirc alpha beta kappa Am b comps Hdc Hc H1 H2 HF HS)].
Qed.

(* "spreads small enough" on the covariance alone implies the smallness of every factor with A A^T = P,
   including the positive resultant for a negative central weight *)
Theorem C03_euler_small_spread_from_covariance (P : fmx) :
  (0 < dc)%nat -> 0 < c -> factor_ok sq dc P ->
  small_cov lin circ olin ocirc d c Am P ->
  small_spread sq lin circ olin ocirc d dc c w0 wi Am P.
Proof.
  clear k X r. (* as above *) intros Hdc Hc HF HS. destruct (dims_eq lin circ noise 0 0) as (E1 & E2 & _).
  destruct (ut_weights_R_sums sq eg dc alpha beta kappa Hdc (Rgt_not_eq _ _ Hc)) as [W1 W2].
  apply (small_cov_spread sq lin circ noise olin ocirc d dc E1 E2); assumption.
Qed.

(* the same exactness statement with the smallness premise on the covariances *)
Theorem C03_euler_affine_exact_small_cov :
  (0 < dc)%nat -> 0 < c ->
  (forall i j, (i < olin)%nat -> circ_row lin circ j = true -> Am i j = 0) ->
  (forall i j, circ_row olin ocirc i = true -> circ_row lin circ j = true -> exists z : Z, Am i j = IZR z) ->
  (forall mc, In mc comps -> factor_ok sq dc (snd mc)) ->
  (forall mc, In mc comps -> small_cov lin circ olin ocirc d c Am (snd mc)) ->
  ut_generic (O:=O) Lin Lout (d:=d) (dc:=dc) (p:=p) pc dx w comps
             (fun X => Some (affine_cols (O:=O) (d:=d) (p:=p) Am b X)) = Some r /\
  ut_meas (O:=O) Lin Lout (d:=d) (dc:=dc) (p:=p) pc dx w comps
          (fun X => Some (affine_cols (O:=O) (d:=d) (p:=p) Am b X)) = Some r /\
  ut_state (O:=O) Lin Lout (d:=d) (dc:=dc) (p:=p) pc dx w comps (affine_cols (O:=O) (d:=d) (p:=p) Am b) = r /\
  (forall N, ut_additive_state (O:=O) Lin Lout (d:=d) (dc:=dc) (p:=p) pc dx w comps
               (affine_cols (O:=O) (d:=d) (p:=p) Am b) N = add_noise_cov (O:=O) N r /\
             ut_additive_meas (O:=O) Lin Lout (d:=d) (dc:=dc) (p:=p) pc dx w comps
               (fun X => Some (affine_cols (O:=O) (d:=d) (p:=p) Am b X)) N = Some (add_noise_cov (O:=O) N r)) /\
  ur_weights r = repeat (1 / INR k) k /\ length (ur_comps r) = k /\
  (forall N, ur_weights (add_noise_cov (O:=O) N r) = repeat (1 / INR k) k /\
             length (ur_comps (add_noise_cov (O:=O) N r)) = k) /\
  (forall i u0 mc0, (i < k)%nat ->
     euler_image sq eg lin circ noise olin ocirc Am b (fun _ _ => 0) (nth i comps mc0) (nth i (ur_comps r) u0)) /\
  (forall N i u0 mc0, (i < k)%nat ->
     euler_image sq eg lin circ noise olin ocirc Am b N (nth i comps mc0)
                 (nth i (ur_comps (add_noise_cov (O:=O) N r)) u0)).
Proof.
  intros Hdc Hc H1 H2 HF HS. apply C03_euler_affine_exact; try assumption.
  intros mc Hin. apply C03_euler_small_spread_from_covariance; [exact Hdc | exact Hc | exact (HF mc Hin) | exact (HS mc Hin)].
Qed.
End C03Euler.

(* what euler_image says, unfolded (so that the statement above can be read without C03_Euler.v) *)
Theorem C03_euler_image_meaning (sq eg : nat -> fmx -> fmx) (lin circ noise olin ocirc : nat) (Am b N : fmx)
        (mc : fmx * fmx) u :
  let Lin := mkLayout lin circ false noise in
  let Lout := mkLayout olin ocirc false 0 in
  let d := l_dim Lin in
  euler_image sq eg lin circ noise olin ocirc Am b N mc u <->
  (forall i, (i < l_dim Lout)%nat ->
     colget (O:=RF sq eg) (uc_mean u) i =
     if circ_row olin ocirc i
     then C19_Model.wrap ROps (rsum d (fun j => Am i j * fst mc j 0%nat) + b i 0%nat)
     else rsum d (fun j => Am i j * fst mc j 0%nat) + b i 0%nat) /\
  (forall i j, (i < l_dcov Lout)%nat -> (j < l_dcov Lout)%nat ->
     @mget (RF sq eg) (l_dcov Lout) (l_dcov Lout) (uc_cov u) i j =
     rsum d (fun a => rsum d (fun b' => Am i a * snd mc a b' * Am j b')) + N i j) /\
  (forall i j, (i < l_dx Lin)%nat -> (j < l_dcov Lout)%nat ->
     @mget (RF sq eg) (l_dx Lin) (l_dcov Lout) (uc_cross u) i j = rsum d (fun b' => snd mc i b' * Am j b')).
Proof. intros Lin Lout d. reflexivity. Qed.

(* non-vacuity: the premises of C03_euler_affine_exact_small_cov hold for a concrete instance
   (1 linear row, 1 Euler angle, 1 noise row; alpha = 1, kappa = 0, c = 3; P = I / 4 with its diagonal
   factor; y_lin = 2 x_lin + x_noise + b_0, y_circ = x_lin / 2 + x_circ + x_noise / 3 + b_1) *)
Example C03_euler_premises (eg : nat -> fmx -> fmx) (m b : fmx) :
  let Lin := mkLayout 1 1 false 1 in
  let dc := l_dcov Lin in
  let w := ut_weights (O:=RF ex_sq eg) dc 1 2 0 in
  (0 < dc)%nat /\ 0 < w_c w /\
  (forall i j, (i < 1)%nat -> circ_row 1 1 j = true -> ex_Am i j = 0) /\
  (forall i j, circ_row 1 1 i = true -> circ_row 1 1 j = true -> exists z : Z, ex_Am i j = IZR z) /\
  (forall mc, In mc [(m, ex_P)] -> factor_ok ex_sq dc (snd mc)) /\
  (forall mc, In mc [(m, ex_P)] -> small_cov 1 1 1 1 (l_dim Lin) (w_c w) ex_Am (snd mc)).
Proof.
  intros Lin dc w. change dc with 3%nat in *.
  assert (Hc : w_c w = 3) by (unfold w; rewrite ut_weights_R_c; simpl; lra).
  assert (Hcr : forall j, circ_row 1 1 j = true -> j = 1%nat) by (intros j H; apply circ_row_true in H; lia).
  assert (Hs : sqrt (1 / 4) * sqrt (1 / 4) = 1 / 4) by (apply sqrt_sqrt; lra).
  pose proof PI2_1 as Hpi. unfold PI2 in Hpi.
  split; [lia|]. split; [rewrite Hc; lra|].
  split; [intros i j Hi Hj; rewrite (Hcr j Hj); destruct i as [|i]; [reflexivity | lia]|].
  split; [intros i j Hi Hj; rewrite (Hcr i Hi), (Hcr j Hj); exists 1%Z; reflexivity|].
  split.
  - intros mc [<-|[]] a b' Ha Hb. unfold ex_sq, ex_P.
    destruct a as [|[|[|a]]]; [| | |lia]; destruct b' as [|[|[|b']]]; try lia; simpl; lra.
  - intros mc [<-|[]]. rewrite Hc. split.
    + intros j Hj. rewrite (Hcr j Hj). unfold ex_P. simpl. nra.
    + intros i Hi. rewrite (Hcr i Hi). unfold cov_image, ex_P, ex_Am, l_dim, l_cw. simpl. split; nra.
Qed.

Section C03Quat.
Variables sq eg : nat -> fmx -> fmx.
Notation O := (RF sq eg).
(* input: lin linear rows, circ quaternions, noise rows; output: olin linear rows, circ quaternions *)
Variables lin circ noise olin : nat.
Let Lin := mkLayout lin circ true noise.
Let Lout := mkLayout olin circ true 0.
Let d := l_dim Lin.
Let dc := l_dcov Lin.
Let dx := l_dx Lin.
Let p := l_dim Lout.
Let pc := l_dcov Lout.
Variables alpha beta kappa : R.
Let w := ut_weights (O:=O) dc alpha beta kappa.
Let c := w_c w.
Let w0 := nth 0 (w_mean w) 0.
Let wi := nth 1 (w_mean w) 0.
Variables Am b J : fmx.
Variables rl rr : nat -> Q.
Variable comps : list (fmx * fmx).
Let k := length comps.
Let X := sigma_points (O:=O) Lin d dc c comps.
Let r := ut_core (O:=O) Lin Lout (d:=d) (dc:=dc) (p:=p) pc dx w comps X (affine_cols (O:=O) (d:=d) (p:=p) Am b X).

(* Exactness on affine maps for layouts with quaternion blocks, whole mixture, all five overloads: the
   map acts as x -> A x + b on the linear rows and as a rotation (unit quaternions on either side) on
   the quaternion blocks; covariances in the rotation-vector tangent space; the mean quaternion up to
   sign.  Smallness and the oracle contracts are per-component premises (quat_comp_ok). *)
Theorem C03_quat_affine_exact :
  (0 < dc)%nat -> 0 < c ->
  quat_map_ok sq eg lin circ olin d dc p Am b J rl rr ->
  (forall mc, In mc comps -> quat_comp_ok sq eg lin circ noise olin d dc p c w0 wi Am b mc) ->
  ut_generic (O:=O) Lin Lout (d:=d) (dc:=dc) (p:=p) pc dx w comps
             (fun X => Some (affine_cols (O:=O) (d:=d) (p:=p) Am b X)) = Some r /\
  ut_meas (O:=O) Lin Lout (d:=d) (dc:=dc) (p:=p) pc dx w comps
          (fun X => Some (affine_cols (O:=O) (d:=d) (p:=p) Am b X)) = Some r /\
  ut_state (O:=O) Lin Lout (d:=d) (dc:=dc) (p:=p) pc dx w comps (affine_cols (O:=O) (d:=d) (p:=p) Am b) = r /\
  (forall N, ut_additive_state (O:=O) Lin Lout (d:=d) (dc:=dc) (p:=p) pc dx w comps
               (affine_cols (O:=O) (d:=d) (p:=p) Am b) N = add_noise_cov (O:=O) N r /\
             ut_additive_meas (O:=O) Lin Lout (d:=d) (dc:=dc) (p:=p) pc dx w comps
               (fun X => Some (affine_cols (O:=O) (d:=d) (p:=p) Am b X)) N = Some (add_noise_cov (O:=O) N r)) /\
  ur_weights r = repeat (1 / INR k) k /\ length (ur_comps r) = k /\
  (forall N, ur_weights (add_noise_cov (O:=O) N r) = repeat (1 / INR k) k /\
             length (ur_comps (add_noise_cov (O:=O) N r)) = k) /\
  (forall i u0 mc0, (i < k)%nat ->
     quat_image sq eg lin circ noise olin Am b J rl rr (fun _ _ => 0) (nth i comps mc0) (nth i (ur_comps r) u0)) /\
  (forall N i u0 mc0, (i < k)%nat ->
     quat_image sq eg lin circ noise olin Am b J rl rr N (nth i comps mc0)
                (nth i (ur_comps (add_noise_cov (O:=O) N r)) u0)).
Proof.
  intros Hdc Hc Hmap Hcomps. apply core_exact.
  split; [exact (r_image_q sq eg lin circ noise olin alpha beta kappa Am b J rl rr comps Hdc Hc Hmap Hcomps)
         | exact (noise_image_q sq eg lin circ noise olin alpha beta kappa Am b J rl rr comps Hdc Hc Hmap Hcomps)].
Qed.
End C03Quat.

(* what quat_image says, unfolded *)
Theorem C03_quat_image_meaning (sq eg : nat -> fmx -> fmx) (lin circ noise olin : nat) (Am b J N : fmx)
        (rl rr : nat -> Q) (mc : fmx * fmx) u :
  let Lin := mkLayout lin circ true noise in
  let Lout := mkLayout olin circ true 0 in
  quat_image sq eg lin circ noise olin Am b J rl rr N mc u <->
  (forall i, (i < olin)%nat ->
     colget (O:=RF sq eg) (r:=l_dim Lout) (uc_mean u) i =
     rsum (l_dim Lin) (fun j => Am i j * fst mc j 0%nat) + b i 0%nat) /\
  (forall t, (t < circ)%nat ->
     let q := C18_Model.qmul ROps (C18_Model.qmul ROps (rl t) (qraw (fst mc) (lin + t * 4))) (rr t) in
     qraw (uc_mean u) (olin + t * 4) = q \/ qraw (uc_mean u) (olin + t * 4) = qneg q) /\
  (forall i j, (i < l_dcov Lout)%nat -> (j < l_dcov Lout)%nat ->
     @mget (RF sq eg) (l_dcov Lout) (l_dcov Lout) (uc_cov u) i j =
     rsum (l_dcov Lin) (fun a => rsum (l_dcov Lin) (fun b' => J i a * snd mc a b' * J j b')) + N i j) /\
  (forall i j, (i < l_dx Lin)%nat -> (j < l_dcov Lout)%nat ->
     @mget (RF sq eg) (l_dx Lin) (l_dcov Lout) (uc_cross u) i j =
     rsum (l_dcov Lin) (fun b' => snd mc i b' * J j b')).
Proof. intros Lin Lout. reflexivity. Qed.

(* The mean quaternion of a symmetric sigma set, also for a NEGATIVE central weight (C18's sym_gap_resultant
   and sym_centre_contract, read through the 4 x 4 block of the matrix handed to the oracle): with positive weights
   ws on the pairs a_k qc, conj(a_k) qc around the unit centre qc and a positive weighted resultant
   (2 vcoef < w0 + 2 sym_coef, i.e. 0 < w0 + 2 sum_k w_k (2 qw(a_k)^2 - |a_k|^2)), any vector that meets the
   eigen-solver contract for the second-moment matrix sum w q q^T is +- the centre, and the centre itself
   meets that contract. *)
Theorem C03_symmetric_mean_any_central_weight (A : mat4 ROps) (qc m : Q) (w0 : R) (ws : list R) (al : list Q) :
  qnorm2 qc = 1 -> length ws = length al -> Forall (fun w => 0 < w) ws ->
  2 * vcoef ws al < w0 + 2 * sym_coef ws al ->
  (forall i j, (i < 4)%nat -> (j < 4)%nat -> A i j = outer_sum ROps (sym_weights w0 ws) (sym_quats qc al) i j) ->
  (max_eig_contract A m -> m = qc \/ m = qneg qc) /\
  max_eig_contract (outer_sum ROps (sym_weights w0 ws) (sym_quats qc al)) qc.
Proof.
  intros H1 H2 H3 H4 H5.
  exact (conj (centre_dominant A qc m w0 ws al H1 H2 H3 H4 H5) (sym_centre_contract qc w0 ws al H1 H2 H3 H4)).
Qed.

(* The upper half of quat_comp_ok's smallness on the covariance alone: with tr_t(P) the trace of the t-th
   rotation block of P, c tr_t(P) < PI^2 puts every rotation-vector block of every sigma offset strictly
   within a half turn and tr_t(P) < 2 makes the weighted resultant positive (also for negative w0), for
   every factor with A A^T = P.  The lower bound (a non-zero block must be outside the 1e-4 cut-off zone of
   the code's exp / log pair, rot_blocks_readable) cannot come from the covariance and stays on the factor. *)
Theorem C03_quat_spread_from_covariance (sq : nat -> fmx -> fmx) (lin circ dc : nat) (c w0 wi : R) (P : fmx) :
  (lin + circ * 3 <= dc)%nat -> 0 < c -> w0 + 2 * INR dc * wi = 1 -> 2 * wi * c = 1 -> factor_ok sq dc P ->
  (forall t, (t < circ)%nat -> c * rot_trace lin P t < PI * PI /\ rot_trace lin P t < 2) ->
  rot_blocks_readable sq lin circ dc c P ->
  (forall t k, (t < circ)%nat -> (k < dc)%nat -> ok_rv (blk lin (fun j => sqrt c * sq dc P j k) t)) /\
  (forall t, (t < circ)%nat ->
     0 < w0 + 2 * wi * rsum dc (fun k => cos (n3 (blk lin (fun j => sqrt c * sq dc P j k) t)))).
Proof.
  intros rows Hc W1 W2 HF Hcov Hread. pose proof PI_RGT_0 as Hpi. split.
  - intros t k Ht Hk. destruct (Hread t k Ht Hk) as [E|E]; [left; exact E | right; split; [exact E|]].
    destruct (Hcov t Ht) as [H1 _]. pose proof (ss_blk_le sq lin circ dc c P rows Hc HF t k Ht Hk) as H2.
    set (v := blk lin (fun j => sqrt c * sq dc P j k) t) in *.
    pose proof (n3_nonneg v) as Hn. pose proof (n3_sq v) as Hq.
    destruct (Rlt_or_le (n3 v) PI) as [|Hge]; [assumption|]. exfalso. nra.
  - intros t Ht. destruct (Hcov t Ht) as [_ H2].
    apply (resultant_from_squares dc c w0 wi Hc W1 W2 (fun k => n3 (blk lin (fun j => sqrt c * sq dc P j k) t)) _) with (2 := H2).
    rewrite <- (sum_ss_blk sq lin circ dc c P rows Hc HF t Ht). apply Req_le, rsum_ext. intros k _. apply n3_sq.
Qed.

(* non-vacuity: the premises of C03_quat_affine_exact hold for a concrete instance (1 linear row, 1
   quaternion; alpha = 1, kappa = 0, c = 4; P = I / 4 with its diagonal factor; mean quaternion (1,0,0,0);
   y_lin = 2 x_lin + 1/2, y_quat = x_quat; the oracle returns (1,0,0,0), shown to meet its contract) *)
Example C03_quat_premises :
  let Lin := mkLayout 1 1 true 0 in
  let d := l_dim Lin in let dc := l_dcov Lin in let p := l_dim (mkLayout 1 1 true 0) in
  let w := ut_weights (O:=RF exq_sq exq_eg) dc 1 2 0 in
  let c := w_c w in let w0 := nth 0 (w_mean w) 0 in let wi := nth 1 (w_mean w) 0 in
  (0 < dc)%nat /\ 0 < c /\
  quat_map_ok exq_sq exq_eg 1 1 1 d dc p exq_Am exq_b exq_J exq_r exq_r /\
  (forall mc, In mc [(exq_m, exq_P)] -> quat_comp_ok exq_sq exq_eg 1 1 0 1 d dc p c w0 wi exq_Am exq_b mc).
Proof. exact quat_premises_example. Qed.

Print Assumptions C03_euler_sigma_moments.
Print Assumptions C03_euler_affine_exact.
Print Assumptions C03_euler_small_spread_from_covariance.
Print Assumptions C03_euler_affine_exact_small_cov.
Print Assumptions C03_euler_image_meaning.
Print Assumptions C03_quat_affine_exact.
Print Assumptions C03_quat_image_meaning.
Print Assumptions C03_symmetric_mean_any_central_weight.
Print Assumptions C03_quat_spread_from_covariance.
