(* C12_ProofsSym.v — the fault patterns used by the witnesses and examples computed on the
   symbolic instance (the one that is extracted and run against the library). *)
Require Import List Bool.
Require Import BFL.C12_Model BFL.C12_Proofs BFL.C12_Sym.
Import ListNotations.

Definition good6 : list bool := [false; false; false; false; false; false].
Definition bad (s : site) : list bool := map (site_eqb s) [Measure; Predicted; Innovation; NoiseCov; Freeze; Likelihood].

Lemma pat_of_bad s t : pat_of (bad s) t = site_eqb s t.
Proof. destruct s, t; reflexivity. Qed.

(* all sixteen patterns of the four measurement-model calls *)
Definition all16 : list (list bool) :=
  flat_map (fun a => flat_map (fun b => flat_map (fun c => map (fun d => [a; b; c; d; false; false]) [false; true])
                                                  [false; true]) [false; true]) [false; true].

Definition identity_at (k : nat) (o : obs) : bool := tm_eqb (o_g o) (leaf (IPredG k)).
