(* C13_Link.v — what the abstract propagate modes of the skip model mean: they
   are exactly the branches of C02's model of LinearStateModel::propagate, for
   every arithmetic instance (Properties_C13.C13_modes_are_linear_propagate). *)
Require Import List Bool.
Require Import BFL.Ops BFL.C02_Model BFL.C13_Model.

Section Link.
Variable O : MatOps.

Definition interp_mode {n k} (F : M O n n) (exo : option (M O n k -> M O n k)) (m : prop_mode)
           (cur old : M O n k) : M O n k :=
  let u := match exo with Some u => u | None => fun _ => old end in
  match m with
  | MCopy => cur
  | MFull => madd (mmul F cur) (u cur)
  | MStateOnly => mmul F cur
  | MExoOnly => u cur
  | MNothing => old
  end.

(* flags of a state model whose exogenous part is present exactly when exo is *)
Definition flags_of {A} (exo : option A) (p i ss se c : bool) : flags :=
  mkFlags p i ss (option_map (fun _ => se) exo) c.

End Link.
