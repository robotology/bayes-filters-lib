(* Properties_C03.v — property C03: the unscented transform preserves moments
   and is exact for affine maps, from the lemmas of C03_Proofs.  F is an arbitrary
   realFieldType; tr carries the (uninterpreted) scalar functions, sq the SVD square-root oracle, eg the eigenvector oracle.
   The theorems below cover the linear layout with or without appended noise
   rows (linear_layout L d: no circular component, l_lin L + l_noise L = d), any
   dimension, any mixture, any PSD covariance (singular included), any
   (alpha, beta, kappa) with c = n + lambda > 0.  The oracles enter only through
   per-instance premises: the square root of the one weight w_c squares to it; the factor of
   each covariance P actually factored satisfies A A^T = P.
   Circular (Euler) rows and quaternion blocks: this file proves the first sigma point for every layout
   (C03_first_sigma_point_partial, MathComp instance, transcendental functions uninterpreted) and, at the
   Coq-reals instance (the four standard real-number axioms), the per-row / per-block facts C03_circular_row
   and C03_quaternion_block on top of C19 and C18.  The WHOLE-LAYOUT statements for these layouts (moments
   preserved, exactness on affine maps for whole mixtures and all overloads, smallness premises explicit) are
   in Properties_C03_Real.v (theorems C03_euler_... and C03_quat_...), which is part of this check (EXTRA_PROPERTIES). *)
Require Import ZArith QArith List Lia.
Require Import BFL.Ops BFL.ListOps BFL.C03_Model.
From mathcomp Require Import ssreflect ssrfun ssrbool eqtype ssrnat seq choice fintype bigop order ssralg ssrnum zmodp matrix mxalgebra rat.
Require Import BFL.MxOps BFL.LinAlg BFL.C03_Proofs BFL.C03_Circular.
Require BFL.C03_Real.
Require Import BFL.ListOpsCorrect BFL.C02_Transport BFL.C03_Transport.
Import Order.Theory GRing.Theory Num.Theory.
Local Open Scope ring_scope.

Section C03.
Variable F : realFieldType.
Variable tr : Transc F.
Variable sq : forall n, 'M[F]_n -> 'M[F]_n.
Variable eg : forall n, 'M[F]_n -> 'M[F]_(n,1).
Let O := MxMat tr sq eg.

(* weights sum to one whenever n + lambda <> 0 *)
Theorem C03_weights_sum (n : nat) (alpha beta kappa : F) :
  n%:R + (alpha * alpha * (n%:R + kappa) - n%:R) != 0 ->
  ssum (FOps tr) (w_mean (ut_weights (O:=O) n alpha beta kappa)) = 1.
Proof.
move=> c0; rewrite ssumE ut_weights_mean big_cons sum_repeat; apply: (@ut_wmean_sum F tr sq eg n alpha beta kappa).
by rewrite ut_weights_c.
Qed.

(* 2n+1 weights of each kind; c = n + lambda = alpha^2 (n + kappa) *)
Theorem C03_weights_shape (n : nat) (alpha beta kappa : F) :
  [/\ length (w_mean (ut_weights (O:=O) n alpha beta kappa)) = Nat.add (Nat.mul 2 n) 1,
      length (w_cov (ut_weights (O:=O) n alpha beta kappa)) = Nat.add (Nat.mul 2 n) 1 &
      w_c (ut_weights (O:=O) n alpha beta kappa) = alpha * alpha * (n%:R + kappa)].
Proof.
by split; rewrite ?ut_weights_c ?ut_weights_c_alt // /ut_weights /= repeat_length; lia.
Qed.

(* sigma points: 2d+1 of them, the first is the mean, and under the weights they
   reproduce the mean and the covariance they were drawn from *)
Theorem C03_sigma_moments_linear (L : layout) (d : nat) (alpha beta kappa : F)
        (m : 'cV[F]_d) (P : 'M[F]_d) :
  linear_layout L d ->
  let w := ut_weights (O:=O) d alpha beta kappa in
  w_c w != 0 -> t_sqrt tr (w_c w) * t_sqrt tr (w_c w) = w_c w ->
  sq d P *m (sq d P)^T = P ->
  let Xs := sigma_comp (O:=O) L d d (w_c w) m P in
  [/\ length Xs = Nat.add (Nat.mul 2 d) 1,
      forall x, List.nth 0 Xs x = m,
      wsum (O:=O) (w_mean w) Xs = m &
      wouter (O:=O) (w_cov w) (List.map (fun x => x - m) Xs) (List.map (fun x => x - m) Xs) = P].
Proof.
move=> HL w cp sc fo Xs.
split; [exact: sigma_comp_length | by move=> x; exact: sigma_comp_first | exact: sigma_ut_M1 |].
by rewrite wouter_maps; exact: sigma_ut_M2.
Qed.

(* exactness on affine maps, whole mixture, generic overload: mean A m + b,
   covariance A P A^T, cross-covariance = the non-noise rows of P A^T; the output
   mixture has as many components, in the same order, and uniform weights *)
Theorem C03_affine_exact (Lin Lout : layout) (d dx p : nat) (alpha beta kappa : F)
        (A : 'M[F]_(p,d)) (b : 'cV[F]_p) (comps : list ('cV[F]_d * 'M[F]_d)) :
  linear_layout Lin d -> l_lin Lin = dx -> l_lin Lout = p ->
  let w := ut_weights (O:=O) d alpha beta kappa in
  w_c w != 0 -> t_sqrt tr (w_c w) * t_sqrt tr (w_c w) = w_c w ->
  (forall mc, In mc comps -> sq d mc.2 *m (sq d mc.2)^T = mc.2) ->
  ut_generic (O:=O) Lin Lout p dx w comps (fun X => Some (affine_cols (O:=O) A b X)) =
  Some (mkUtResult (O:=O)
          (List.map (fun mc => mkUtComp (O:=O) (A *m mc.1 + b : 'cV[F]_p) (A *m mc.2 *m A^T + 0)
                                        (sel F d dx *m mc.2 *m A^T)) comps)
          (repeat (1 / (length comps)%:R) (length comps))).
Proof. by move=> HL Hdx HLo w cp sc fo; exact: ut_generic_affine. Qed.

(* the StateModel and MeasurementModel overloads are the generic one; the two StateModel
   overloads (this one and the additive one below) have no failure path: their wrapped
   function always reports success and the caller discards the validity flag *)
Theorem C03_affine_exact_models (Lin Lout : layout) (d dx p : nat) (alpha beta kappa : F)
        (A : 'M[F]_(p,d)) (b : 'cV[F]_p) (comps : list ('cV[F]_d * 'M[F]_d)) :
  linear_layout Lin d -> l_lin Lin = dx -> l_lin Lout = p ->
  let w := ut_weights (O:=O) d alpha beta kappa in
  w_c w != 0 -> t_sqrt tr (w_c w) * t_sqrt tr (w_c w) = w_c w ->
  (forall mc, In mc comps -> sq d mc.2 *m (sq d mc.2)^T = mc.2) ->
  let r := mkUtResult (O:=O) (List.map (affine_image tr sq eg dx A b 0) comps)
                      (repeat (1 / (length comps)%:R) (length comps)) in
  ut_state (O:=O) Lin Lout p dx w comps (affine_cols (O:=O) A b) = r /\
  ut_meas (O:=O) Lin Lout p dx w comps (fun X => Some (affine_cols (O:=O) A b X)) = Some r.
Proof. by move=> HL Hdx HLo w cp sc fo r; split; [exact: ut_state_affine | exact: ut_generic_affine]. Qed.

(* additive overloads: the noise covariance is added once to every component *)
Theorem C03_affine_exact_additive (Lin Lout : layout) (d dx p : nat) (alpha beta kappa : F)
        (A : 'M[F]_(p,d)) (b : 'cV[F]_p) (N : 'M[F]_p) (comps : list ('cV[F]_d * 'M[F]_d)) :
  linear_layout Lin d -> l_lin Lin = dx -> l_lin Lout = p ->
  let w := ut_weights (O:=O) d alpha beta kappa in
  w_c w != 0 -> t_sqrt tr (w_c w) * t_sqrt tr (w_c w) = w_c w ->
  (forall mc, In mc comps -> sq d mc.2 *m (sq d mc.2)^T = mc.2) ->
  let r := mkUtResult (O:=O)
             (List.map (fun mc => mkUtComp (O:=O) (A *m mc.1 + b : 'cV[F]_p) (A *m mc.2 *m A^T + N)
                                           (sel F d dx *m mc.2 *m A^T)) comps)
             (repeat (1 / (length comps)%:R) (length comps)) in
  ut_additive_state (O:=O) Lin Lout p dx w comps (affine_cols (O:=O) A b) N = r /\
  ut_additive_meas (O:=O) Lin Lout p dx w comps (fun X => Some (affine_cols (O:=O) A b X)) N = Some r.
Proof.
move=> HL Hdx HLo w cp sc fo r; split.
  by rewrite /ut_additive_state ut_state_affine // add_noise_affine.
by rewrite /ut_additive_meas ut_generic_affine // add_noise_affine.
Qed.

(* augmented variant: belief augmented with the noise statistics, f [x; w] = A x + B w + b *)
Theorem C03_affine_exact_augmented (Lin Lout : layout) (n q p : nat) (alpha beta kappa : F)
        (A : 'M[F]_(p,n)) (B : 'M[F]_(p,q)) (b : 'cV[F]_p) (Q : 'M[F]_q)
        (comps : list ('cV[F]_n * 'M[F]_n)) :
  linear_layout Lin (n + q) -> l_lin Lin = n -> l_lin Lout = p ->
  let w := ut_weights (O:=O) (n + q) alpha beta kappa in
  w_c w != 0 -> t_sqrt tr (w_c w) * t_sqrt tr (w_c w) = w_c w ->
  (forall mc, In mc comps ->
     sq (n + q) (block_mx mc.2 0 0 Q) *m (sq (n + q) (block_mx mc.2 0 0 Q))^T = block_mx mc.2 0 0 Q) ->
  ut_generic (O:=O) Lin Lout p n w (List.map (augment_comp (O:=O) Q) comps)
             (fun X => Some (affine_cols (O:=O) (row_mx A B) b X)) =
  Some (mkUtResult (O:=O)
          (List.map (fun mc => mkUtComp (O:=O) (A *m mc.1 + b : 'cV[F]_p)
                                        (A *m mc.2 *m A^T + B *m Q *m B^T + 0) (mc.2 *m A^T)) comps)
          (repeat (1 / (length comps)%:R) (length comps))).
Proof. by move=> HL Hn HLo w cp sc fo; exact: ut_meas_affine_augmented. Qed.

(* every layout (Euler-circular rows, quaternion blocks, noise rows), every dimension and
   covariance, whatever the square-root oracle returns: the first sigma point of a
   component is its mean — exactly on linear, quaternion and noise rows, and
   arg(exp(j m_i)) on Euler rows.  PARTIAL for the property's circular / quaternion
   clauses in that it says nothing about the other sigma points: moment preservation and
   affine exactness on circular and quaternion rows for spreads within a half turn are
   proved over Coq's reals in Properties_C03_Real.v (C03_euler_sigma_moments,
   C03_euler_affine_exact_small_cov, C03_quat_affine_exact). *)
Theorem C03_first_sigma_point_partial (L : layout) (c : F) (m : 'cV[F]_(l_dim L)) (P : 'M[F]_(l_dcov L)) x :
  List.nth 0 (sigma_comp (O:=O) L (l_dim L) (l_dcov L) c m P) x =
  \matrix_(i, j) (if euler_row L i then C03_Model.wrap (O:=O) (m i 0) else m i j).
Proof.
rewrite /sigma_comp /=; apply/matrixP=> i j; rewrite !mxE !ord1 /add_mean_row /euler_row.
rewrite /colget /= !mx_get_0 !add0r !(mx_get_ord m i 0) !nat_ltbE nat_lebE.
move: (m i 0) (i : nat) => v k; rewrite /l_dim !plusE !multE !minusE addnK [(_ * _ + _)%N]addnC.
(* the regions tile the rows: linear, circular, then noise from row l_lin + l_circ * l_cw on *)
case: ltnP => H1; first by rewrite andbF.
rewrite andbT /l_cw; case: (l_quat L); rewrite /= ?muln1; case: ltnP => // H2.
by rewrite /dir_add /= add0r.
Qed.
End C03.

(* a failed function evaluation is reported as failure, never as a belief:
   every arithmetic instance, every layout, every overload that can fail *)
Theorem C03_failure_propagates (O : MatOps) Lin Lout d dc p pc dx (w : utw O)
        (comps : list (M O d 1 * M O dc dc)) (f : list (M O d 1) -> option (list (M O p 1))) R :
  f (sigma_points Lin d dc (w_c w) comps) = None ->
  [/\ ut_generic Lin Lout pc dx w comps f = None,
      ut_meas Lin Lout pc dx w comps f = None &
      ut_additive_meas Lin Lout pc dx w comps f R = None].
Proof. by move=> H; rewrite /ut_additive_meas /ut_meas /ut_generic H. Qed.

(* ... and a successful one is never reported as failure *)
Theorem C03_success_propagates (O : MatOps) Lin Lout d dc p pc dx (w : utw O)
        (comps : list (M O d 1 * M O dc dc)) (f : list (M O d 1) -> option (list (M O p 1))) Y :
  f (sigma_points Lin d dc (w_c w) comps) = Some Y ->
  ut_generic Lin Lout pc dx w comps f =
  Some (ut_core Lin Lout pc dx w comps (sigma_points Lin d dc (w_c w) comps) Y).
Proof. by rewrite /ut_generic => ->. Qed.

(* non-vacuity: the layout premise is the layout the entry points compute
   (l_dim = l_dcov = n + q, l_dx = n for a linear layout with q noise rows) *)
Example C03_layout_premise (n q : nat) :
  let L := mkLayout n 0 false q in
  linear_layout L (n + q) /\ l_dim L = (n + q)%N /\ l_dcov L = (n + q)%N /\ l_dx L = n /\ l_lin L = n.
Proof. by []. Qed.

(* ... the oracle premises follow from the usual contracts (c > 0 and a square root that
   is one on non-negative arguments; a PSD covariance and a factor oracle that is one on
   PSD matrices) — here for alpha = 1, kappa = 0, where c = n + 1 *)
Example C03_weight_premise (F : realFieldType) (tr : Transc F) sq eg (n : nat) (beta : F) :
  (forall x : F, 0 <= x -> t_sqrt tr x * t_sqrt tr x = x) ->
  let w := ut_weights (O:=MxMat tr sq eg) n.+1 1 beta 0 in
  w_c w != 0 /\ t_sqrt tr (w_c w) * t_sqrt tr (w_c w) = w_c w.
Proof.
move=> Hs w; have cp : 0 < w_c w by rewrite ut_weights_c ut_weights_c_alt !mul1r addr0 ltr0n.
by split; [rewrite gt_eqF | apply: Hs; apply: ltW].
Qed.

(* d = 2, alpha = 1, kappa = 2 (c = 4), covariance 4 I: all the theorem needs of the oracles
   is sqrt 4 = 2 and sq (4 I) = 2 I.  Stated over an arbitrary field: arithmetic in rat is slow
   to check, so the instance below puts rat in at the last step only *)
Lemma C03_affine_exact_4I (F : realFieldType) (tr : Transc F) sq eg
      (A : 'M[F]_(1,2)) (b : 'cV[F]_1) (x : 'cV[F]_2) :
  t_sqrt tr 4%:R = 2%:R -> sq 2%N 4%:R%:M = 2%:R%:M ->
  let O := MxMat tr sq eg in
  let P : 'M[F]_2 := 4%:R%:M in
  ut_generic (O:=O) (mkLayout 2 0 false 0) (mkLayout 1 0 false 0) 1 2 (ut_weights (O:=O) 2 1 0 2%:R)
             [:: (x, P)] (fun X => Some (affine_cols (O:=O) A b X)) =
  Some (mkUtResult (O:=O)
          [:: mkUtComp (O:=O) (A *m x + b : 'cV[F]_1) (A *m P *m A^T + 0) (sel F 2 2 *m P *m A^T)]
          (repeat (1 / 1%:R) 1)).
Proof.
move=> sqrt4 sq4 O P.
have Hc : w_c (ut_weights (O:=O) 2 1 0 2%:R) = 4%:R.
  by rewrite ut_weights_c ut_weights_c_alt !mul1r -natrD.
apply: (@C03_affine_exact F tr sq eg _ _ 2 2 1 1 0 2%:R A b [:: (x, P)]) => //.
- by rewrite Hc pnatr_eq0.
- by rewrite Hc sqrt4 -natrM.
- by move=> mc [<-|[]] /=; rewrite sq4 tr_scalar_mx -scalar_mxM -natrM.
Qed.

(* ... and they are satisfiable at the MathComp instance itself, over the rationals, with
   an explicit exact factor: d = 2, alpha = 1, kappa = 2 (c = 4, sqrt c = 2), covariance
   P = 4 I with factor 2 I; the theorem then yields the closed form for y = A x + b *)
Definition rat_tr : Transc [realFieldType of rat] :=
  @mkTransc [realFieldType of rat] (fun x => if x == 4%:R then 2%:R else 0) id id id id id (fun y _ => y) 3%:R 0.
Definition rat_sq (n : nat) (P : 'M[rat]_n) : 'M[rat]_n := 2%:R%:M.
Definition rat_eg (n : nat) (P : 'M[rat]_n) : 'M[rat]_(n,1) := 0.
Example C03_premises_rat (A : 'M[rat]_(1,2)) (b : 'cV[rat]_1) (x : 'cV[rat]_2) :
  let O := MxMat rat_tr rat_sq rat_eg in
  let L := mkLayout 2 0 false 0 in
  let w := ut_weights (O:=O) 2 1 0 2%:R in
  let P : 'M[rat]_2 := 4%:R%:M in
  ut_generic (O:=O) L (mkLayout 1 0 false 0) 1 2 w [:: (x, P)]
             (fun X => Some (affine_cols (O:=O) A b X)) =
  Some (mkUtResult (O:=O)
          [:: mkUtComp (O:=O) (A *m x + b : 'cV[rat]_1) (A *m P *m A^T + 0)
                       (sel [realFieldType of rat] 2 2 *m P *m A^T)]
          (repeat (1 / 1%:R) 1)).
Proof. exact: (@C03_affine_exact_4I _ rat_tr rat_sq rat_eg A b x erefl erefl). Qed.

(* ... and the executable instance of the same model, run over exact rationals
   with a square-root oracle returning an exact factor (P = A A^T, A = [[2,0],[1,1]],
   c = 4 so that sqrt c = 2 is exact: alpha = 1, kappa = 2, n = 2), reproduces the
   moments and the affine closed form y = [1 2] x + 3: mean 2, covariance 20 = A P A^T,
   cross-covariance P A^T = [8; 6]. *)
Definition QsqOps : SOps :=
  {| T := Q; s0 := s0 QOps; s1 := s1 QOps; sadd := sadd QOps; ssub := ssub QOps; smul := smul QOps; sdiv := sdiv QOps;
     sopp := sopp QOps; sleb := sleb QOps; sltb := sltb QOps; sofZ := sofZ QOps;
     ssqrt := fun x => if Qeq_bool x (4#1) then (2#1) else x;
     sexp := sexp QOps; sln := sln QOps; scos := scos QOps; ssin := ssin QOps; sacos := sacos QOps;
     satan2 := satan2 QOps; spi := spi QOps; stiny := stiny QOps |}.
Definition QM3 := ListMat QsqOps (fun _ _ => [:: [:: 2#1; 0#1]; [:: 1#1; 1#1]]%Q) (fun _ A => A).
Example C03_concrete_Q :
  let L := mkLayout 2 0 false 0 in
  let Lo := mkLayout 1 0 false 0 in
  let P := [:: [:: 4#1; 2#1]; [:: 2#1; 2#1]]%Q in
  let m := [:: [:: 1#1]; [:: -1#1]]%Q in
  let w := @ut_weights QM3 2 (1#1)%Q (2#1)%Q (2#1)%Q in
  let Xs := @sigma_comp QM3 L 2 2 (w_c w) m P in
  let r := @ut_generic QM3 L Lo 2 2 1 1 2 w [:: (m, P)]
             (fun X => Some (@affine_cols QM3 2 1 [:: [:: 1#1; 2#1]]%Q [:: [:: 3#1]]%Q X)) in
  Qeq_bool (w_c w) (4#1) && qmx_eqb (@wsum QM3 2 (w_mean w) Xs) m
  && qmx_eqb (@wouter QM3 2 2 (w_cov w) (List.map (fun x => @msub QM3 2 1 x m) Xs)
                      (List.map (fun x => @msub QM3 2 1 x m) Xs)) P
  && match r with
     | Some r => match ur_comps r with
                 | [:: u] => qmx_eqb (uc_mean u) [:: [:: 2#1]]%Q && qmx_eqb (uc_cov u) [:: [:: 20#1]]%Q
                             && qmx_eqb (uc_cross u) [:: [:: 8#1]; [:: 6#1]]%Q
                 | _ => false
                 end
     | None => false
     end = true.
Proof. vm_compute. reflexivity. Qed.

(* ---- transport: the structural core executed at the LIST instance (the one that is extracted
   and run) represents what the same definitions compute at the MathComp instance, on
   well-formed inputs, over any realFieldType: only rounding separates the two.  Not covered
   by these two theorems: the per-row builders (mbuild over mget), chunking, the square-root /
   eigenvector oracles; the whole transform is in Properties_Transport.v (from C03_Transport.v). *)
Theorem C03_transport_weighted_sums (F : realFieldType) (tr : Transc F) sq eg (r a b : nat) (ws : list F)
        ls (As : list 'cV[F]_r) lu (Us : list 'cV[F]_a) lv (Vs : list 'cV[F]_b) :
  let OL := ListMat (FOps tr) (fun _ X => X) (fun _ X => X) in
  let OM := MxMat tr sq eg in
  repr_cols ls As -> repr_cols lu Us -> repr_cols lv Vs ->
  repr (@wsum OL r ws ls) (@wsum OM r ws As : 'cV[F]_r) /\
  repr (@wouter OL a b ws lu lv) (@wouter OM a b ws Us Vs : 'M[F]_(a,b)).
Proof. by move=> OL OM H1 H2 H3; split; [exact: wsum_repr | exact: wouter_repr]. Qed.

Theorem C03_transport_affine_map (F : realFieldType) (tr : Transc F) sq eg (d p : nat)
        lA (A : 'M[F]_(p,d)) lb (b : 'cV[F]_p) ls (Xs : list 'cV[F]_d) :
  repr lA A -> repr lb b -> repr_cols ls Xs ->
  repr_cols (@affine_cols (ListMat (FOps tr) (fun _ X => X) (fun _ X => X)) d p lA lb ls)
            (@affine_cols (MxMat tr sq eg) d p A b Xs).
Proof. by move=> rA rb; exact: affine_cols_corr. Qed.

(* ---- circular rows and quaternion blocks at the Coq-reals instance (World B) ---- *)
Require Import Reals Lra.
Section C03Real.
Local Open Scope R_scope.
Import C03_Real C19_ROps C19_Proofs C18_Proofs.

(* One Euler row of a component's sigma points: mean angle m, tangent perturbations
   0, +p_k, -p_k (the row of [0 | sqrt(c) A | -sqrt(c) A]) with every |p_k| within a half
   turn, weights w0 :: wi ... wi, and a positive weighted resultant w0 + 2 wi sum cos p_k
   (stated, not hidden: w0 is negative for small alpha).  Then the directional mean of
   the row is arg(exp(j m)) and directional_sub recovers every perturbation exactly: the
   row contributes to the covariance sums exactly as a linear row does. *)
Theorem C03_circular_row (m w0 wi : R) (ps : list R) :
  let perts := 0 :: app ps (List.map Ropp ps) in
  let xs := List.map (fun p => C03_Model.dir_add (O:=RM) p m) perts in
  let ws := w0 :: repeat wi (Nat.add (length ps) (length ps)) in
  Forall in_range ps -> Forall (fun p => in_range (- p)) ps -> ps <> nil ->
  0 < w0 + 2 * wi * fold_right (fun p acc => cos p + acc) 0 ps ->
  C03_Model.dir_mean (O:=RM) ws xs = C19_Model.wrap ROps m /\
  List.map (fun x => C03_Model.dir_sub (O:=RM) x (C03_Model.dir_mean (O:=RM) ws xs)) xs = perts.
Proof.
by move=> perts xs ws H1 H2 H3 H4; split; [exact: circular_row_mean | exact: circular_row_offsets].
Qed.

(* A sigma quaternion exp(p/2) q built by sum_quaternion_rotation_vector from the unit mean
   quaternion q is read back as p by diff_quaternion when p is outside the 1e-4 cut-off zone
   and within a half turn; in every case the error is at most 2 asin(1e-4).  (This is how both
   the input offsets and, for maps that act as rotations of the tangent space, the output
   offsets are formed.) *)
Theorem C03_quaternion_block (q : C03_Model.quat RM) (p : C03_Model.rvec RM) :
  qnorm2 (toQ q) = 1 -> n3 (toV p) <= PI ->
  (cut < sin (n3 (toV p) / 2) -> C03_Model.qdiff (O:=RM) (C03_Model.qsum (O:=RM) q p) q = p) /\
  vdist (toV (C03_Model.qdiff (O:=RM) (C03_Model.qsum (O:=RM) q p) q)) (toV p) <= 2 * asin cut.
Proof.
  intros Hq Hp. split.
  - intros Hc.
    assert (E : toV (C03_Model.qdiff (O:=RM) (C03_Model.qsum (O:=RM) q p) q) = toV p).
    { rewrite qdiff_is_C18 qsum_is_C18. now apply diff_sum_round_trip. }
    destruct (C03_Model.qdiff (O:=RM) (C03_Model.qsum (O:=RM) q p) q) as [[x y] z], p as [[x' y'] z'].
    simpl in E. inversion E. reflexivity.
  - rewrite qdiff_is_C18 qsum_is_C18. now apply diff_sum_error_bound.
Qed.

(* the scalar helpers of C03_Model used above are C19's / C18's transcriptions of the same code *)
Theorem C03_scalar_helpers_are_C19_C18 :
  (forall x, C03_Model.wrap (O:=RM) x = C19_Model.wrap ROps x) /\
  (forall ws a b l, C03_Model.dir_mean (O:=RM) ws (a :: b :: l) = C19_Model.mean_row ROps (a :: b :: l) ws) /\
  (forall q r, toQ (C03_Model.qsum (O:=RM) q r) = C18_Model.qsum_one ROps (toQ q) (toV r)) /\
  (forall a b, toV (C03_Model.qdiff (O:=RM) a b) = C18_Model.qdiff_one ROps (toQ a) (toQ b)).
Proof.
  split; [exact wrap_is_C19|]. split; [intros; apply dir_mean_is_C19|].
  split; [exact qsum_is_C18 | exact qdiff_is_C18].
Qed.

(* non-vacuity of C03_circular_row: p = 1/2, w0 = -1/2, wi = 3/4 (resultant -1/2 + 3/2 cos(1/2) > 0) *)
Example C03_circular_row_premises :
  let ps := (1/2) :: nil in
  Forall in_range ps /\ Forall (fun p => in_range (- p)) ps /\ ps <> nil /\
  0 < -(1/2) + 2 * (3/4) * fold_right (fun p acc => cos p + acc) 0 ps.
Proof.
  pose proof PI_RGT_0 as Hpi. pose proof PI2_1 as H1. unfold PI2 in H1.
  simpl. repeat split.
  - constructor; [unfold in_range; lra | constructor].
  - constructor; [unfold in_range; lra | constructor].
  - discriminate.
  - assert (Hc : 1 / 2 < cos (1/2)).
    { destruct (pre_cos_bound (1/2) 0) as [Hl _]; try lra.
      unfold cos_approx, cos_term in Hl. simpl in Hl. lra. }
    simpl. lra.
Qed.
End C03Real.

Print Assumptions C03_weights_sum.
Print Assumptions C03_weights_shape.
Print Assumptions C03_sigma_moments_linear.
Print Assumptions C03_affine_exact.
Print Assumptions C03_affine_exact_models.
Print Assumptions C03_affine_exact_additive.
Print Assumptions C03_affine_exact_augmented.
Print Assumptions C03_first_sigma_point_partial.
Print Assumptions C03_failure_propagates.
Print Assumptions C03_success_propagates.
Print Assumptions C03_transport_weighted_sums.
Print Assumptions C03_transport_affine_map.
Print Assumptions C03_circular_row.
Print Assumptions C03_quaternion_block.
Print Assumptions C03_scalar_helpers_are_C19_C18.
