(* C13_Proofs.v — lemmas about the skip state machine (plain Coq, no axioms). *)
Require Import List Bool.
Require Import BFL.C13_Model.
Import ListNotations.
Local Open Scope bool_scope.

(* the value of the exogenous flag as the prediction's rule reads it:
   an absent exogenous model counts as "skipped" *)
Definition exo_or_true (f : flags) : bool := match f_exo f with Some e => e | None => true end.

(* closed form of one command: all four layers unfolded *)
Definition after (w : name) (b : bool) (f : flags) : res * flags :=
  match w with
  | NPrediction => (Ok true, mkFlags b (f_inner f) b (option_map (fun _ => b) (f_exo f)) (f_corr f))
  | NState => (Ok true, mkFlags (b && exo_or_true f) (f_inner f) b (f_exo f) (f_corr f))
  | NExogenous =>
      match f_exo f with
      | None => (Ok false, f)
      | Some _ => (Ok true, mkFlags (f_state f && b) (f_inner f) (f_state f) (Some b) (f_corr f))
      end
  | NCorrection => (Ok true, mkFlags (f_pred f) (f_inner f) (f_state f) (f_exo f) b)
  | NAll => (Ok true, mkFlags b (f_inner f) b (option_map (fun _ => b) (f_exo f)) b)
  | NOther => (Ok false, f)
  end.

Lemma filter_skip_after w b f : filter_skip w b f = after w b f.
Proof.
destruct f as [p i s [e|] c]; destruct w; destruct b; try reflexivity;
  cbv; destruct s; reflexivity.
Qed.

(* the four flags a command sets directly: each takes the status of a command that names it *)
Lemma step_fields w b f :
  let f1 := snd (filter_skip w b f) in
  f_state f1 = (if mem_name w state_names then b else f_state f) /\
  f_exo f1 = match f_exo f with
             | Some e => Some (if mem_name w exo_names then b else e)
             | None => None
             end /\
  f_corr f1 = (if mem_name w corr_names then b else f_corr f) /\
  f_inner f1 = f_inner f.
Proof.
cbv zeta; rewrite filter_skip_after.
destruct f as [p i s [e|] c]; destruct w; simpl; repeat split; reflexivity.
Qed.

Definition known (w : name) : bool :=
  match w with NPrediction | NState | NCorrection | NAll => true | _ => false end.

Lemma known_true_nothrow w b f : known w = true -> fst (filter_skip w b f) = Ok true.
Proof. rewrite filter_skip_after; destruct w; simpl; try discriminate; reflexivity. Qed.

(* no command attaches or detaches an exogenous model *)
Lemma have_exo_step w b f : have_exo (snd (filter_skip w b f)) = have_exo f.
Proof.
destruct (step_fields w b f) as (_ & He & _); unfold have_exo; rewrite He.
destruct (f_exo f); reflexivity.
Qed.

Lemma have_exo_run cs : forall f, have_exo (snd (run cs f)) = have_exo f.
Proof.
induction cs as [|[w b] cs IH]; intros f; [reflexivity|].
simpl; rewrite IH; apply have_exo_step.
Qed.

Lemma run_keeps_exo cs : forall f, have_exo f = true -> exists e, f_exo (snd (run cs f)) = Some e.
Proof.
intros f Hf; rewrite <- (have_exo_run cs) in Hf; unfold have_exo in Hf.
destruct (f_exo (snd (run cs f))) as [e|]; [exists e; reflexivity|discriminate].
Qed.

Lemma have_exo_final have cs : have_exo (final cs (init have)) = have.
Proof. unfold final; rewrite have_exo_run; destruct have; reflexivity. Qed.

Lemma one_never_throws w b f : fst (filter_skip w b f) <> Throws.
Proof.
rewrite filter_skip_after; destruct w; simpl; try discriminate.
destruct (f_exo f); discriminate.
Qed.

Lemma run_never_throws cs : forall f, ~ In Throws (fst (run cs f)).
Proof.
induction cs as [|c cs IH]; intros f; simpl; [tauto|].
intros [H|H]; [exact (one_never_throws _ _ _ H)|exact (IH _ H)].
Qed.

Lemma run_length cs : forall f, length (fst (run cs f)) = length cs.
Proof. induction cs as [|c cs IH]; intros f; simpl; [reflexivity|rewrite IH; reflexivity]. Qed.

Lemma run_known_all_true cs : forall f,
  forallb (fun c => known (fst c)) cs = true -> Forall (fun r => r = Ok true) (fst (run cs f)).
Proof.
induction cs as [|c cs IH]; intros f H; simpl; [constructor|].
simpl in H; apply andb_true_iff in H; destruct H as [H1 H2].
constructor; [apply known_true_nothrow; exact H1|apply IH; exact H2].
Qed.

(* with an exogenous model attached the guards are never exercised *)
Lemma guards_irrelevant_with_model G w b f e : f_exo f = Some e ->
  filter_skip_g G w b f = filter_skip w b f.
Proof.
destruct f as [p i s x c]; simpl; intros ->; destruct G as [[|] [|] [|]]; destruct w; reflexivity.
Qed.

Definition inv (f : flags) : Prop := f_pred f = f_state f && exo_or_true f.

Lemma inv_init have : inv (init have).
Proof. destruct have; reflexivity. Qed.

(* a command either recomputes the prediction's flag from the two model flags, or touches none of the three *)
Lemma inv_step w b f : inv f -> inv (snd (filter_skip w b f)).
Proof.
unfold inv, exo_or_true; rewrite filter_skip_after; intros H.
destruct w; simpl; try exact H.
- destruct (f_exo f), b; reflexivity.
- reflexivity.
- destruct (f_exo f) eqn:E; simpl; [reflexivity|rewrite E; exact H].
- destruct (f_exo f), b; reflexivity.
Qed.

(* what propagate does when the prediction is not skipped: under the invariant "state model skipped"
   then means that the exogenous part alone runs, and the two branches of propagate that do not
   run any part (MCopy, MNothing) are out of reach *)
Lemma prop_mode_unskipped f : inv f -> f_pred f = false ->
  prop_mode_of f = if f_state f then MExoOnly else if exo_or_true f then MStateOnly else MFull.
Proof.
destruct f as [p i [|] [[|]|] c]; unfold inv; simpl; intros -> H; try discriminate H; reflexivity.
Qed.

Lemma final_cons c cs f : final (c :: cs) f = final cs (snd (filter_skip (fst c) (snd c) f)).
Proof. reflexivity. Qed.

Lemma final_app a : forall b f, final (a ++ b) f = final b (final a f).
Proof.
induction a as [|c a IH]; intros b f; [reflexivity|].
simpl app; rewrite !final_cons; apply IH.
Qed.

Lemma final_one w b f : final [(w, b)] f = snd (after w b f).
Proof. rewrite <- filter_skip_after; reflexivity. Qed.

Lemma last_status_cons names d c cs :
  last_status names d (c :: cs) = last_status names (if mem_name (fst c) names then snd c else d) cs.
Proof. reflexivity. Qed.

Lemma last_status_app names d a b : last_status names d (a ++ b) = last_status names (last_status names d a) b.
Proof. apply fold_left_app. Qed.

Definition exo_after (f0 : flags) (cs : list cmd) : option bool :=
  match f_exo f0 with
  | Some e => Some (last_status exo_names e cs)
  | None => None
  end.

Lemma run_flags cs : forall f, inv f ->
  let f' := final cs f in
  f_state f' = last_status state_names (f_state f) cs /\
  f_exo f' = exo_after f cs /\
  f_corr f' = last_status corr_names (f_corr f) cs /\
  f_inner f' = f_inner f /\
  inv f'.
Proof.
induction cs as [|[w b] cs IH]; intros f Hi.
- simpl; unfold final, exo_after; simpl; destruct (f_exo f); repeat split; exact Hi.
- change (final ((w, b) :: cs) f) with (final cs (snd (filter_skip w b f))).
  destruct (IH _ (inv_step w b f Hi)) as (Hs & He & Hc & Hn & Hv).
  destruct (step_fields w b f) as (Ss & Se & Sc & Sn).
  cbv zeta; rewrite Hs, He, Hc, Hn, Ss, Sc, Sn; rewrite !last_status_cons; unfold exo_after.
  rewrite Se; simpl fst; simpl snd.
  destruct (f_exo f); repeat split; exact Hv.
Qed.

(* the derived rule, from a freshly constructed filter, as one equation: the flags are a function of the commands *)
Lemma final_by_rule have cs :
  final cs (init have) =
  mkFlags (last_status state_names false cs && (if have then last_status exo_names false cs else true)) false
          (last_status state_names false cs) (if have then Some (last_status exo_names false cs) else None)
          (last_status corr_names false cs).
Proof.
destruct (run_flags cs (init have) (inv_init have)) as (Hs & He & Hc & Hn & Hv); revert Hs He Hc Hn Hv.
unfold inv, exo_or_true, exo_after; destruct (final cs (init have)) as [p i s x c]; simpl.
intros -> -> -> -> ->; destruct have; reflexivity.
Qed.

Lemma flags_match_commands have cs :
  let f := final cs (init have) in
  f_state f = last_status state_names false cs /\
  f_exo f = (if have then Some (last_status exo_names false cs) else None) /\
  f_corr f = last_status corr_names false cs /\
  f_pred f = f_state f && exo_or_true f /\
  f_inner f = false.
Proof. cbv zeta; rewrite final_by_rule; destruct have; repeat split. Qed.

(* what is_skipping() of the prediction step reports, in terms of the commands alone *)
Lemma pred_reported have cs :
  f_pred (final cs (init have)) =
  last_status state_names false cs && (if have then last_status exo_names false cs else true).
Proof. rewrite final_by_rule; reflexivity. Qed.

Section Steps.
Variable B : Type.
Variable pstep : kind -> prop_mode -> B -> B -> B.
Variable cstep : kind -> B -> B -> B.
Variable same_shape : B -> B -> bool.
Variable gpf_sliced : B -> B -> B.

Lemma predict_skipped k f prev old : f_pred f = true -> predict B pstep same_shape gpf_sliced k f prev old = prev.
Proof. unfold predict; intros ->; reflexivity. Qed.

Lemma correct_skipped k f pred old : f_corr f = true -> correct B cstep k f pred old = pred.
Proof. unfold correct; intros ->; reflexivity. Qed.

(* the prediction step reads its own four flags only: the correction's flag is irrelevant to it *)
Lemma predict_ext k f g prev old :
  f_pred f = f_pred g -> f_inner f = f_inner g -> f_state f = f_state g -> f_exo f = f_exo g ->
  predict B pstep same_shape gpf_sliced k f prev old = predict B pstep same_shape gpf_sliced k g prev old.
Proof. destruct f, g; simpl; intros -> -> -> ->; reflexivity. Qed.

Lemma predict_identity_by_rule (have : bool) cs k prev old :
  last_status state_names false cs && (if have then last_status exo_names false cs else true) = true ->
  predict B pstep same_shape gpf_sliced k (final cs (init have)) prev old = prev.
Proof. intros H; apply predict_skipped; rewrite pred_reported; exact H. Qed.

Lemma correct_identity_by_rule have cs k pred old :
  last_status corr_names false cs = true ->
  correct B cstep k (final cs (init have)) pred old = pred.
Proof.
intros H; apply correct_skipped; rewrite final_by_rule; exact H.
Qed.

Definition all_off (f : flags) : Prop :=
  f_pred f = false /\ f_state f = false /\ exo_or_true f = negb (have_exo f) /\ f_corr f = false.
(* exo_or_true f = negb (have_exo f): the exogenous flag is off when there is such a model *)

Lemma all_off_is_init have cs : all_off (final cs (init have)) -> final cs (init have) = init have.
Proof.
rewrite final_by_rule; unfold all_off, exo_or_true, have_exo; simpl.
intros (_ & -> & Hx & ->); destruct have; [rewrite Hx|]; reflexivity.
Qed.

Lemma back_to_init_after_all_off have cs : final (cs ++ [(NAll, false)]) (init have) = init have.
Proof.
rewrite final_by_rule, !last_status_app; destruct have; reflexivity.
Qed.

Lemma never_skipped_predict have k prev old :
  predict B pstep same_shape gpf_sliced k (init have) prev old = pstep k (if have then MFull else MStateOnly) prev old.
Proof. destruct have; destruct k; reflexivity. Qed.

Lemma never_skipped_correct have k pred old :
  correct B cstep k (init have) pred old = cstep k pred old.
Proof. reflexivity. Qed.

Lemma reversible have cs k : all_off (final cs (init have)) ->
  (forall prev old, predict B pstep same_shape gpf_sliced k (final cs (init have)) prev old = predict B pstep same_shape gpf_sliced k (init have) prev old) /\
  (forall pred old, correct B cstep k (final cs (init have)) pred old = correct B cstep k (init have) pred old).
Proof. intros H; rewrite (all_off_is_init have cs H); split; reflexivity. Qed.

End Steps.

Lemma final_m_cons o ops st : final_m (o :: ops) st = final_m ops (next o st).
Proof. reflexivity. Qed.

(* the machine state after a word: the flags are those after its skip commands alone, and the cursor of the
   measurement source counts its freeze calls, whatever the skip commands were *)
Lemma final_m_eq ops : forall st,
  final_m ops st = mkM (final (skips_of ops) (ms_flags st)) (ms_cursor st + freezes_of ops).
Proof.
induction ops as [|o ops IH]; intros [f n].
- simpl; rewrite <- plus_n_O; reflexivity.
- rewrite final_m_cons, IH; destruct o; try reflexivity.
  change (freezes_of (OpFreeze :: ops)) with (S (freezes_of ops)); rewrite <- plus_n_Sm; reflexivity.
Qed.

Lemma skips_of_calls ops : skips_of (calls_of ops) = [].
Proof. induction ops as [|o ops IH]; [reflexivity|]; destruct o; simpl; exact IH. Qed.

Lemma freezes_of_calls ops : freezes_of (calls_of ops) = freezes_of ops.
Proof.
unfold freezes_of; induction ops as [|o ops IH]; [reflexivity|]; destruct o; simpl; rewrite ?IH; reflexivity.
Qed.

Section Measured.
Variable B : Type.
Variable cstepm : kind -> nat -> B -> B -> B.

Lemma correct_m_skipped k st pred old : f_corr (ms_flags st) = true -> correct_m B cstepm k st pred old = pred.
Proof. unfold correct_m, correct; intros ->; reflexivity. Qed.
End Measured.

Lemma run_ops_length k ops : forall st, length (run_ops k ops st) = length ops.
Proof. induction ops as [|o ops IH]; intros st; simpl; [reflexivity|rewrite IH; reflexivity]. Qed.
