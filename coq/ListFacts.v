(* ListFacts.v — facts about the standard library's lists that Coq 8.16 does not have and that several
   properties need (some are in List under these names in later releases).  Standard library only. *)
Require Import List Arith Lia.

Lemma nth_map_in {A B} (f : A -> B) l i d d' : i < length l -> nth i (map f l) d = f (nth i l d').
Proof. intros H. rewrite (nth_indep _ d (f d')) by (rewrite map_length; exact H). apply map_nth. Qed.

Lemma nth_map_seq_from {A} (f : nat -> A) a n i d : i < n -> nth i (map f (seq a n)) d = f (a + i).
Proof. intros H. rewrite (nth_map_in f _ i d 0) by (rewrite seq_length; exact H). now rewrite seq_nth. Qed.

Lemma nth_map_seq {A} (f : nat -> A) n i d : i < n -> nth i (map f (seq 0 n)) d = f i.
Proof. exact (nth_map_seq_from f 0 n i d). Qed.

Lemma map_seq_ext {A} (f g : nat -> A) n : (forall i, i < n -> f i = g i) -> map f (seq 0 n) = map g (seq 0 n).
Proof. intros H. apply map_ext_in. intros i Hi. apply in_seq in Hi. apply H. lia. Qed.

Lemma nth_skipn {A} (l : list A) n i d : nth i (skipn n l) d = nth (n + i) l d.
Proof. revert l; induction n; intro l; [reflexivity|]. destruct l; [destruct i; reflexivity | apply IHn]. Qed.

Lemma firstn_S_nth {A} (l : list A) k (d : A) :
  k < length l -> firstn (S k) l = firstn k l ++ nth k l d :: nil.
Proof.
  revert k. induction l as [|a l IH]; intros k Hk; cbn in Hk; [lia|].
  destruct k; cbn; [reflexivity|]. f_equal. apply IH. lia.
Qed.

Lemma map_repeat {A B} (f : A -> B) a n : map f (repeat a n) = repeat (f a) n.
Proof. induction n; simpl; congruence. Qed.

Lemma fold_left_ext_in {A B} (f g : A -> B -> A) l a :
  (forall a b, In b l -> f a b = g a b) -> fold_left f l a = fold_left g l a.
Proof.
  revert a. induction l as [|b l IH]; simpl; intros a H; [reflexivity|].
  rewrite H by auto. apply IH. intros. apply H. auto.
Qed.

Lemma combine_app {A B} (a1 a2 : list A) (b1 b2 : list B) : length a1 = length b1 ->
  combine (a1 ++ a2) (b1 ++ b2) = combine a1 b1 ++ combine a2 b2.
Proof.
  revert b1. induction a1 as [|x a IH]; intros [|y b] H; simpl in *; try discriminate; [reflexivity|].
  f_equal. apply IH. now injection H.
Qed.

Lemma combine_nth_lt {A B} : forall (l : list A) (l' : list B) n x y, (n < length l)%nat -> (n < length l')%nat ->
  nth n (combine l l') (x, y) = (nth n l x, nth n l' y).
Proof.
  induction l as [|a l IH]; intros [|b l'] n x y H1 H2; simpl in *; try lia.
  destruct n; [reflexivity|]. apply IH; lia.
Qed.

Lemma map_fst_combine {A B} (a : list A) (b : list B) : length a = length b -> map fst (combine a b) = a.
Proof. revert b; induction a; destruct b; simpl; intro H; try congruence. f_equal. apply IHa. congruence. Qed.

Lemma map_snd_combine {A B} (a : list A) (b : list B) : length a = length b -> map snd (combine a b) = b.
Proof. revert b; induction a; destruct b; simpl; intro H; try congruence. f_equal. apply IHa. congruence. Qed.

Lemma combine_map2 {A B C} (f : A -> B) (g : A -> C) l :
  combine (map f l) (map g l) = map (fun x => (f x, g x)) l.
Proof. induction l; simpl; [reflexivity|]. now rewrite IHl. Qed.

Lemma combine_map_r {A B C} (g : B -> C) (ws : list A) l :
  combine ws (map g l) = map (fun p => (fst p, g (snd p))) (combine ws l).
Proof. revert l. induction ws as [|w ws IH]; intros [|x l]; simpl; try reflexivity. now rewrite IH. Qed.

Lemma combine_repeat_map {A B} (w : A) (h : nat -> B) a n :
  combine (repeat w n) (map h (seq a n)) = map (fun k => (w, h k)) (seq a n).
Proof. revert a. induction n as [|n IH]; intros a; simpl; [reflexivity|]. now rewrite IH. Qed.

(* block i of a concatenation of blocks of width b *)
Lemma firstn_skipn_concat {A} b (ls : list (list A)) i :
  (forall l, In l ls -> length l = b) -> i < length ls -> firstn b (skipn (b * i) (concat ls)) = nth i ls nil.
Proof.
  revert i. induction ls as [|l ls IH]; intros i Hl Hi; simpl in *; [lia|].
  assert (Ll : length l = b) by (apply Hl; now left).
  destruct i as [|i].
  - rewrite Nat.mul_0_r. simpl. rewrite firstn_app, Ll, Nat.sub_diag. simpl. rewrite app_nil_r.
    rewrite <- Ll. apply firstn_all.
  - replace (b * S i) with (length l + b * i) by (rewrite Ll; lia).
    rewrite skipn_app. replace (length l + b * i - length l) with (b * i) by lia.
    rewrite (skipn_all2 l) by lia. simpl. apply IH; [intros; apply Hl; now right | lia].
Qed.
