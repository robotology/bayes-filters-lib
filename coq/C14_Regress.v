(* C14_Regress.v — regression specifications for C14-relevant defects that have been
   repaired in /repo: the OLD transcription of the repaired code with its [_refuted]
   witness, so that a reintroduction is recognised for what it is.  Not part of any
   property theorem; the property theorems are about the current transcription. *)
Require Import Arith List Bool String Lia.
Require Import BFL.C14_Model BFL.C14_Proofs.
Import ListNotations.
Open Scope nat_scope.

(* ---- before 49d7ed0: the additive-measurement unscented_transform added the noise covariance to
        output.covariance(i), i < state.components, also when the evaluation had failed and the
        output was the default-constructed 1-component, 1-dimensional mixture *)
Definition p_ut_before_49d7ed0 (variant : nat) (li : layout) (comps w : nat) (valid : bool) (pr pc : nat) (lo : layout) (qr qc : nat) : prog :=
  let e := ut_entry variant in
  p_ut_core e li comps w valid pr pc lo ++
  match variant with
  | 2 => p_ut_add_noise e comps true lo qr qc
  | 4 => p_ut_add_noise e comps valid lo qr qc
  | _ => []
  end.

(* trigger: predictedMeasure fails with more than one component ... *)
Lemma ut_addmeas_failed_components_refuted :
  check_shapes (p_ut_before_49d7ed0 4 (Lay 3 0 false 0) 2 3 false 1 14 (Lay 1 0 false 0) 1 1)
  = Some (e_ut_addmeas, "output.covariance(i)"%string).
Proof. vm_compute. reflexivity. Qed.
(* ... or with a measurement size other than 1 *)
Lemma ut_addmeas_failed_size_refuted :
  check_shapes (p_ut_before_49d7ed0 4 (Lay 3 0 false 0) 1 3 false 2 7 (Lay 2 0 false 0) 2 2)
  = Some (e_ut_addmeas, "output.covariance(i)+=noise_cov"%string).
Proof. vm_compute. reflexivity. Qed.
(* the same configurations are safe for the current transcription *)
Lemma ut_addmeas_failed_now_safe :
  run (case_ut 4 (Lay 3 0 false 0) 2 3 false 1 14 (Lay 1 0 false 0) 1 1) = Safe /\
  run (case_ut 4 (Lay 3 0 false 0) 1 3 false 2 7 (Lay 2 0 false 0) 2 2) = Safe.
Proof. split; vm_compute; reflexivity. Qed.

(* ---- before 201e1b4: UKFCorrection kept the innovations (ir x comps) of the last successful step when a
        later step could not use the measurement, while predicted_meas_ had been replaced by the default
        1x1 mixture; getLikelihood() then evaluated the old innovations against it *)
Definition p_ukf_lik_stale_before_201e1b4 (comps ir : nat) : prog :=
  for_ comps (fun i => [ It e_ukfl "innovations_.col(i)" (Idx comps i);
                         It e_ukfl "predicted_meas_.covariance(i)" (Blk 1 1 0 i 1 1) ] ++
                       p_density e_ukfl ir 1 ir 1 1).
Lemma ukf_stale_likelihood_size_refuted :
  check_shapes (p_ukf_lik_stale_before_201e1b4 1 2) = Some (e_ukfl, "diff^T*covariance^-1"%string).
Proof. vm_compute. reflexivity. Qed.
Lemma ukf_stale_likelihood_components_refuted :
  check_shapes (p_ukf_lik_stale_before_201e1b4 2 1) = Some (e_ukfl, "predicted_meas_.covariance(i)"%string).
Proof. vm_compute. reflexivity. Qed.

(* ---- before e82207d: UKFCorrection sliced Pxy with meas_size = total_size() (4 per quaternion) while its
        blocks are dim_covariance (3 per quaternion) wide: xr rows, mdc*comps columns *)
Definition p_ukfc_gain_before_e82207d (xr comps : nat) (lm : layout) : prog :=
  for_ comps (fun i =>
    [ It e_ukfc "Pxy.middleCols(meas_size*i,meas_size)" (Blk xr (lcov lm * comps) 0 (ldim lm * i) xr (ldim lm));
      It e_ukfc "Pxy_i*Py^-1" (Mul xr (ldim lm) (lcov lm) (lcov lm)) ]).
Lemma ukfc_quaternion_measurement_refuted :
  check_shapes (p_ukfc_gain_before_e82207d 3 1 (Lay 0 1 true 0))
  = Some (e_ukfc, "Pxy.middleCols(meas_size*i,meas_size)"%string).
Proof. vm_compute. reflexivity. Qed.
(* without quaternions the two sizes coincide: the old program was safe there *)
Lemma ukfc_gain_old_safe_without_quaternions xr comps lm : quat lm = false ->
  run (p_ukfc_gain_before_e82207d xr comps lm) = Safe.
Proof.
  intro Hq. apply run_safe_iff. unfold p_ukfc_gain_before_e82207d.
  destruct lm as [L C q N]; simpl in Hq; subst q. shape; arith.
Qed.
(* the same configuration through the current transcription *)
Lemma ukfc_quaternion_measurement_now_safe :
  run (case_ukfc false (Lay 3 0 false 0) 1 2 true (Lay 0 1 true 0) 3 (Lay 3 0 false 0) 1 false false) = Safe.
Proof. vm_compute. reflexivity. Qed.

(* ---- before d09c5ac: ResamplingWithPrior built its three temporaries without use_quaternion *)
Definition p_resprior_copy_before_d09c5ac (lc : layout) (n k : nat) : prog :=
  let lt := Lay (lin lc) (circ lc) false 0 in
  for_ (n - k) (fun j => [ It e_resp "tmp.state(j)=" (Same (ldim lt) 1 (ldim lc) 1) ]).
Lemma resprior_quaternion_refuted :
  check_shapes (p_resprior_copy_before_d09c5ac (Lay 2 1 true 0) 4 2) = Some (e_resp, "tmp.state(j)="%string).
Proof. vm_compute. reflexivity. Qed.
Lemma resprior_quaternion_now_safe : run (case_resprior (Lay 2 1 true 0) 4 2 4) = Safe.
Proof. vm_compute. reflexivity. Qed.

(* ---- before c09dbd3: InitSurveillanceAreaGrid::initialize wrote x, 0, y, 0 into every state column whatever
        its size; the states of the 1-D and 3-D motion models have 2 and 6 rows *)
Definition p_grid_before_c09dbd3 (nx ny n : nat) (l : layout) : prog :=
  when (n =? nx * ny)
    (for_ nx (fun i => for_ ny (fun j =>
       [ It e_grid "state().col(i*ny+j)" (Idx n (i * ny + j));
         It e_grid "col<<x,0,y,0" (Comma (ldim l) 4) ]))).
Lemma grid_state_2d_refuted : run (p_grid_before_c09dbd3 2 2 4 (Lay 2 0 false 0)) = Fails e_grid "col<<x,0,y,0".
Proof. vm_compute. reflexivity. Qed.
Lemma grid_state_6d_refuted : run (p_grid_before_c09dbd3 1 3 3 (Lay 6 0 false 0)) = Fails e_grid "col<<x,0,y,0".
Proof. vm_compute. reflexivity. Qed.
Lemma grid_state_not_4d_now_safe :
  run (case_grid 2 2 4 (Lay 2 0 false 0)) = Safe /\ run (case_grid 1 3 3 (Lay 6 0 false 0)) = Safe /\
  obs_grid 2 2 4 (Lay 2 0 false 0) = [0] /\ obs_grid 2 2 4 (Lay 4 0 false 0) = [1].
Proof. repeat split; vm_compute; reflexivity. Qed.

(* ---- before b8dad93: getNoiseSample drew a 4 x num buffer for every Dim (LinearModel: 2 x num for every m) *)
Definition p_wna_noise_before_b8dad93 (D num : nat) : prog :=
  [ It e_wna_noise "sqrt_Q_*rand_vectors" (Mul (wna_d D) (wna_d D) 4 num) ].
Lemma wna_noise_fixed_rows_refuted :
  check_shapes (p_wna_noise_before_b8dad93 1 3) = Some (e_wna_noise, "sqrt_Q_*rand_vectors"%string) /\
  check_shapes (p_wna_noise_before_b8dad93 3 3) = Some (e_wna_noise, "sqrt_Q_*rand_vectors"%string) /\
  check_shapes (p_wna_noise_before_b8dad93 2 3) = None.
Proof. repeat split; vm_compute; reflexivity. Qed.

(* ---- before 6ed89b9: bufferData read target_.col(t-1) for every call and returned true *)
Definition p_sim_calls_before_6ed89b9 (T calls : nat) : prog :=
  for_ calls (fun k => [ It e_sim_buffer "target_.col(t-1)" (Idx T k) ]).
Lemma sim_buffer_past_end_refuted :
  check_shapes (p_sim_calls_before_6ed89b9 3 4) = Some (e_sim_buffer, "target_.col(t-1)"%string).
Proof. vm_compute. reflexivity. Qed.

(* ---- before 56b3d39: a SimulatedStateModel with simulation_time = 0 wrote column 0 of a 0-column matrix *)
Definition p_sim_ctor_before_56b3d39 (T ir : nat) : prog :=
  [ It e_sim_ctor "target_.col(0)" (Idx T 0); It e_sim_ctor "col(0)=initial_state" (Same ir 1 ir 1) ].
Lemma sim_empty_trajectory_refuted :
  check_shapes (p_sim_ctor_before_56b3d39 0 2) = Some (e_sim_ctor, "target_.col(0)"%string).
Proof. vm_compute. reflexivity. Qed.

(* ---- before 3576481: setHistorySize popped (old window - new window) elements whatever was stored *)
Definition p_h_shrink_before_3576481 (win sz tmp : nat) : prog :=
  for_ (win - tmp) (fun j => [ It e_h_set "pop_back" (Pop (sz - j)) ]).
Lemma history_shrink_pops_empty_refuted :
  check_shapes (p_h_shrink_before_3576481 30 2 2) = Some (e_h_set, "pop_back"%string).
Proof. vm_compute. reflexivity. Qed.

(* ---- a cache slip of the kind of seeded change C14-r5 (not a defect of /repo; kept as the specification of what the
        sequence model must see): exponentialAverage decides whether to rebuild em_weights_ by EXAMINING the size of
        wm_weights_ (the weighted-average cache).  Only the windowed branch of x_step differs: [probe] of x_avg_tail
        is the other family's cache for the exponential family. *)
Definition x_step_wrong_probe (el ec : nat) (s : xstate) (o : xop) : prog * xstate * list nat :=
  match o with
  | XExtract full pr n wn pw ln tr tc =>
      if (2 <=? xstat s) && negb full then ([], s, [0; el + ec])
      else
        let cur := ext_stat_rows (xstat s) el ec pr in
        let ps := p_ext_stat (xstat s) el ec pr n wn pw ln tr tc in
        match xavg s with
        | 0 => (ps, s, [1; cur])
        | avg =>
            let '(pa, h') := h_step (el + ec) (xh s) (HAdd cur) in
            let els' := firstn (hsz h') (cur :: xels s) in
            let probe := match avg with 1 => xsm s | _ => xwm s end in
            let '(pt, c') := x_avg_tail avg el ec (hsz h') probe (x_cache avg s) in
            (ps ++ relabel e_ext pa ++ p_h_get e_ext (el + ec) (hsz h') els' ++ pt, x_set_cache avg s h' els' c', [1; el + ec])
        end
  | _ => x_step el ec s o
  end.
Fixpoint x_run_wrong_probe (el ec : nat) (s : xstate) (ops : list xop) : prog :=
  match ops with
  | [] => []
  | o :: r => let '(p, s', _) := x_step_wrong_probe el ec s o in p ++ x_run_wrong_probe el ec s' r
  end.
Definition x2 (n : nat) := XExtract false 2 n n 0 0 0 0.
(* (a) emean x5, window 2, one wmean, emean: a 2-column history times the 5 weights cached before *)
Definition ops_longer_cache := [XMethod 0 3; x2 2; x2 2; x2 2; x2 2; x2 2; XWindow 2; XMethod 0 2; x2 2; XMethod 0 3; x2 2].
(* (b) emean x2, wmean x3, emean: a 5-column history times 2 weights (the over-read) *)
Definition ops_shorter_cache := [XMethod 0 3; x2 3; x2 3; XMethod 0 2; x2 3; x2 3; x2 3; XMethod 0 3; x2 3].
Lemma extseq_wrong_probe_refuted :
  run (x_run_wrong_probe 2 0 x_init ops_longer_cache) = Fails e_ext "topRows*exp(w)" /\
  run (x_run_wrong_probe 2 0 x_init ops_shorter_cache) = Fails e_ext "topRows*exp(w)" /\
  (* circular components only: the mismatch is in directional_mean *)
  run (x_run_wrong_probe 0 2 x_init ops_shorter_cache) = Fails e_ext "directional_mean:exp(a)*w".
Proof. repeat split; vm_compute; reflexivity. Qed.
(* a single windowed family never shows it (the other cache stays empty, the own one is rebuilt at every call) *)
Lemma extseq_wrong_probe_single_family_safe :
  run (x_run_wrong_probe 2 0 x_init [XMethod 1 3; x2 2; x2 2; x2 2; XWindow 2; x2 2; XClear; x2 2; XWindow 9; x2 2; x2 2]) = Safe.
Proof. vm_compute. reflexivity. Qed.
Lemma extseq_now_safe :
  run (case_extseq 2 0 ops_longer_cache) = Safe /\ run (case_extseq 2 0 ops_shorter_cache) = Safe /\
  run (case_extseq 0 2 ops_shorter_cache) = Safe.
Proof. repeat split; vm_compute; reflexivity. Qed.
