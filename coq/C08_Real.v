(* C08_Real.v — the C08 model over Coq's real numbers: the scalar record C08_ROps
   (ln / exp are the real functions of the standard library), positivity of the
   Gaussian density, non-negativity of the shipped likelihood and transition models,
   and the increment one step of a history adds to a log-weight.  The product form
   exp lw' = exp lw (l+eps)(t+eps)/(q+eps), the positivity guard of every logarithm and
   the telescope over a history are proved from these in Properties_C08.v.
   Axioms: the four real-number axioms of Coq's Reals only.  The model functions are the
   ones of C08_Model, taken at C08_ROps (and, for the whole step, at the list instance
   of the matrix interface over these scalars). *)
Require Import ZArith Reals Lra Lia List.
Require Import BFL.Ops BFL.ListOps BFL.Density BFL.C01_Model BFL.C08_Model BFL.C08_Struct.
Import ListNotations.
Local Open Scope R_scope.

Definition Rleb8 (a b : R) : bool := if Rle_dec a b then true else false.
Definition Rltb8 (a b : R) : bool := if Rlt_dec a b then true else false.

(* the scalar interface at R.  stiny = 2^-1022 = numeric_limits<double>::min().
   satan2 is not used by the C08 model (any total function would do). *)
Definition C08_ROps : SOps :=
  mkSOps R 0 1 Rplus Rminus Rmult Rdiv Ropp Rleb8 Rltb8 IZR
         sqrt exp ln cos sin acos (fun y x => atan (y / x)) PI (/ IZR (Z.pow 2 1022)).

Lemma tiny_pos : 0 < stiny C08_ROps.
Proof. cbn [stiny C08_ROps]. apply Rinv_0_lt_compat. apply IZR_lt. reflexivity. Qed.

Lemma gpf_weight_R (lw l t q : R) :
  gpf_weight C08_ROps lw l t q =
  lw + ln (l + stiny C08_ROps) + ln (t + stiny C08_ROps) - ln (q + stiny C08_ROps).
Proof. reflexivity. Qed.

Lemma weight_ratio_bounds (lw l t q : R) :
  0 <= l -> 0 <= t -> 0 <= q -> 0 < exp (gpf_weight C08_ROps lw l t q).
Proof. intros. apply exp_pos. Qed.

Lemma nth_map_nonneg {A} (f : A -> R) (l : list A) i : (forall x, 0 <= f x) -> 0 <= nth i (map f l) 0.
Proof.
  intros H. destruct (nth_in_or_default i (map f l) 0) as [Hin | ->]; [|lra].
  apply in_map_iff in Hin. destruct Hin as (x & <- & _). apply H.
Qed.

Section Step.
Variable sq eg : nat -> lmx C08_ROps -> lmx C08_ROps.
Let O := ListMat C08_ROps sq eg.
Variable n : nat.

(* a Gaussian density is positive: q_i needs no premise *)
Lemma density_pos d (x m : M O d 1) (P : M O d d) : 0 < density (O:=O) x m P.
Proof. unfold density. cbn [sexp sc O ListMat C08_ROps]. apply exp_pos. Qed.

(* the shipped likelihood and transition models return non-negative values *)
Lemma gauss_lik_h_nonneg m (scale : R) v1 v2 v3 v4 (h : M O n 1 -> M O m 1) (R0 : M O m m) (y : M O m 1) ys i :
  0 <= scale -> 0 <= nth i (snd (gauss_lik_h (O:=O) scale v1 v2 v3 v4 h R0 y ys)) 0.
Proof.
  intros Hs. unfold gauss_lik_h.
  assert (Z : 0 <= nth i (snd (false, [s0 (sc O)])) 0) by (destruct i as [|[|i]]; cbn; lra).
  destruct v1; [|exact Z]. destruct v2; [|exact Z]. destruct v3; [|exact Z]. destruct v4; [|exact Z].
  apply nth_map_nonneg. intros x. apply Rmult_le_pos; [exact Hs | apply Rlt_le, density_pos].
Qed.

Lemma lin_trans_nonneg (F Q : M O n n) ps cs i : 0 <= nth i (lin_trans (O:=O) F Q ps cs) 0.
Proof.
  apply nth_map_nonneg. intros pc. apply Rlt_le, density_pos.
Qed.

(* increment of log-weight i contributed by step s taken from state st *)
Definition step_incr (st : fstate O n) (s : step_in O n) (i : nat) : R :=
  let st' := gpf_step st s in
  let gC := si_gc s (gm_of (fs_pred st')) (gm_of (fs_corr st)) in
  let xs := gpf_drawn (si_gc s) (si_zs s) (fs_pred st') (fs_corr st) in
  gpf_weight C08_ROps 0 (nth i (fs_lik st') 0)
             (nth i (si_trans s (map pstate (fs_pred st')) xs) 0)
             (density (O:=O) (nth i xs (mzero n 1)) (gmean (belief_at gC i)) (gcov (belief_at gC i))).

Fixpoint incr_sum (st : fstate O n) (h : list (step_in O n)) (i : nat) : R :=
  match h with
  | [] => 0
  | s :: h' => step_incr st s i + incr_sum (gpf_step st s) h' i
  end.

(* every correction of the history is valid and its likelihood / transition models return one
   value per particle (their contract) *)
Fixpoint all_valid (N : nat) (st : fstate O n) (h : list (step_in O n)) : Prop :=
  match h with
  | [] => True
  | s :: h' =>
      let st' := gpf_step st s in
      fs_valid st' = true /\ length (fs_lik st') = N /\
      length (si_trans s (map pstate (fs_pred st'))
                       (gpf_drawn (si_gc s) (si_zs s) (fs_pred st') (fs_corr st))) = N /\
      all_valid N st' h'
  end.

Lemma gpf_weight_split (lw l t q : R) :
  gpf_weight C08_ROps lw l t q = lw + gpf_weight C08_ROps 0 l t q.
Proof. rewrite !gpf_weight_R. lra. Qed.

(* one valid step adds its increment to log-weight i *)
Lemma step_weight_incr (N : nat) (st : fstate O n) (s : step_in O n) (i : nat) :
  length (fs_pred st) = N -> length (fs_corr st) = N ->
  shape_ok O n (si_gp s) -> shape_ok O n (si_gc s) ->
  let st' := gpf_step st s in
  fs_valid st' = true -> length (fs_lik st') = N ->
  length (si_trans s (map pstate (fs_pred st')) (gpf_drawn (si_gc s) (si_zs s) (fs_pred st') (fs_corr st))) = N ->
  (i < N)%nat ->
  plw (nth i (fs_corr st') (dparticle O n)) = plw (nth i (fs_corr st) (dparticle O n)) + step_incr st s i.
Proof.
  intros Lp Lc Sp Sc st' Hv Hl1 Hl2 Hi. subst st'.
  destruct (gpf_step_formulae O n N st s Lp Lc Sp Sc) as (_ & _ & _ & Hw & _ & _ & _ & Hval).
  destruct (Hval Hv) as (_ & _ & Hall). destruct (Hall Hl1 Hl2 i Hi) as [_ Hwi].
  rewrite Hwi, gpf_weight_split. f_equal. rewrite <- !(map_nth plw), Hw. reflexivity.
Qed.

End Step.
