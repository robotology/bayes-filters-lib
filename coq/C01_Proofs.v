(* C01_Proofs.v — the Kalman correction model: the fields of one corrected component (any
   instance), the matrix algebra behind them, and the two together at the MathComp instance. *)
Require Import ZArith List.
Require Import BFL.Ops BFL.Density BFL.C01_Model.
From mathcomp Require Import ssreflect ssrfun ssrbool eqtype ssrnat seq choice fintype bigop order ssralg ssrnum zmodp matrix mxalgebra.
Require Import BFL.MxOps BFL.LinAlg.
Set Implicit Arguments.
Unset Strict Implicit.
Unset Printing Implicit Defensive.
Import Order.Theory GRing.Theory Num.Theory.
Local Open Scope ring_scope.

(* the fields of kf_correct_one, for every instance (definitional) *)
Section Fields.
Variable O : MatOps.
Variables (n m : nat) (H : M O m n) (R : M O m m) (y : M O m 1) (c : gcomp O n).
Let nu := mopp (msub (mmul H (gmean c)) y).
Let Py := madd (mmul (mmul H (gcov c)) (mtr H)) R.
Let K := mmul (mmul (gcov c) (mtr H)) (minv Py).
Lemma ko_innovE : ko_innov (kf_correct_one H R y c) = nu. Proof. by []. Qed.
Lemma ko_PyE : ko_Py (kf_correct_one H R y c) = Py. Proof. by []. Qed.
Lemma ko_meanE : gmean (ko_comp (kf_correct_one H R y c)) = madd (gmean c) (mmul K nu).
Proof. by []. Qed.
Lemma ko_covE :
  gcov (ko_comp (kf_correct_one H R y c)) = msub (gcov c) (mmul (mmul K Py) (mtr K)).
Proof. by []. Qed.
End Fields.

Section KFAlgebra.
Variable F : realFieldType.
Variables (n m : nat).
Variables (P : 'M[F]_n) (H : 'M[F]_(m,n)) (R : 'M[F]_m).
Hypothesis spdP : spd P.
Hypothesis spdR : spd R.

Let S := H *m P *m H^T + R.
Let K := P *m H^T *m invmx S.
Let Pp := P - K *m S *m K^T.

Lemma S_spd : spd S.
Proof. apply: psd_spd_add => //; apply: psd_congr; exact: spd_psd. Qed.

Lemma S_unit : S \in unitmx. Proof. exact: spd_unit S_spd. Qed.

Lemma KSKt : K *m S *m K^T = K *m H *m P.
Proof.
have uS := S_unit.
have symS : S^T = S by case: S_spd.
have symP : P^T = P by case: spdP.
rewrite /K !trmx_mul trmxK trmx_inv symS symP -!mulmxA.
by rewrite [invmx S *m (S *m _)]mulmxA (mulVmx uS) mul1mx.
Qed.

Lemma Pp_eq : Pp = P - K *m H *m P.
Proof. by rewrite /Pp KSKt. Qed.

Lemma KS : K *m S = P *m H^T.
Proof. by rewrite /K -mulmxA (mulVmx S_unit) mulmx1. Qed.

(* The two products that give the information form, the conjugate mean and the
   Joseph form: Pp P^-1 = 1 - K H and Pp H^T = K R. *)
Lemma Pp_invP : Pp *m invmx P = 1%:M - K *m H.
Proof.
have uP := spd_unit spdP.
by rewrite Pp_eq mulmxBl (mulmxV uP) -mulmxA (mulmxV uP) mulmx1.
Qed.

Lemma Pp_Ht : Pp *m H^T = K *m R.
Proof.
have -> : Pp *m H^T = P *m H^T - K *m (S - R) by rewrite Pp_eq /S addrK mulmxBl !mulmxA.
by rewrite mulmxBr KS opprB addrC subrK.
Qed.

Lemma Pp_Ht_invR p (Z : 'M[F]_(m,p)) : Pp *m H^T *m invmx R *m Z = K *m Z.
Proof. by rewrite Pp_Ht -[K *m R *m _]mulmxA (mulmxV (spd_unit spdR)) mulmx1. Qed.

(* Woodbury / information form *)
Lemma kf_information_form : Pp *m (invmx P + H^T *m invmx R *m H) = 1%:M.
Proof. by rewrite mulmxDr Pp_invP !mulmxA Pp_Ht_invR subrK. Qed.

Lemma info_unit : invmx P + H^T *m invmx R *m H \in unitmx.
Proof. by case/mulmx1_unit: kf_information_form. Qed.

Lemma kf_cov_is_info_inverse : Pp = invmx (invmx P + H^T *m invmx R *m H).
Proof.
have uI := info_unit.
by rewrite -[LHS]mulmx1 -(mulmxV uI) mulmxA kf_information_form mul1mx.
Qed.

Lemma Pp_sym : sym Pp.
Proof.
apply: sym_sub; first by case: spdP.
by apply: sym_congr; case: S_spd.
Qed.

Lemma joseph : Pp = (1%:M - K *m H) *m P *m (1%:M - K *m H)^T + K *m R *m K^T.
Proof.
have -> : (1%:M - K *m H) *m P = Pp by rewrite Pp_eq mulmxBl mul1mx.
by rewrite linearB /= trmx1 trmx_mul mulmxBr mulmx1 mulmxA Pp_Ht subrK.
Qed.

Lemma Pp_psd : psd Pp.
Proof.
rewrite joseph; apply: psd_add; apply: psd_congr; exact: spd_psd.
Qed.

Lemma Pp_le_prior : mle Pp P.
Proof.
rewrite /mle /Pp opprB addrC subrK.
by apply: psd_congr; apply: spd_psd; exact: S_spd.
Qed.

(* conjugate mean *)
Lemma kf_mean_information (x : 'cV[F]_n) (y : 'cV[F]_m) :
  x + K *m (- (H *m x - y)) =
  Pp *m (invmx P *m x + H^T *m invmx R *m y).
Proof.
rewrite mulmxDr !mulmxA Pp_invP Pp_Ht_invR mulmxBl mul1mx.
by rewrite mulmxN mulmxBr opprB mulmxA addrA addrAC.
Qed.

End KFAlgebra.

(* the model instantiated at MathComp *)
Section KFModel.
Variable F : realFieldType.
Variable tr : Transc F.
Variable sq : forall n, 'M[F]_n -> 'M[F]_n.
Variable eg : forall n, 'M[F]_n -> 'M[F]_(n,1).
Let O := MxMat tr sq eg.

Variables (n m : nat).
Variables (H : M O m n) (R : M O m m) (y : M O m 1).
Hypothesis spdR : spd (R : 'M[F]_m).

Definition prior_ok (c : gcomp O n) := spd (gcov c : 'M[F]_n).

Lemma kf_one_cov c : prior_ok c ->
  (gcov (ko_comp (kf_correct_one H R y c)) : 'M[F]_n) =
  invmx (invmx (gcov c) + H^T *m invmx R *m H).
Proof. by move=> pc; rewrite ko_covE; apply: kf_cov_is_info_inverse. Qed.

Lemma kf_one_mean_info c : prior_ok c ->
  (gmean (ko_comp (kf_correct_one H R y c)) : 'cV[F]_n) =
  (gcov (ko_comp (kf_correct_one H R y c)) : 'M[F]_n) *m
    (invmx (gcov c) *m gmean c + H^T *m invmx R *m y).
Proof. by move=> pc; rewrite ko_covE ko_meanE; apply: kf_mean_information. Qed.

Lemma kf_one_is_info_posterior c : prior_ok c ->
  ko_comp (kf_correct_one H R y c) = info_posterior H R y c.
Proof.
move=> pc; move: (kf_one_cov pc) (kf_one_mean_info pc).
rewrite /info_posterior.
by case: (ko_comp _) => mu Pc /= -> ->.
Qed.

Lemma kf_one_Py_unit c : prior_ok c -> (ko_Py (kf_correct_one H R y c) : 'M[F]_m) \in unitmx.
Proof. by move=> pc; rewrite ko_PyE; apply: S_unit. Qed.

End KFModel.
