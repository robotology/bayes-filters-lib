(* Properties_C12.v — property C12: a correction that cannot use the measurement
   leaves the belief untouched.  For the Kalman, bootstrap and Gaussian-particle corrections the theorem about a
   sensor that fails by itself comes first and the one about an injected pattern is its instance
   (through C12_Proofs.inject_fails4, resp. lik_eval_fails); for UKF, SUKF and the Gaussian likelihood both are instances of one failure lemma
   (ukf_step_failure, sukf_step_failure, gl_reports_failure_pointwise).

   All statements hold for EVERY fault pattern (function site -> bool), every
   underlying measurement model (which may fail on its own), every belief,
   every previous content of the output object and of the members, and every
   choice of the numerical routines (the Section variables).  `r_out` is the
   WHOLE output object (means, covariances, weights, states, shape fields). *)
Require Import ZArith List Bool.
Require Import BFL.Ops BFL.ListFacts BFL.Density BFL.C01_Model.
Require Import BFL.C12_Model BFL.C12_Proofs BFL.C12_Sym BFL.C12_ProofsSym BFL.C12_KFInst.
Require BFL.C08_Model BFL.C12_GPFInst.
Require Import BFL.C12_Payload.
Import ListNotations.

Section C12.
Variables G St Y X YP NU RC PY PM PXY LK RNG GS : Type.
Notation mmodel := (mmodel Y X YP NU RC).

(* ---- numerical routines: arbitrary *)
Variable kf_px : G -> X.
Variable kf_upd : G -> NU -> RC -> G -> G * PY.
Variable kf_lik : NU -> PY -> LK.
Variable sigma_of : G -> X.
Variable ut_moments : G -> YP -> PM * PXY.
Variable pm_default : PM.
Variable pxy_empty : PXY.
Variable pm_add_noise : PM -> RC -> PM.
Variable ukf_augment : G -> RC -> G.
Variable pm_mean : PM -> YP.
Variable ukf_upd : G -> PM -> PXY -> NU -> G -> G.
Variable ukf_lik : NU -> PM -> LK.
Variable sukf_pred_mean : YP -> YP.
Variable sukf_upd : G -> X -> YP -> NU -> RC -> G -> G * YP.
Variable sukf_lik : NU -> YP -> RC -> LK.
Variable st_px : St -> X.
Variable gl_dens : NU -> RC -> LK.
Variable lk_zero1 : LK.
Variable boot_wupd : G -> LK -> G.
Variable gpf_sample : RNG -> G -> St -> St * RNG.
Variable gpf_wupd : pset G St -> LK -> pset G St -> G.
Variable sis_predict sis_correct : pset G St -> pset G St -> pset G St.
Variable sis_normalise sis_resample : pset G St -> pset G St.
Variable sis_degenerate : pset G St -> bool.

Notation KF := (kf_step kf_px kf_upd).
Notation UKF := (ukf_step sigma_of ut_moments pm_default pxy_empty pm_add_noise ukf_augment pm_mean ukf_upd).
Notation SUKF := (sukf_step sigma_of sukf_pred_mean sukf_upd).
Notation GL := (gl_likelihood st_px gl_dens).
Notation BOOT := (boot_step st_px gl_dens lk_zero1 boot_wupd).
Notation GPF := (gpf_step st_px gl_dens lk_zero1 gpf_sample gpf_wupd).
Notation LIK := (lik_eval st_px gl_dens lk_zero1).

(* the sensor reports the failure of one of the four calls -- premise only at the arguments of this
   very call (any value returned next to a false flag, e.g. an empty matrix, is covered) *)
Theorem C12_kf_identity_any_model (mm : mmodel) (pred out : G) st :
  (mm_measure mm = None \/ mm_predicted mm (kf_px pred) = None \/
   (forall y yp, mm_measure mm = Some y -> mm_predicted mm (kf_px pred) = Some yp -> mm_innovation mm yp y = None) \/
   fst (mm_noisecov mm) = false) ->
  r_out (KF mm pred out st) = pred /\ r_st (KF mm pred out st) = mkKfSt None (kf_py st).
Proof.
  unfold kf_step. intros Hf.
  destruct (mm_measure mm) as [y|] eqn:E1; simpl; [|auto].
  destruct (mm_predicted mm (kf_px pred)) as [yp|] eqn:E2; simpl; [|auto].
  destruct (mm_innovation mm yp y) eqn:E3; simpl; [|auto].
  destruct (mm_noisecov mm) as [[|] R]; simpl in *; [|auto].
  destruct Hf as [Hf|[Hf|[Hf|Hf]]]; try discriminate.
  rewrite (Hf y yp eq_refl eq_refl) in E3. discriminate.
Qed.

(* in particular under an injected pattern: measure / predictedMeasure / innovation /
   getNoiseCovarianceMatrix, any subset failing *)
Theorem C12_kf_identity (p : pattern) (mm : mmodel) (pred out : G) st :
  fails_any p sites4 = true ->
  r_out (KF (inject p mm) pred out st) = pred /\ r_st (KF (inject p mm) pred out st) = mkKfSt None (kf_py st).
Proof.
  intros Hf. apply C12_kf_identity_any_model.
  destruct (inject_fails4 p mm Hf) as [H|[H|[H|H]]]; auto.
Qed.

(* calls made: exactly the prefix up to the first failing call *)
Theorem C12_kf_call_log (p : pattern) (y : Y) (h : X -> YP) (inn : YP -> Y -> NU) (R : RC) (pred out : G) st :
  r_log (KF (inject p (total_mm y h inn R)) pred out st) = upto_first_failure p sites4.
Proof.
  unfold kf_step, inject, total_mm, sites4; simpl.
  destruct (p Measure); simpl; [reflexivity|].
  destruct (p Predicted); simpl; [reflexivity|].
  destruct (p Innovation); simpl; [reflexivity|].
  destruct (p NoiseCov); simpl; [reflexivity|].
  destruct (kf_upd _ _ _ _); reflexivity.
Qed.

Theorem C12_no_fault_kf (y : Y) (h : X -> YP) (inn : YP -> Y -> NU) (R : RC) (pred out : G) st :
  let nu := inn (h (kf_px pred)) y in
  KF (inject no_fault (total_mm y h inn R)) pred out st =
  mkRes (fst (kf_upd pred nu R out)) (mkKfSt (Some nu) (snd (kf_upd pred nu R out))) sites4.
Proof.
  unfold kf_step, inject, total_mm, no_fault; simpl.
  destruct (kf_upd _ _ _ _); reflexivity.
Qed.

(* getLikelihood after ANY correction that could not use the measurement reports failure,
   whatever preceded it (st arbitrary: in particular the members left by earlier successes) *)
Theorem C12_kf_likelihood_after_failure_reports_failure (p : pattern) (mm : mmodel) (pred out : G) st :
  fails_any p sites4 = true ->
  kf_get_lik kf_lik (r_st (KF (inject p mm) pred out st)) = None.
Proof. intros Hf. now destruct (C12_kf_identity p mm pred out st Hf) as [_ ->]. Qed.

Theorem C12_kf_likelihood_after_failure_reports_failure_any_model (mm : mmodel) (pred out : G) st :
  (mm_measure mm = None \/ mm_predicted mm (kf_px pred) = None \/
   (forall y yp, mm_measure mm = Some y -> mm_predicted mm (kf_px pred) = Some yp -> mm_innovation mm yp y = None) \/
   fst (mm_noisecov mm) = false) ->
  kf_get_lik kf_lik (r_st (KF mm pred out st)) = None.
Proof. intros Hf. now destruct (C12_kf_identity_any_model mm pred out st Hf) as [_ ->]. Qed.

Theorem C12_kf_likelihood_after_success (y : Y) (h : X -> YP) (inn : YP -> Y -> NU) (R : RC) (pred out : G) st :
  let nu := inn (h (kf_px pred)) y in
  kf_get_lik kf_lik (r_st (KF (inject no_fault (total_mm y h inn R)) pred out st)) =
  Some (kf_lik nu (snd (kf_upd pred nu R out))).
Proof. intros nu. now rewrite C12_no_fault_kf. Qed.

Theorem C12_ukf_identity (additive : bool) (p : pattern) (mm : mmodel) (pred out : G) st :
  fails_any p sites3 = true ->
  r_out (UKF additive (inject p mm) pred out st) = pred /\
  u_innov (r_st (UKF additive (inject p mm) pred out st)) = None.
Proof.
  intros Hf. apply ukf_step_failure.
  destruct (inject_fails3 p mm Hf) as [H|[H|H]]; auto.
Qed.

Theorem C12_ukf_identity_any_model (additive : bool) (mm : mmodel) (pred out : G) st :
  let input := if additive then pred else ukf_augment pred (snd (mm_noisecov mm)) in
  let pm_of := fun yp => let pm := fst (ut_moments input yp) in
                         if additive then pm_add_noise pm (snd (mm_noisecov mm)) else pm in
  (mm_measure mm = None \/ mm_predicted mm (sigma_of input) = None \/
   (forall y yp, mm_measure mm = Some y -> mm_predicted mm (sigma_of input) = Some yp ->
                 mm_innovation mm (pm_mean (pm_of yp)) y = None)) ->
  r_out (UKF additive mm pred out st) = pred /\
  ukf_get_lik ukf_lik (r_st (UKF additive mm pred out st)) = None.
Proof. intros input pm_of Hf. split; [|apply ukf_get_lik_None]; now apply ukf_step_failure. Qed.

(* the flag of getNoiseCovarianceMatrix is not consulted (the statement of C12 does not ask for it) *)
Theorem C12_ukf_noisecov_flag_ignored (additive : bool) (p : pattern) (mm : mmodel) (pred out : G) st :
  UKF additive (inject p mm) pred out st = UKF additive (inject (mask NoiseCov p) mm) pred out st.
Proof.
  rewrite !ukf_step_eq. unfold ukf_pm, ukf_input, inject, mask; simpl.
  destruct (p NoiseCov); reflexivity.
Qed.

Theorem C12_ukf_generic_call_log (p : pattern) (y : Y) (h : X -> YP) (inn : YP -> Y -> NU) (R : RC) (pred out : G) st :
  r_log (UKF false (inject p (total_mm y h inn R)) pred out st) =
  upto_first_failure (mask NoiseCov p) [Measure; NoiseCov; Predicted; Innovation].
Proof.
  rewrite ukf_step_eq. unfold inject, total_mm, mask; simpl.
  destruct (p Measure); simpl; [reflexivity|].
  destruct (p Predicted); simpl; [reflexivity|].
  destruct (p Innovation); reflexivity.
Qed.

(* additive transform: the prefix up to the first failing call as well (no call after a failed predictedMeasure) *)
Theorem C12_ukf_additive_call_log (p : pattern) (y : Y) (h : X -> YP) (inn : YP -> Y -> NU) (R : RC) (pred out : G) st :
  r_log (UKF true (inject p (total_mm y h inn R)) pred out st) =
  upto_first_failure (mask NoiseCov p) [Measure; Predicted; NoiseCov; Innovation].
Proof.
  rewrite ukf_step_eq. unfold inject, total_mm, mask; simpl.
  destruct (p Measure); simpl; [reflexivity|].
  destruct (p Predicted); simpl; [reflexivity|].
  destruct (p Innovation); reflexivity.
Qed.

Theorem C12_no_fault_ukf (additive : bool) (y : Y) (h : X -> YP) (inn : YP -> Y -> NU) (R : RC) (pred out : G) st :
  let input := if additive then pred else ukf_augment pred R in
  let mo := ut_moments input (h (sigma_of input)) in
  let pm := if additive then pm_add_noise (fst mo) R else fst mo in
  let nu := inn (pm_mean pm) y in
  UKF additive (inject no_fault (total_mm y h inn R)) pred out st =
  mkRes (ukf_upd pred pm (snd mo) nu out) (mkUkfSt (Some nu) pm)
        (if additive then [Measure; Predicted; NoiseCov; Innovation] else [Measure; NoiseCov; Predicted; Innovation]).
Proof. rewrite ukf_step_eq. destruct additive; reflexivity. Qed.

(* members after a failed predictedMeasure: no innovations_, the default-constructed predicted_meas_ *)
Theorem C12_ukf_members_after_failed_prediction (additive : bool) (p : pattern) (y : Y) (h : X -> YP) (inn : YP -> Y -> NU) (R : RC) (pred out : G) st :
  p Measure = false -> p Predicted = true ->
  r_st (UKF additive (inject p (total_mm y h inn R)) pred out st) = mkUkfSt None pm_default.
Proof. intros H1 H2. rewrite ukf_step_eq. unfold inject, total_mm; simpl. now rewrite H1, H2. Qed.

Theorem C12_ukf_likelihood_after_failure_reports_failure (additive : bool) (p : pattern) (mm : mmodel) (pred out : G) st :
  fails_any p sites3 = true ->
  ukf_get_lik ukf_lik (r_st (UKF additive (inject p mm) pred out st)) = None.
Proof. intros Hf. apply ukf_get_lik_None. now apply C12_ukf_identity. Qed.

Theorem C12_sukf_identity (sub_ok : bool) ncalls (p : pattern) (mm : mmodel) (pred out : G) st :
  fails_any p sites3 = true \/ sub_ok = false ->
  r_out (SUKF sub_ok ncalls (inject p mm) pred out st) = pred /\
  s_innov (r_st (SUKF sub_ok ncalls (inject p mm) pred out st)) = None.
Proof.
  intros [Hf|Hf]; apply sukf_step_failure; [|auto].
  destruct (inject_fails3 p mm Hf) as [H|[H|H]]; auto.
Qed.

Theorem C12_sukf_identity_any_model (sub_ok : bool) ncalls lcalls (mm mm' : mmodel) (pred out : G) st :
  (mm_measure mm = None \/ sub_ok = false \/ mm_predicted mm (sigma_of pred) = None \/
   (forall y yp, mm_measure mm = Some y -> mm_predicted mm (sigma_of pred) = Some yp ->
                 mm_innovation mm (sukf_pred_mean yp) y = None)) ->
  r_out (SUKF sub_ok ncalls mm pred out st) = pred /\
  sukf_get_lik sukf_lik lcalls mm' (r_st (SUKF sub_ok ncalls mm pred out st)) = (None, []).
Proof. intros Hf. split; [|apply sukf_get_lik_None]; now apply sukf_step_failure. Qed.

Theorem C12_sukf_noisecov_flag_ignored sub_ok ncalls (p : pattern) (mm : mmodel) (pred out : G) st :
  SUKF sub_ok ncalls (inject p mm) pred out st = SUKF sub_ok ncalls (inject (mask NoiseCov p) mm) pred out st.
Proof. unfold sukf_step, inject, mask; simpl. destruct (p NoiseCov); reflexivity. Qed.

Theorem C12_sukf_call_log ncalls (p : pattern) (y : Y) (h : X -> YP) (inn : YP -> Y -> NU) (R : RC) (pred out : G) st :
  r_log (SUKF true ncalls (inject p (total_mm y h inn R)) pred out st) =
  if fails_any p sites3 then upto_first_failure p sites3 else sites3 ++ repeat NoiseCov ncalls.
Proof.
  rewrite fails3. unfold sukf_step, inject, total_mm, sites3; simpl.
  destruct (p Measure); simpl; [reflexivity|].
  destruct (p Predicted); simpl; [reflexivity|].
  destruct (p Innovation); simpl; [reflexivity|].
  destruct (sukf_upd _ _ _ _ _ _); reflexivity.
Qed.

Theorem C12_sukf_size_mismatch_call_log ncalls (p : pattern) (mm : mmodel) (pred out : G) st :
  r_log (SUKF false ncalls (inject p mm) pred out st) = [Measure].
Proof. unfold sukf_step. destruct (mm_measure _); reflexivity. Qed.

Theorem C12_no_fault_sukf ncalls (y : Y) (h : X -> YP) (inn : YP -> Y -> NU) (R : RC) (pred out : G) st :
  let yp := h (sigma_of pred) in
  let nu := inn (sukf_pred_mean yp) y in
  let r := sukf_upd pred (sigma_of pred) yp nu R out in
  SUKF true ncalls (inject no_fault (total_mm y h inn R)) pred out st =
  mkRes (fst r) (mkSukfSt (Some nu) (Some (snd r))) (sites3 ++ repeat NoiseCov ncalls).
Proof.
  unfold sukf_step, inject, total_mm, no_fault; simpl.
  destruct (sukf_upd _ _ _ _ _ _); reflexivity.
Qed.

(* innovation fails: propagated_sigma_points_ already belongs to the failed call *)
Theorem C12_sukf_members_after_failed_innovation ncalls (p : pattern) (y : Y) (h : X -> YP) (inn : YP -> Y -> NU) (R : RC) (pred out : G) st :
  p Measure = false -> p Predicted = false -> p Innovation = true ->
  r_st (SUKF true ncalls (inject p (total_mm y h inn R)) pred out st) = mkSukfSt None (Some (h (sigma_of pred))).
Proof. intros H1 H2 H3. unfold sukf_step, inject, total_mm; simpl. now rewrite H1, H2, H3. Qed.

(* no value and no call into the measurement model *)
Theorem C12_sukf_likelihood_after_failure_reports_failure sub_ok ncalls lcalls (p : pattern) (mm mm' : mmodel) (pred out : G) st :
  fails_any p sites3 = true \/ sub_ok = false ->
  sukf_get_lik sukf_lik lcalls mm' (r_st (SUKF sub_ok ncalls (inject p mm) pred out st)) = (None, []).
Proof. intros Hf. apply sukf_get_lik_None. now apply C12_sukf_identity. Qed.

Theorem C12_likelihood_reports_failure (p : pattern) (mm : mmodel) (s : St) :
  fails_any p sites4 = true ->
  fst (GL (inject p mm) s) = None /\ lik_pair lk_zero1 (fst (GL (inject p mm) s)) = (false, lk_zero1).
Proof. intros Hf. rewrite gl_fails_under_pattern by exact Hf. now split. Qed.

Theorem C12_likelihood_reports_failure_any_model (mm : mmodel) (s : St) :
  (mm_measure mm = None \/ mm_predicted mm (st_px s) = None \/
   (forall y yp, mm_measure mm = Some y -> mm_predicted mm (st_px s) = Some yp -> mm_innovation mm yp y = None) \/
   fst (mm_noisecov mm) = false) ->
  fst (GL mm s) = None.
Proof. apply gl_reports_failure_pointwise. Qed.

(* `Proof using`: the statement stays quantified over the section's default likelihood value, which no step consults *)
Theorem C12_likelihood_value_only_if_all_calls_succeed (p : pattern) (mm : mmodel) (s : St) lk :
  fst (GL (inject p mm) s) = Some lk -> fails_any p sites4 = false.
Proof using lk_zero1.
  intros E. destruct (fails_any p sites4) eqn:Hf; [|reflexivity].
  rewrite gl_fails_under_pattern in E by exact Hf. discriminate.
Qed.

Theorem C12_likelihood_call_log (p : pattern) (y : Y) (h : X -> YP) (inn : YP -> Y -> NU) (R : RC) (s : St) :
  snd (GL (inject p (total_mm y h inn R)) s) = upto_first_failure p sites4.
Proof.
  unfold gl_likelihood, inject, total_mm, sites4; simpl.
  destruct (p Measure); simpl; [reflexivity|].
  destruct (p Predicted); simpl; [reflexivity|].
  destruct (p Innovation); simpl; [reflexivity|].
  destruct (p NoiseCov); reflexivity.
Qed.

(* hence the calls made by a likelihood model, the shipped one or a user's *)
Lemma lik_eval_log (lm : likmodel St LK) (p : pattern) (y : Y) (h : X -> YP) (inn : YP -> Y -> NU) (R : RC) (s : St) :
  snd (LIK (inject_lik lk_zero1 p lm) (inject p (total_mm y h inn R)) s) =
  match lm with LGauss => upto_first_failure p sites4 | LCustom _ => [Likelihood] end.
Proof.
  destruct lm as [|f]; cbn [lik_eval inject_lik].
  - rewrite <- (C12_likelihood_call_log p y h inn R s). now destruct (GL _ _).
  - now destruct (p Likelihood).
Qed.

Theorem C12_no_fault_likelihood (y : Y) (h : X -> YP) (inn : YP -> Y -> NU) (R : RC) (s : St) :
  GL (inject no_fault (total_mm y h inn R)) s = (Some (gl_dens (inn (h (st_px s)) y) R), sites4).
Proof. reflexivity. Qed.

(* any likelihood model and sensor: failure of the likelihood call at the predicted states *)
Theorem C12_bootstrap_identity_any_model (lm : likmodel St LK) (mm : mmodel) (pred out : pset G St) st :
  fst (fst (LIK lm mm (snd pred))) = false ->
  r_out (BOOT lm mm pred out st) = pred /\
  pf_get_lik (r_st (BOOT lm mm pred out st)) = fst (LIK lm mm (snd pred)).
Proof. intros E. rewrite boot_step_eq. cbv zeta. rewrite E. split; [reflexivity | apply pf_get_lik_of]. Qed.

(* in particular under a pattern that makes lm fail: the shipped Gaussian likelihood (any of the four
   calls) or a user-supplied model (its own flag, its own vector) *)
Theorem C12_bootstrap_identity (lm : likmodel St LK) (p : pattern) (mm : mmodel) (pred out : pset G St) st :
  lik_fails _ _ lm p = true ->
  r_out (BOOT (inject_lik lk_zero1 p lm) (inject p mm) pred out st) = pred /\
  pf_get_lik (r_st (BOOT (inject_lik lk_zero1 p lm) (inject p mm) pred out st)) = (false, lk_zero1).
Proof.
  intros Hf.
  destruct (C12_bootstrap_identity_any_model (inject_lik lk_zero1 p lm) (inject p mm) pred out st) as [A B].
  - now rewrite lik_eval_fails.
  - split; [exact A|]. now rewrite B, lik_eval_fails.
Qed.

Theorem C12_bootstrap_identity_iff (lm : likmodel St LK) (mm : mmodel) (pred out : pset G St) st :
  r_out (BOOT lm mm pred out st) = pred <->
  (fst (fst (LIK lm mm (snd pred))) = false \/ boot_wupd (fst pred) (snd (fst (LIK lm mm (snd pred)))) = fst pred).
Proof.
  rewrite boot_step_eq. cbv zeta. cbn [r_out].
  destruct (fst (fst (LIK lm mm (snd pred)))); [|split; auto].
  destruct pred as [g s]; simpl; split.
  - intros E. right. now injection E.
  - intros [E|E]; [discriminate|]. now rewrite E.
Qed.

Theorem C12_bootstrap_likelihood_never_stale (lm : likmodel St LK) (mm : mmodel) (pred out : pset G St) st st' :
  r_st (BOOT lm mm pred out st) = r_st (BOOT lm mm pred out st').
Proof. now rewrite !boot_step_eq. Qed.

Theorem C12_bootstrap_call_log (lm : likmodel St LK) (p : pattern) (y : Y) (h : X -> YP) (inn : YP -> Y -> NU) (R : RC) (pred out : pset G St) st :
  r_log (BOOT (inject_lik lk_zero1 p lm) (inject p (total_mm y h inn R)) pred out st) =
  match lm with LGauss => upto_first_failure p sites4 | LCustom _ => [Likelihood] end.
Proof. rewrite boot_step_eq. apply lik_eval_log. Qed.

Theorem C12_no_fault_bootstrap (y : Y) (h : X -> YP) (inn : YP -> Y -> NU) (R : RC) (pred out : pset G St) st :
  let lk := gl_dens (inn (h (st_px (snd pred))) y) R in
  BOOT LGauss (inject no_fault (total_mm y h inn R)) pred out st =
  mkRes (boot_wupd (fst pred) lk, snd pred) (mkPfSt true lk) sites4.
Proof. reflexivity. Qed.

(* gc: ANY wrapped Gaussian correction.  An invalid likelihood restores the whole predicted set
   (mixture part and states), whatever gc and the sampling have written meanwhile. *)
Theorem C12_gpf_identity_any_model (gc : G -> G -> GS -> result G GS) (lm : likmodel St LK) (mm : mmodel)
        (pred out : pset G St) st :
  let states := gpf_states _ _ _ _ _ gpf_sample gc pred out st in
  fst (fst (LIK lm mm states)) = false ->
  r_out (GPF gc lm mm pred out st) = pred /\
  pf_get_lik (g_pf (r_st (GPF gc lm mm pred out st))) = fst (LIK lm mm states).
Proof. cbv zeta. intros E. rewrite gpf_step_eq. cbv zeta. rewrite E. split; [reflexivity | apply pf_get_lik_of]. Qed.

(* in particular under a pattern that makes the likelihood model fail *)
Theorem C12_gpf_identity (gc : G -> G -> GS -> result G GS) (lm : likmodel St LK) (p : pattern) (mm : mmodel)
        (pred out : pset G St) st :
  lik_fails _ _ lm p = true ->
  r_out (GPF gc (inject_lik lk_zero1 p lm) (inject p mm) pred out st) = pred /\
  pf_get_lik (g_pf (r_st (GPF gc (inject_lik lk_zero1 p lm) (inject p mm) pred out st))) = (false, lk_zero1).
Proof.
  intros Hf.
  destruct (C12_gpf_identity_any_model gc (inject_lik lk_zero1 p lm) (inject p mm) pred out st) as [A B].
  - now rewrite lik_eval_fails.
  - split; [exact A|]. now rewrite B, lik_eval_fails.
Qed.

(* POSITIVE characterisation, for every wrapped correction, likelihood model and sensor: the output is
   the predicted set exactly when the likelihood fails (or the full update reproduces the predicted set) *)
Theorem C12_gpf_identity_iff (gc : G -> G -> GS -> result G GS) (lm : likmodel St LK) (mm : mmodel)
        (pred out : pset G St) st :
  let states := gpf_states _ _ _ _ _ gpf_sample gc pred out st in
  let vl := fst (LIK lm mm states) in
  let corr := (r_out (gc (fst pred) (fst out) (g_inner st)), states) in
  r_out (GPF gc lm mm pred out st) = pred <->
  (fst vl = false \/ (gpf_wupd pred (snd vl) corr, states) = pred).
Proof.
  rewrite gpf_step_eq. cbv zeta. cbn [r_out].
  destruct (fst (fst (LIK lm mm _))); split; auto.
  intros [E|E]; [discriminate|exact E].
Qed.

(* ... but the failed step has run the wrapped correction and consumed random numbers *)
Theorem C12_gpf_failed_step_side_effects (gc : G -> G -> GS -> result G GS) (lm : likmodel St LK) (mm : mmodel)
        (pred out : pset G St) st :
  let r := gc (fst pred) (fst out) (g_inner st) in
  g_rng (r_st (GPF gc lm mm pred out st)) = snd (gpf_sample (g_rng st) (r_out r) (snd out)) /\
  g_inner (r_st (GPF gc lm mm pred out st)) = r_st r.
Proof. rewrite gpf_step_eq. split; reflexivity. Qed.

(* KNOWN FINDING, explicit premise: the wrapped correction could not use the measurement (it returned the
   predicted mixture), the likelihood model reports a value: the set is re-sampled around the PREDICTED
   moments and re-weighted -- exactly this and nothing else *)
Theorem C12_gpf_inner_failure_not_detected (gc : G -> G -> GS -> result G GS) (lm : likmodel St LK) (mm : mmodel)
        (pred out : pset G St) st lk :
  r_out (gc (fst pred) (fst out) (g_inner st)) = fst pred ->
  let states := fst (gpf_sample (g_rng st) (fst pred) (snd out)) in
  fst (LIK lm mm states) = (true, lk) ->
  r_out (GPF gc lm mm pred out st) = (gpf_wupd pred lk (fst pred, states), states).
Proof.
  intros E states Ef. rewrite gpf_step_eq. unfold gpf_states. rewrite E. fold states. cbv zeta. now rewrite Ef.
Qed.

(* correct(p, p): one object as predicted and corrected set.  With an invalid likelihood and a wrapped
   correction that returns its input, the object handed back carries re-drawn states *)
Theorem C12_gpf_aliased_failure_redraws (gc : G -> G -> GS -> result G GS) (lm : likmodel St LK) (mm : mmodel)
        (pred : pset G St) st :
  r_out (gc (fst pred) (fst pred) (g_inner st)) = fst pred ->
  let states := fst (gpf_sample (g_rng st) (fst pred) (snd pred)) in
  fst (fst (LIK lm mm states)) = false ->
  r_out (gpf_step_aliased st_px gl_dens lk_zero1 gpf_sample gpf_wupd gc lm mm pred st) = (fst pred, states).
Proof.
  intros E states Ef. unfold gpf_step_aliased. rewrite E.
  fold states. destruct (gpf_sample _ _ _) as [s rng'] eqn:Es. simpl in states. subst states.
  destruct (LIK lm mm s) as [[v lk'] l]. simpl in Ef. subst v. reflexivity.
Qed.

Theorem C12_gpf_call_log (gc : G -> G -> GS -> result G GS) (lm : likmodel St LK) (p : pattern) (y : Y) (h : X -> YP) (inn : YP -> Y -> NU) (R : RC) (pred out : pset G St) st :
  r_log (GPF gc (inject_lik lk_zero1 p lm) (inject p (total_mm y h inn R)) pred out st) =
  r_log (gc (fst pred) (fst out) (g_inner st)) ++
  match lm with LGauss => upto_first_failure p sites4 | LCustom _ => [Likelihood] end.
Proof. rewrite gpf_step_eq. cbv zeta. cbn [r_log]. f_equal. apply lik_eval_log. Qed.

Theorem C12_no_fault_gpf (gc : G -> G -> GS -> result G GS) (y : Y) (h : X -> YP) (inn : YP -> Y -> NU) (R : RC) (pred out : pset G St) st :
  let r := gc (fst pred) (fst out) (g_inner st) in
  let sr := gpf_sample (g_rng st) (r_out r) (snd out) in
  let lk := gl_dens (inn (h (st_px (fst sr))) y) R in
  GPF gc LGauss (inject no_fault (total_mm y h inn R)) pred out st =
  mkRes (gpf_wupd pred lk (r_out r, fst sr), fst sr) (mkGpfSt (mkPfSt true lk) (r_st r) (snd sr)) (r_log r ++ sites4).
Proof. intros r sr lk. now rewrite gpf_step_eq. Qed.

Theorem C12_sis_skips_correction (p : pattern) (mm : mmodel) step (pc : pset G St * pset G St) :
  p Freeze = true ->
  let fr := mm_freeze (inject p mm) in
  let '(pred, cor, log) := sis_step sis_predict sis_correct sis_normalise sis_degenerate sis_resample fr step pc in
  ~ In EvCorrect log /\ ~ In EvNormalise log /\
  sis_cor_at_log sis_predict sis_correct sis_normalise fr step pc = pred /\
  (sis_degenerate pred = false -> cor = pred).
Proof.
  intros Hf. simpl. rewrite Hf. destruct pc as [pred0 cor0].
  unfold sis_step, sis_cor_at_log.
  destruct (Nat.eqb step 0); simpl; destruct (sis_degenerate _) eqn:D; simpl.
  all: repeat split; try now rewrite D.
  (* the remaining goals: EvCorrect, EvNormalise are not in the (closed) event list *)
  all: intros E; repeat (destruct E as [E|E]; [discriminate|]); exact E.
Qed.

Theorem C12_no_fault_sis (mm : mmodel) step (pc : pset G St * pset G St) :
  mm_freeze mm = true ->
  sis_cor_at_log sis_predict sis_correct sis_normalise (mm_freeze (inject no_fault mm)) step pc =
  let pred := if Nat.eqb step 0 then fst pc else sis_predict (snd pc) (fst pc) in
  sis_normalise (sis_correct pred (snd pc)).
Proof. intros E. destruct pc. simpl. now rewrite E. Qed.
End C12.

(* GaussianCorrection::correct / PFCorrection::correct: the public entry points run the step (skip_ = false) *)
Theorem C12_public_correct_runs_the_step (B S : Type) (step : B -> B -> S -> result B S) pred out st :
  correct_wrapper false step pred out st = step pred out st.
Proof. reflexivity. Qed.

(* skip_ set (on the driven correction, or on the correction wrapped by GPF): the predicted object is
   returned, the members are untouched and NO call is made, whatever the fault pattern *)
Theorem C12_skipped_correction_makes_no_call (B S : Type) (step : B -> B -> S -> result B S) pred out st :
  correct_wrapper true step pred out st = mkRes pred st [].
Proof. reflexivity. Qed.

(* "no partial update of any component, mean, covariance or weight": with the belief given its
   structure -- a list of (mean, covariance, weight) components plus the shape descriptors, and for the
   particle classes the list of states -- equality of the whole object IS equality of every part *)
Theorem C12_whole_object_is_componentwise (Mn Cv Wt Sh : Type) (a b : list (Mn * Cv * Wt) * Sh) :
  a = b <->
  (length (fst a) = length (fst b) /\ snd a = snd b /\
   forall i d, fst (fst (nth i (fst a) d)) = fst (fst (nth i (fst b) d)) /\
               snd (fst (nth i (fst a) d)) = snd (fst (nth i (fst b) d)) /\
               snd (nth i (fst a) d) = snd (nth i (fst b) d)).
Proof.
  split.
  - intros ->. repeat split.
  - destruct a as [ca sa], b as [cb sb]; simpl. intros [Hl [Hs Hn]]. subst sb. f_equal.
    apply nth_ext_all; [exact Hl|]. intros i d. destruct (Hn i d) as [A [B C]].
    destruct (nth i ca d) as [[m c] w], (nth i cb d) as [[m' c'] w']; simpl in *. congruence.
Qed.

(* e.g. for the Kalman correction (the other classes: the same rewriting of their identity theorem) *)
Theorem C12_kf_no_partial_update (Mn Cv Wt Sh Y X YP NU RC PY : Type)
        (kf_px : list (Mn * Cv * Wt) * Sh -> X) kf_upd (p : pattern) (mm : mmodel Y X YP NU RC) pred out (st : kf_state NU PY) :
  fails_any p sites4 = true ->
  let o := r_out (kf_step kf_px kf_upd (inject p mm) pred out st) in
  length (fst o) = length (fst pred) /\ snd o = snd pred /\
  forall i d, fst (fst (nth i (fst o) d)) = fst (fst (nth i (fst pred) d)) /\
              snd (fst (nth i (fst o) d)) = snd (fst (nth i (fst pred) d)) /\
              snd (nth i (fst o) d) = snd (nth i (fst pred) d).
Proof. intros Hf o. apply C12_whole_object_is_componentwise. now apply C12_kf_identity. Qed.

Theorem C12_gpf_no_partial_update (Mn Cv Wt Sh Sx Y X YP NU RC LK RNG GS : Type)
        st_px gl_dens (z : LK) gpf_sample gpf_wupd (gc : _ -> _ -> GS -> result _ GS) (lm : likmodel (list Sx) LK) (p : pattern)
        (mm : mmodel Y X YP NU RC) (pred out : pset (list (Mn * Cv * Wt) * Sh) (list Sx)) (st : gpf_state LK RNG GS) :
  lik_fails _ _ lm p = true ->
  let o := r_out (gpf_step st_px gl_dens z gpf_sample gpf_wupd gc (inject_lik z p lm) (inject p mm) pred out st) in
  length (fst (fst o)) = length (fst (fst pred)) /\ snd (fst o) = snd (fst pred) /\
  (forall i d, nth i (fst (fst o)) d = nth i (fst (fst pred)) d) /\
  length (snd o) = length (snd pred) /\ (forall i d, nth i (snd o) d = nth i (snd pred) d).
Proof.
  intros Hf o. assert (E : o = pred) by now apply C12_gpf_identity.
  rewrite E. repeat split.
Qed.

(* the same for the unscented, serial unscented and bootstrap corrections *)
Theorem C12_ukf_no_partial_update (Mn Cv Wt Sh Y X YP NU RC PM PXY : Type)
        (sigma_of : list (Mn * Cv * Wt) * Sh -> X) ut_moments (pm_default : PM) (pxy_empty : PXY) pm_add_noise ukf_augment pm_mean ukf_upd
        (additive : bool) (p : pattern) (mm : mmodel Y X YP NU RC) pred out (st : ukf_state NU PM) :
  fails_any p sites3 = true ->
  let o := r_out (ukf_step sigma_of ut_moments pm_default pxy_empty pm_add_noise ukf_augment pm_mean ukf_upd additive (inject p mm) pred out st) in
  length (fst o) = length (fst pred) /\ snd o = snd pred /\
  forall i d, fst (fst (nth i (fst o) d)) = fst (fst (nth i (fst pred) d)) /\
              snd (fst (nth i (fst o) d)) = snd (fst (nth i (fst pred) d)) /\
              snd (nth i (fst o) d) = snd (nth i (fst pred) d).
Proof. intros Hf o. apply C12_whole_object_is_componentwise. now apply C12_ukf_identity. Qed.

Theorem C12_sukf_no_partial_update (Mn Cv Wt Sh Y X YP NU RC : Type)
        (sigma_of : list (Mn * Cv * Wt) * Sh -> X) sukf_pred_mean sukf_upd
        (sub_ok : bool) ncalls (p : pattern) (mm : mmodel Y X YP NU RC) pred out (st : sukf_state YP NU) :
  fails_any p sites3 = true \/ sub_ok = false ->
  let o := r_out (sukf_step sigma_of sukf_pred_mean sukf_upd sub_ok ncalls (inject p mm) pred out st) in
  length (fst o) = length (fst pred) /\ snd o = snd pred /\
  forall i d, fst (fst (nth i (fst o) d)) = fst (fst (nth i (fst pred) d)) /\
              snd (fst (nth i (fst o) d)) = snd (fst (nth i (fst pred) d)) /\
              snd (nth i (fst o) d) = snd (nth i (fst pred) d).
Proof. intros Hf o. apply C12_whole_object_is_componentwise. now apply C12_sukf_identity. Qed.

Theorem C12_bootstrap_no_partial_update (Mn Cv Wt Sh Sx Y X YP NU RC LK : Type)
        st_px gl_dens (z : LK) boot_wupd (lm : likmodel (list Sx) LK) (p : pattern)
        (mm : mmodel Y X YP NU RC) (pred out : pset (list (Mn * Cv * Wt) * Sh) (list Sx)) (st : pf_state LK) :
  lik_fails _ _ lm p = true ->
  let o := r_out (boot_step st_px gl_dens z boot_wupd (inject_lik z p lm) (inject p mm) pred out st) in
  length (fst (fst o)) = length (fst (fst pred)) /\ snd (fst o) = snd (fst pred) /\
  (forall i d, fst (fst (nth i (fst (fst o)) d)) = fst (fst (nth i (fst (fst pred)) d)) /\
               snd (fst (nth i (fst (fst o)) d)) = snd (fst (nth i (fst (fst pred)) d)) /\
               snd (nth i (fst (fst o)) d) = snd (nth i (fst (fst pred)) d)) /\
  length (snd o) = length (snd pred) /\ (forall i d, nth i (snd o) d = nth i (snd pred) d).
Proof.
  intros Hf o. assert (E : o = pred) by now apply C12_bootstrap_identity.
  rewrite E. repeat split.
Qed.

(* Flags AND payloads (C12_Payload).
   The sensor interface returns a validity flag and a payload (bfl::Data / MatrixXd / VectorXd).  The steps below are
   the same code transcribed with flags, payloads, any_casts in their order, in an exception monad (Throw = bad_any_cast
   escapes correct()).  `*_payload_step_is_skeleton`: when the payloads that come with a TRUE flag at the arguments of this
   very call are matrices, the payload-level step returns normally and IS the option-level skeleton above (applied to the
   view "false flag = None"), so every theorem above is a theorem about it.  `*_payload_never_read_on_failure`: when a
   call the class honours reports unavailability the step returns normally with the predicted belief and no likelihood,
   with NO premise on any payload: what accompanies a false flag is never cast and never read. *)
Section C12_payload.
Variables G St Y X YP NU RC PY PM PXY LK RNG GS : Type.
Notation rmodel := (rmodel Y X YP NU RC).
Variable kf_px : G -> X.
Variable kf_upd : G -> NU -> RC -> G -> G * PY.
Variable sigma_of : G -> X.
Variable ut_moments : G -> YP -> PM * PXY.
Variable pm_default : PM.
Variable pxy_empty : PXY.
Variable pm_add_noise : PM -> RC -> PM.
Variable ukf_augment : G -> RC -> G.
Variable pm_mean : PM -> YP.
Variable ukf_upd : G -> PM -> PXY -> NU -> G -> G.
Variable sukf_pred_mean : YP -> YP.
Variable sukf_upd : G -> X -> YP -> NU -> RC -> G -> G * YP.
Variable st_px : St -> X.
Variable gl_dens : NU -> RC -> LK.
Variable lk_zero1 : LK.
Variable boot_wupd : G -> LK -> G.
Variable gpf_sample : RNG -> G -> St -> St * RNG.
Variable gpf_wupd : pset G St -> LK -> pset G St -> G.

Notation KFr := (kf_step_raw G Y X YP NU RC PY kf_px kf_upd).
Notation UKFr := (ukf_step_raw G Y X YP NU RC PM PXY sigma_of ut_moments pm_default pxy_empty pm_add_noise ukf_augment pm_mean ukf_upd).
Notation SUKFr := (sukf_step_raw G Y X YP NU RC sigma_of sukf_pred_mean sukf_upd).
Notation GLr := (gl_likelihood_raw St Y X YP NU RC LK st_px gl_dens).
Notation BOOTr := (boot_step_raw G St Y X YP NU RC LK st_px gl_dens lk_zero1 boot_wupd).
Notation GPFr := (gpf_step_raw G St Y X YP NU RC LK RNG GS st_px gl_dens lk_zero1 gpf_sample gpf_wupd).

(* premise: the innovation delivered with a true flag is a matrix (the only payload KFCorrection casts) *)
Theorem C12_kf_payload_step_is_skeleton (rm : rmodel) (pred out : G) st :
  (fst (rm_innovation _ _ _ _ _ rm (snd (rm_predicted _ _ _ _ _ rm (kf_px pred))) (snd (rm_measure _ _ _ _ _ rm))) = true ->
   cast (snd (rm_innovation _ _ _ _ _ rm (snd (rm_predicted _ _ _ _ _ rm (kf_px pred))) (snd (rm_measure _ _ _ _ _ rm)))) <> None) ->
  KFr rm pred out st = Ok (kf_step kf_px kf_upd (kf_view Y X YP NU RC rm) pred out st).
Proof.
  destruct rm as [[vM dM] P I [vN R]].
  unfold kf_step_raw, kf_step, kf_view, flagged, flagged_cast; simpl.
  destruct vM; simpl; [|reflexivity].
  destruct (P (kf_px pred)) as [[|] dP]; simpl; [|reflexivity].
  destruct (I dP dM) as [[|] dI]; simpl; [|reflexivity].
  intros WT. destruct (cast dI) as [nu|] eqn:E; [|exfalso; apply WT; reflexivity].
  destruct vN; simpl; [|reflexivity].
  destruct (kf_upd pred nu R out); reflexivity.
Qed.

Theorem C12_kf_payload_never_read_on_failure (rm : rmodel) (pred out : G) st :
  kf_fails_raw G Y X YP NU RC kf_px rm pred ->
  exists l, KFr rm pred out st = Ok (mkRes pred (mkKfSt None (kf_py st)) l).
Proof.
  destruct rm as [[vM dM] P I [vN R]]. unfold kf_fails_raw, kf_step_raw; simpl.
  destruct vM; simpl; [|eexists; reflexivity].
  destruct (P (kf_px pred)) as [[|] dP]; simpl; [|eexists; reflexivity].
  destruct (I dP dM) as [[|] dI]; simpl; [|eexists; reflexivity].
  destruct vN; simpl; [|eexists; reflexivity].
  intros [H|[H|[H|H]]]; discriminate.
Qed.

Theorem C12_ukf_payload_step_is_skeleton (additive : bool) (rm : rmodel) (pred out : G) st :
  ukf_well_typed G Y X YP NU RC PM PXY sigma_of ut_moments pm_add_noise ukf_augment pm_mean additive rm pred ->
  UKFr additive rm pred out st =
  Ok (ukf_step sigma_of ut_moments pm_default pxy_empty pm_add_noise ukf_augment pm_mean ukf_upd additive (u_view Y X YP NU RC rm) pred out st).
Proof.
  destruct rm as [[vM dM] P I [vN R]]. rewrite ukf_step_eq.
  unfold ukf_well_typed, ukf_pm_raw, ukf_input_raw, ukf_step_raw, ut_base_raw, ukf_pm, ukf_input,
         u_view, flagged, flagged_cast; simpl.
  destruct vM; simpl; [|reflexivity].
  destruct (P _) as [[|] dP]; simpl; [|intros _; now destruct additive].
  intros [W1 W2]. destruct (cast dP) as [yp|] eqn:E; [|exfalso; apply W1; reflexivity].
  specialize (W2 yp eq_refl). destruct (ut_moments _ yp) as [pm pxy]; simpl in *.
  destruct (I _ dM) as [[|] dI]; simpl in *; [|now destruct additive].
  destruct (cast dI) as [nu|] eqn:E2; [now destruct additive|exfalso; apply W2; reflexivity].
Qed.

Theorem C12_ukf_payload_never_read_on_failure (additive : bool) (rm : rmodel) (pred out : G) st :
  ukf_fails_raw G Y X YP NU RC PM PXY sigma_of ut_moments pm_add_noise ukf_augment pm_mean additive rm pred ->
  exists pm l, UKFr additive rm pred out st = Ok (mkRes pred (mkUkfSt None pm) l).
Proof.
  destruct rm as [[vM dM] P I [vN R]].
  unfold ukf_fails_raw, ukf_pm_raw, ukf_input_raw, ukf_step_raw, ut_base_raw; simpl.
  destruct vM; simpl; [|do 2 eexists; reflexivity].
  destruct (P _) as [[|] dP]; simpl; [|do 2 eexists; reflexivity].
  intros [H|[H|[yp [E H]]]]; try discriminate. rewrite E.
  destruct (ut_moments _ yp) as [pm pxy]; simpl in *. rewrite H; simpl. do 2 eexists; reflexivity.
Qed.

Theorem C12_sukf_payload_step_is_skeleton (sub_ok : bool) ncalls (rm : rmodel) (pred out : G) st :
  sukf_well_typed G Y X YP NU RC sigma_of sukf_pred_mean rm pred ->
  SUKFr sub_ok ncalls rm pred out st = Ok (sukf_step sigma_of sukf_pred_mean sukf_upd sub_ok ncalls (u_view Y X YP NU RC rm) pred out st).
Proof.
  destruct rm as [[vM dM] P I [vN R]].
  unfold sukf_well_typed, sukf_step_raw, sukf_step, u_view, flagged, flagged_cast; simpl.
  destruct vM; simpl; [|intros _; reflexivity].
  destruct sub_ok; simpl; [|intros _; reflexivity].
  destruct (P (sigma_of pred)) as [[|] dP]; simpl; [|intros _; reflexivity].
  intros [W1 W2]. destruct (cast dP) as [yp|] eqn:E; [|exfalso; apply W1; reflexivity].
  specialize (W2 yp eq_refl); simpl in W2.
  destruct (I (DMat (sukf_pred_mean yp)) dM) as [[|] dI]; simpl in *; [|reflexivity].
  destruct (cast dI) as [nu|] eqn:E2; [|exfalso; apply W2; reflexivity].
  destruct (sukf_upd pred (sigma_of pred) yp nu R out); reflexivity.
Qed.

Theorem C12_sukf_payload_never_read_on_failure (sub_ok : bool) ncalls (rm : rmodel) (pred out : G) st :
  sukf_fails_raw G Y X YP NU RC sigma_of sukf_pred_mean sub_ok rm pred ->
  exists prop l, SUKFr sub_ok ncalls rm pred out st = Ok (mkRes pred (mkSukfSt None prop) l).
Proof.
  destruct rm as [[vM dM] P I [vN R]]. unfold sukf_fails_raw, sukf_step_raw; simpl.
  destruct vM; simpl; [|do 2 eexists; reflexivity].
  destruct sub_ok; simpl; [|do 2 eexists; reflexivity].
  destruct (P (sigma_of pred)) as [[|] dP]; simpl; [|do 2 eexists; reflexivity].
  intros [H|[H|[H|[yp [E H]]]]]; try discriminate. rewrite E, H; simpl. do 2 eexists; reflexivity.
Qed.

Theorem C12_likelihood_payload_is_skeleton (rm : rmodel) (s : St) :
  gl_well_typed St Y X YP NU RC st_px rm s ->
  GLr rm s = Ok (gl_likelihood st_px gl_dens (gl_view Y X YP NU RC rm) s).
Proof. exact (gl_raw_is_skeleton St Y X YP NU RC LK st_px gl_dens rm s). Qed.

(* "reports failure rather than a value": and does not throw either *)
Theorem C12_likelihood_payload_reports_failure (rm : rmodel) (s : St) :
  gl_fails_raw St Y X YP NU RC st_px rm s -> exists l, GLr rm s = Ok (None, l).
Proof. exact (gl_raw_failure St Y X YP NU RC LK st_px gl_dens rm s). Qed.

Theorem C12_bootstrap_payload_step_is_skeleton (lm : likmodel St LK) (rm : rmodel) (pred out : pset G St) st :
  (lm = LGauss -> gl_well_typed St Y X YP NU RC st_px rm (snd pred)) ->
  BOOTr lm rm pred out st = Ok (boot_step st_px gl_dens lk_zero1 boot_wupd lm (gl_view Y X YP NU RC rm) pred out st).
Proof.
  intros W. unfold boot_step_raw, boot_step. rewrite lik_eval_raw_is_skeleton by exact W.
  destruct (lik_eval _ _ _ lm _ (snd pred)) as [vl l].
  destruct (fst vl); reflexivity.
Qed.

(* whatever vector a failing user likelihood hands back next to its false flag: the predicted set is returned,
   the vector is stored (getLikelihood reports (false, that vector)) and nothing is computed from it *)
Theorem C12_bootstrap_payload_failure_custom (f : St -> bool * LK) (rm : rmodel) (pred out : pset G St) st :
  fst (f (snd pred)) = false ->
  BOOTr (LCustom f) rm pred out st = Ok (mkRes pred (pf_state_of (f (snd pred))) [Likelihood]).
Proof. intros H. unfold boot_step_raw; simpl. rewrite H. reflexivity. Qed.

Theorem C12_bootstrap_payload_failure_gauss (rm : rmodel) (pred out : pset G St) st :
  gl_fails_raw St Y X YP NU RC st_px rm (snd pred) ->
  exists l, BOOTr LGauss rm pred out st = Ok (mkRes pred (mkPfSt false lk_zero1) l).
Proof.
  intros H. destruct (gl_raw_failure St Y X YP NU RC LK st_px gl_dens rm (snd pred) H) as [l E].
  unfold boot_step_raw; simpl. rewrite E; simpl. eexists; reflexivity.
Qed.

Theorem C12_gpf_payload_step_is_skeleton (gc : G -> G -> GS -> result G GS) (lm : likmodel St LK) (rm : rmodel)
        (pred out : pset G St) st :
  (lm = LGauss -> gl_well_typed St Y X YP NU RC st_px rm (gpf_states _ _ _ _ _ gpf_sample gc pred out st)) ->
  GPFr (fun a b s => Ok (gc a b s)) lm rm pred out st =
  Ok (gpf_step st_px gl_dens lk_zero1 gpf_sample gpf_wupd gc lm (gl_view Y X YP NU RC rm) pred out st).
Proof.
  unfold gpf_step_raw, gpf_step, gpf_states.
  destruct (gpf_sample _ _ _) as [states rng']; simpl.
  intros W. rewrite lik_eval_raw_is_skeleton by exact W.
  destruct (lik_eval _ _ _ lm _ states) as [vl l].
  destruct (fst vl); reflexivity.
Qed.

(* any wrapped correction that returned normally (it may have thrown instead: then so does the step) *)
Theorem C12_gpf_payload_failure (gc : G -> G -> GS -> exn (result G GS)) (lm : likmodel St LK) (rm : rmodel)
        (pred out : pset G St) st r :
  gc (fst pred) (fst out) (g_inner st) = Ok r ->
  let states := fst (gpf_sample (g_rng st) (r_out r) (snd out)) in
  match lm with LGauss => gl_fails_raw St Y X YP NU RC st_px rm states | LCustom f => fst (f states) = false end ->
  exists st' l, GPFr gc lm rm pred out st = Ok (mkRes pred st' l) /\ pf_valid (g_pf st') = false.
Proof.
  intros E. unfold gpf_step_raw. rewrite E.
  destruct (gpf_sample (g_rng st) (r_out r) (snd out)) as [states rng']; simpl.
  destruct lm as [|f]; simpl; intros H.
  - destruct (gl_raw_failure St Y X YP NU RC LK st_px gl_dens rm states H) as [l El]. rewrite El; simpl.
    do 2 eexists; split; reflexivity.
  - rewrite H. do 2 eexists; split; [reflexivity|]. simpl. exact H.
Qed.
End C12_payload.

(* the order matters: the transcription of seeded change C12-r5 (cast the innovation, THEN test its flag) ends with an
   exception on (false, empty Data), where the transcription of the code returns the predicted belief *)
Theorem C12_cast_before_flag_refuted :
  kf_fails_raw unit unit unit unit unit unit (fun _ => tt) r5_sensor tt /\
  kf_step_cast_before_flag unit unit unit unit unit unit unit (fun _ => tt) (fun g _ _ _ => (g, tt)) r5_sensor tt tt (mkKfSt None tt) = Throw /\
  kf_step_raw unit unit unit unit unit unit unit (fun _ => tt) (fun g _ _ _ => (g, tt)) r5_sensor tt tt (mkKfSt None tt)
    = Ok (mkRes tt (mkKfSt None tt) [Measure; Predicted; Innovation]).
Proof. repeat split. right; right; left; reflexivity. Qed.

(* The fault model and the algebraic model are one definition.  First the list lemmas: the per-component
   loop of the KF instance (C12_KFInst) computes C01's kf_correct *)
Section KFC01.
Variable O : MatOps.
Variables n m : nat.
Variables (H : M O m n) (R : M O m m) (y : M O m 1).

Definition nus_of (cs : list (gcomp O n)) : list (M O m 1) :=
  map (fun a => lin_innovation a y) (map (lin_predicted H) (map gmean cs)).

Lemma nus_of_innov cs : nus_of cs = map ko_innov (kf_correct H R y cs).
Proof.
  unfold nus_of, kf_correct. rewrite !map_map. apply map_ext. intros c.
  unfold kf_correct_one. destruct (kf_correct_comp _ _ _ _ _) as [[x' P'] Py]. reflexivity.
Qed.

Lemma loop_is_kf_correct cs :
  map (fun cn : gcomp O n * M O m 1 => kf_correct_comp (gcov (fst cn)) (gmean (fst cn)) H R (snd cn))
      (combine cs (nus_of cs)) =
  map (fun o => (gmean (ko_comp o), gcov (ko_comp o), ko_Py o)) (kf_correct H R y cs).
Proof.
  unfold nus_of, kf_correct. induction cs as [|c cs IH]; [reflexivity|].
  simpl. rewrite IH. f_equal.
Qed.

Lemma gcomp_eta (c : gcomp O n) : mkGcomp (gmean c) (gcov c) = c.
Proof. destruct c; reflexivity. Qed.

End KFC01.

(* the KF skeleton, instantiated with C01's numerical routines over ANY MatOps instance, under no_fault,
   is C01's kf_correct (components, innovations, measurement covariances); the weights / shape part W of
   the output object is not written *)
Theorem C12_no_fault_kf_is_C01 (O : MatOps) (n m : nat) (W : Type) (H : M O m n) (R : M O m m) (y : M O m 1)
        (pred out : kfG O n W) st :
  let res := kf_correct H R y (fst pred) in
  c_kf_step H (inject no_fault (lin_mm H R y)) pred out st =
  mkRes (overwrite_prefix (map ko_comp res) (fst out), snd out) (mkKfSt (Some (map ko_innov res)) (map ko_Py res)) sites4.
Proof.
  intros res. unfold c_kf_step, lin_mm. rewrite C12_no_fault_kf.
  unfold c_kf_px. fold (nus_of O n m H y (fst pred)). unfold c_kf_upd. cbv zeta.
  rewrite loop_is_kf_correct. fold res. simpl fst; simpl snd.
  rewrite !map_map. simpl.
  replace (map (fun x : kf_out O n m => mkGcomp (gmean (ko_comp x)) (gcov (ko_comp x))) res) with (map ko_comp res)
    by (apply map_ext; intros o; now rewrite gcomp_eta).
  now rewrite (nus_of_innov O n m H R y (fst pred)).
Qed.

Theorem C12_no_fault_kf_likelihood_is_C01 (O : MatOps) (n m : nat) (W : Type) (H : M O m n) (R : M O m m) (y : M O m 1)
        (pred out : kfG O n W) st :
  c_kf_get_lik (r_st (c_kf_step H (inject no_fault (lin_mm H R y)) pred out st)) =
  Some (map kf_likelihood (kf_correct H R y (fst pred))).
Proof.
  rewrite C12_no_fault_kf_is_C01. unfold c_kf_get_lik, kf_get_lik, c_kf_lik. simpl.
  rewrite combine_map2, map_map. reflexivity.
Qed.

Theorem C12_kf_numerical_instance_identity (O : MatOps) (n m : nat) (W : Type) (H : M O m n) (R : M O m m) (y : M O m 1)
        (p : pattern) (pred out : kfG O n W) st :
  fails_any p sites4 = true -> r_out (c_kf_step H (inject p (lin_mm H R y)) pred out st) = pred.
Proof. intros Hf. unfold c_kf_step. now apply C12_kf_identity. Qed.

(* the GPF skeleton, instantiated with C08's numerical routines over ANY MatOps instance (C12_GPFInst), is
   C08's gpf_correct -- for every wrapped Gaussian step, every likelihood model whether it reports a value
   or not, every transition density and every draw: particles, validity flag and likelihood vector *)
Theorem C12_gpf_skeleton_is_C08 (O : MatOps) (n : nat) (gc : C08_Model.gstep O n)
        (lik : list (M O n 1) -> bool * list (T (sc O)))
        (trans : list (M O n 1) -> list (M O n 1) -> list (T (sc O))) (zs : list (M O n 1))
        (pred corr_old : C08_Model.pset O n) :
  let r := C12_GPFInst.i_gpf_step O n gc lik trans zs pred corr_old in
  let c := C08_Model.gpf_correct gc lik trans zs pred corr_old in
  fst (r_out r) = C08_Model.cr_particles c /\
  pf_get_lik (g_pf (r_st r)) = (C08_Model.cr_valid c, C08_Model.cr_lik c).
Proof. exact (C12_GPFInst.gpf_skeleton_is_C08 O n gc lik trans zs pred corr_old). Qed.

(* Refuted on the faithful model, with witnesses computed on the extracted instance
   (the stale-likelihood refutations of the code before 201e1b4 live in C12_Regress.v) *)
(* "every pattern with a failing call among those GPFCorrection (through the wrapped correction) consults
   is an identity" is FALSE when the likelihood model reports a value: *)
Theorem C12_gpf_inner_failure_refuted :
  exists o, run_gpf 0 true [bad Measure] = [o] /\
    fails_any (pat_of (bad Measure)) sites4 = true /\
    tm_eqb (o_g o) (leaf (IPredG 0)) = false /\ tm_eqb (o_s o) (leaf (IPredS 0)) = false /\
    o_s o = Node FSampleS [leaf IRng; leaf (IPredG 0); leaf IOutS] /\
    o_log o = [Measure; Likelihood] /\ fst (o_lik o) = true.
Proof. eexists. split; [vm_compute; reflexivity|]. repeat split. Qed.

(* the same with shipped components only (KFCorrection + GaussianLikelihood): measure() reports
   unavailability to the wrapped correction and a value to the likelihood *)
Theorem C12_gpf_transient_inner_failure_refuted :
  exists o, run_gpf 0 false [bad Measure ++ good6] = [o] /\
    tm_eqb (o_g o) (leaf (IPredG 0)) = false /\ tm_eqb (o_s o) (leaf (IPredS 0)) = false /\
    o_log o = [Measure; Measure; Predicted; Innovation; NoiseCov] /\ fst (o_lik o) = true.
Proof. eexists. split; [vm_compute; reflexivity|]. repeat split. Qed.

(* correct(p, p) on GPFCorrection with measure() unavailable (KFCorrection + GaussianLikelihood): the
   object is NOT what was passed in: its states are re-drawn (a precondition "pred and corr are distinct
   objects" is needed; see the report) *)
Theorem C12_gpf_aliased_refuted :
  exists o, run_gpf_cfg (mkCfg false false false true) 0 true 0 false [bad Measure] = [o] /\
    o_g o = leaf (IPredG 0) /\ tm_eqb (o_s o) (leaf (IPredS 0)) = false /\
    o_s o = Node FSampleS [leaf IRng; leaf (IPredG 0); leaf (IPredS 0)] /\ o_lik o = (false, leaf FZero1).
Proof. eexists. split; [vm_compute; reflexivity|]. repeat split. Qed.

(* all sixteen subsets of the four measurement-model calls, run on the extracted instance:
   identity exactly when some call fails, likelihood valid exactly when none does *)
Example C12_kf_all_sixteen_patterns :
  forallb (fun b => match run_kf [b] with
                    | [o] => Bool.eqb (identity_at 0 o) (fails_any (pat_of b) sites4)
                             && Bool.eqb (fst (o_lik o)) (negb (fails_any (pat_of b) sites4))
                    | _ => false end) all16 = true.
Proof. vm_compute. reflexivity. Qed.

Example C12_ukf_all_sixteen_patterns additive :
  forallb (fun b => match run_ukf additive [b] with
                    | [o] => Bool.eqb (identity_at 0 o) (fails_any (pat_of b) sites3)
                             && Bool.eqb (fst (o_lik o)) (negb (fails_any (pat_of b) sites3))
                    | _ => false end) all16 = true.
Proof. destruct additive; vm_compute; reflexivity. Qed.

(* good call, then a call that cannot use the measurement, on the extracted instance:
   identity and getLikelihood = (false, empty) although step 0 had a valid likelihood *)
Example C12_kf_good_then_faulty :
  exists o0 o1, run_kf [good6; bad Measure] = [o0; o1] /\
    fst (o_lik o0) = true /\ o_g o1 = leaf (IPredG 1) /\ o_lik o1 = (false, leaf IEmpty).
Proof. do 2 eexists. split; [vm_compute; reflexivity|]. repeat split. Qed.

Example C12_ukf_good_then_faulty additive :
  exists o0 o1, run_ukf additive [good6; bad Predicted] = [o0; o1] /\
    fst (o_lik o0) = true /\ o_g o1 = leaf (IPredG 1) /\ o_lik o1 = (false, leaf IEmpty) /\
    o_log o1 = if additive then [Measure; Predicted] else [Measure; NoiseCov; Predicted].
Proof. destruct additive; do 2 eexists; (split; [vm_compute; reflexivity|]); repeat split. Qed.

Example C12_sukf_good_then_faulty ncalls lcalls :
  exists o0 o1, run_sukf true ncalls lcalls [good6; bad Innovation] = [o0; o1] /\
    fst (o_lik o0) = true /\ o_g o1 = leaf (IPredG 1) /\ o_lik o1 = (false, leaf IEmpty) /\ o_liklog o1 = [].
Proof. do 2 eexists. split; [vm_compute; reflexivity|]. repeat split. Qed.

Example C12_gpf_gaussian_likelihood_all_sixteen_patterns inner :
  forallb (fun b => match run_gpf inner false [b] with
                    | [o] => Bool.eqb (identity_at 0 o && tm_eqb (o_s o) (leaf (IPredS 0))) (fails_any (pat_of b) sites4)
                    | _ => false end) all16 = true.
Proof. destruct inner as [|[|[|i]]]; vm_compute; reflexivity. Qed.

Example C12_gpf_gaussian_likelihood_same_pattern_is_identity :
  exists o, run_gpf 0 false [bad Measure] = [o] /\
    o_g o = leaf (IPredG 0) /\ o_s o = leaf (IPredS 0) /\ o_lik o = (false, leaf FZero1) /\
    o_log o = [Measure; Measure].
Proof. eexists. split; [vm_compute; reflexivity|]. repeat split. Qed.

Print Assumptions C12_kf_identity_any_model.
Print Assumptions C12_kf_identity.
Print Assumptions C12_kf_call_log.
Print Assumptions C12_no_fault_kf.
Print Assumptions C12_kf_likelihood_after_failure_reports_failure.
Print Assumptions C12_kf_likelihood_after_failure_reports_failure_any_model.
Print Assumptions C12_kf_likelihood_after_success.
Print Assumptions C12_ukf_identity.
Print Assumptions C12_ukf_identity_any_model.
Print Assumptions C12_ukf_noisecov_flag_ignored.
Print Assumptions C12_ukf_generic_call_log.
Print Assumptions C12_ukf_additive_call_log.
Print Assumptions C12_no_fault_ukf.
Print Assumptions C12_ukf_members_after_failed_prediction.
Print Assumptions C12_ukf_likelihood_after_failure_reports_failure.
Print Assumptions C12_sukf_identity.
Print Assumptions C12_sukf_identity_any_model.
Print Assumptions C12_sukf_noisecov_flag_ignored.
Print Assumptions C12_sukf_call_log.
Print Assumptions C12_sukf_size_mismatch_call_log.
Print Assumptions C12_no_fault_sukf.
Print Assumptions C12_sukf_members_after_failed_innovation.
Print Assumptions C12_sukf_likelihood_after_failure_reports_failure.
Print Assumptions C12_likelihood_reports_failure.
Print Assumptions C12_likelihood_reports_failure_any_model.
Print Assumptions C12_likelihood_value_only_if_all_calls_succeed.
Print Assumptions C12_likelihood_call_log.
Print Assumptions C12_no_fault_likelihood.
Print Assumptions C12_bootstrap_identity_any_model.
Print Assumptions C12_bootstrap_identity.
Print Assumptions C12_bootstrap_identity_iff.
Print Assumptions C12_bootstrap_likelihood_never_stale.
Print Assumptions C12_bootstrap_call_log.
Print Assumptions C12_no_fault_bootstrap.
Print Assumptions C12_gpf_identity_any_model.
Print Assumptions C12_gpf_identity.
Print Assumptions C12_gpf_identity_iff.
Print Assumptions C12_gpf_failed_step_side_effects.
Print Assumptions C12_gpf_inner_failure_not_detected.
Print Assumptions C12_gpf_aliased_failure_redraws.
Print Assumptions C12_gpf_call_log.
Print Assumptions C12_no_fault_gpf.
Print Assumptions C12_sis_skips_correction.
Print Assumptions C12_no_fault_sis.
Print Assumptions C12_public_correct_runs_the_step.
Print Assumptions C12_skipped_correction_makes_no_call.
Print Assumptions C12_whole_object_is_componentwise.
Print Assumptions C12_kf_no_partial_update.
Print Assumptions C12_gpf_no_partial_update.
Print Assumptions C12_ukf_no_partial_update.
Print Assumptions C12_sukf_no_partial_update.
Print Assumptions C12_bootstrap_no_partial_update.
Print Assumptions C12_kf_payload_step_is_skeleton.
Print Assumptions C12_kf_payload_never_read_on_failure.
Print Assumptions C12_ukf_payload_step_is_skeleton.
Print Assumptions C12_ukf_payload_never_read_on_failure.
Print Assumptions C12_sukf_payload_step_is_skeleton.
Print Assumptions C12_sukf_payload_never_read_on_failure.
Print Assumptions C12_likelihood_payload_is_skeleton.
Print Assumptions C12_likelihood_payload_reports_failure.
Print Assumptions C12_bootstrap_payload_step_is_skeleton.
Print Assumptions C12_bootstrap_payload_failure_custom.
Print Assumptions C12_bootstrap_payload_failure_gauss.
Print Assumptions C12_gpf_payload_step_is_skeleton.
Print Assumptions C12_gpf_payload_failure.
Print Assumptions C12_cast_before_flag_refuted.
Print Assumptions C12_no_fault_kf_is_C01.
Print Assumptions C12_no_fault_kf_likelihood_is_C01.
Print Assumptions C12_kf_numerical_instance_identity.
Print Assumptions C12_gpf_skeleton_is_C08.
Print Assumptions C12_gpf_inner_failure_refuted.
Print Assumptions C12_gpf_transient_inner_failure_refuted.
Print Assumptions C12_gpf_aliased_refuted.
