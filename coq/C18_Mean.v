(* C18_Mean.v — the mean clause of C18 over the Coq reals (extension of C18_Proofs):
   (a) the accumulated matrix sum_k w_k q_k q_k^T is invariant under negation of any inputs and under
       permutation; two vectors meeting the eigen-solver contract on (entrywise) equal matrices span the same
       line (v' = +-v, the same rotation) as soon as the largest eigenvalue is simple;
   (b) all inputs +-q, positive total weight: the matrix is W q q^T, its spectrum is {W, 0}, W is simple,
       q meets the contract;
   (c) symmetric sets qc, a_j qc, conj(a_j) qc with weights w0, w_j, w_j: centre dominant and simple under the
       explicit premise 2 sum_j w_j |vec a_j|^2 < w0 + 2 sum_j w_j Re(a_j)^2 (w0 of ANY sign, w_j > 0); for the
       library's own sigma-point layout qc, exp(d_j/2) qc, exp(-d_j/2) qc this reads 0 < w0 + 2 sum_j w_j cos|d_j|;
       without the premise the clause is false for an unscented weight set (refuted in Properties_C18). *)
Require Import ZArith Reals Lra List Permutation.
Require Import BFL.Ops BFL.C19_ROps BFL.C18_Model BFL.C18_Proofs.
Import ListNotations.
Local Open Scope R_scope.

Notation M4 := (mat4 ROps).

Definition mat_eq (A B : M4) : Prop := forall i j, A i j = B i j.
(* lam dominates every eigenvalue of A *)
Definition is_top (A : M4) (lam : R) : Prop := forall x mu, qnorm2 x <> 0 -> is_eigvec A x mu -> mu <= lam.
(* the largest eigenvalue of A is simple: its eigenvectors are collinear *)
Definition top_simple (A : M4) : Prop :=
  forall lam u u', is_top A lam -> qnorm2 u <> 0 -> is_eigvec A u lam -> is_eigvec A u' lam -> exists k, u' = qscale k u.

Lemma mat_eq_sym A B : mat_eq A B -> mat_eq B A.
Proof. intros H i j. symmetry. apply H. Qed.

Lemma is_eigvec_ext A B v lam : mat_eq A B -> is_eigvec A v lam -> is_eigvec B v lam.
Proof. intros H. apply is_eigvec_ext4. intros i j _ _. apply H. Qed.

(* two answers meeting the contract on equal matrices are the same rotation when the top eigenvalue is simple *)
Lemma contract_line A B v v' : mat_eq A B -> top_simple A ->
  max_eig_contract A v -> max_eig_contract B v' -> v' = v \/ v' = qneg v.
Proof.
  intros HAB Hs [Hv [lam [Hev Hmax]]] [Hv' [lam' [Hev' Hmax']]].
  pose proof (is_eigvec_ext B A v' lam' (mat_eq_sym A B HAB) Hev') as Hev'A.
  assert (H1 : lam' <= lam) by (apply (Hmax v'); [rewrite Hv'; lra | exact Hev'A]).
  assert (H2 : lam <= lam') by (apply (Hmax' v); [rewrite Hv; lra | now apply (is_eigvec_ext A B)]).
  assert (E : lam' = lam) by lra. subst lam'.
  destruct (Hs lam v v') as [k Hk]; [exact Hmax | rewrite Hv; lra | exact Hev | exact Hev'A |].
  subst v'. now apply unit_scale_pm.
Qed.

Lemma top_simple_line (A : M4) (c : Q) lamc : qnorm2 c <> 0 -> is_eigvec A c lamc ->
  (forall y lam, lamc <= lam -> is_eigvec A y lam -> exists k, y = qscale k c) -> top_simple A.
Proof.
  intros Hc Hec Hline lam u u' Htop Hu He He'.
  assert (Hle : lamc <= lam) by exact (Htop c lamc Hc Hec).
  destruct (Hline u lam Hle He) as [k ->]. destruct (Hline u' lam Hle He') as [k' ->].
  exists (k' / k). rewrite qscale_scale. f_equal. field. exact (qscale_nonzero k c Hu).
Qed.

(* A acts diagonally: the eigen-equations decouple *)
Definition diag_action (A : M4) (d0 d1 d2 d3 : R) : Prop :=
  forall u, mv A u 0 = d0 * qw u /\ mv A u 1 = d1 * qx u /\ mv A u 2 = d2 * qy u /\ mv A u 3 = d3 * qz u.

Lemma diag_eigvec A d0 d1 d2 d3 v lam : diag_action A d0 d1 d2 d3 ->
  is_eigvec A v lam <->
  d0 * qw v = lam * qw v /\ d1 * qx v = lam * qx v /\ d2 * qy v = lam * qy v /\ d3 * qz v = lam * qz v.
Proof. intros HA. destruct (HA v) as [F0 [F1 [F2 F3]]]. unfold is_eigvec. rewrite F0, F1, F2, F3. reflexivity. Qed.

(* an eigenvalue above every diagonal entry would force every component of its eigenvector to vanish *)
Lemma eig_comp_zero d mu a : d * a = mu * a -> d < mu -> a = 0.
Proof.
  intros E H. assert (E' : (mu - d) * a = 0) by lra. apply Rmult_integral in E'. destruct E'; [lra | assumption].
Qed.

Lemma diag_is_top (A : M4) d0 d1 d2 d3 lam : diag_action A d0 d1 d2 d3 ->
  d0 <= lam -> d1 <= lam -> d2 <= lam -> d3 <= lam -> is_top A lam.
Proof.
  intros HA H0 H1 H2 H3 u mu Hu He. apply (diag_eigvec A d0 d1 d2 d3 u mu HA) in He. destruct He as [E0 [E1 [E2 E3]]].
  destruct (Rle_dec mu lam) as [|Hgt]; [assumption|]. exfalso. apply Hu. unfold qnorm2.
  rewrite (eig_comp_zero d0 mu (qw u)), (eig_comp_zero d1 mu (qx u)), (eig_comp_zero d2 mu (qy u)),
    (eig_comp_zero d3 mu (qz u)) by (assumption || lra).
  lra.
Qed.

Lemma outer_sum_flip bs w qs : mat_eq (outer_sum ROps w (flip bs qs)) (outer_sum ROps w qs).
Proof. intros i j. rewrite !outer_sum_R. apply osum_flip. Qed.

Lemma outer_sum_perm w qs w' qs' : Permutation (combine w qs) (combine w' qs') ->
  mat_eq (outer_sum ROps w' qs') (outer_sum ROps w qs).
Proof. intros H i j. rewrite !outer_sum_R. now apply osum_perm. Qed.

Lemma mv_all_pm q w qs u i : all_pm q qs ->
  mv (outer_sum ROps w qs) u i = wtot w qs * qdot q u * qcomp ROps q i.
Proof. intros H. unfold mv. rewrite !(outer_sum_all_pm q) by exact H. unfold qdot. simpl. lra. Qed.

Section AllPm.
Variables (q : Q) (w : list R) (qs : list Q).
Hypotheses (Hq : qnorm2 q = 1) (Hall : all_pm q qs) (HW : 0 < wtot w qs).

Lemma all_pm_eigvec : is_eigvec (outer_sum ROps w qs) q (wtot w qs).
Proof.
  apply is_eigvec_comp. intros i. rewrite (mv_all_pm q), qdot_self, Hq by assumption. lra.
Qed.

(* the whole spectrum: eigenvalue W on the line of q, eigenvalue 0 on its orthogonal complement *)
Lemma all_pm_spectrum u mu : qnorm2 u <> 0 -> is_eigvec (outer_sum ROps w qs) u mu ->
  (mu = wtot w qs /\ u = qscale (qdot q u) q) \/ (mu = 0 /\ qdot q u = 0).
Proof.
  intros Hu He. pose proof (eig_sym _ _ _ _ _ _ He all_pm_eigvec) as Hd.
  destruct He as [E0 [E1 [E2 E3]]]. rewrite !(mv_all_pm q) in E0, E1, E2, E3 by assumption.
  set (W := wtot w qs) in *. set (d := qdot q u) in *. simpl in *.
  destruct (Req_dec d 0) as [Hd0|Hd0].
  - right. split; [|exact Hd0]. rewrite Hd0 in E0, E1, E2, E3.
    assert (Hn : mu * qnorm2 u = 0).
    { unfold qnorm2. replace (mu * (qw u * qw u + qx u * qx u + qy u * qy u + qz u * qz u))
        with (qw u * (mu * qw u) + qx u * (mu * qx u) + qy u * (mu * qy u) + qz u * (mu * qz u)) by lra.
      rewrite <- E0, <- E1, <- E2, <- E3. lra. }
    apply Rmult_integral in Hn. destruct Hn; [assumption | contradiction].
  - assert (Hmu : mu = W) by (apply (Rmult_eq_reg_r d); [lra | assumption]).
    left. split; [exact Hmu|]. subst mu.
    destruct u as [a b c e]. unfold qscale. simpl in *. f_equal; apply (Rmult_eq_reg_l W); lra.
Qed.

Lemma all_pm_is_top : is_top (outer_sum ROps w qs) (wtot w qs).
Proof. intros u mu Hu He. destruct (all_pm_spectrum u mu Hu He) as [[-> _]|[-> _]]; lra. Qed.

Lemma all_pm_contract : max_eig_contract (outer_sum ROps w qs) q.
Proof. split; [exact Hq|]. exists (wtot w qs). split; [exact all_pm_eigvec | exact all_pm_is_top]. Qed.

Lemma all_pm_top_simple : top_simple (outer_sum ROps w qs).
Proof.
  apply (top_simple_line _ q (wtot w qs)); [rewrite Hq; lra | exact all_pm_eigvec |]. intros y lam Hle Hy.
  destruct (Req_dec (qnorm2 y) 0) as [Hz|Hnz]; [exists 0; rewrite qscale_0; now apply qnorm2_zero|].
  destruct (all_pm_spectrum y lam Hnz Hy) as [[_ E]|[E _]]; [now exists (qdot q y) | lra].
Qed.

End AllPm.

Lemma wtot_sum (w : list R) (qs : list Q) : length w = length qs -> wtot w qs = fold_right Rplus 0 w.
Proof.
  revert qs. induction w as [|x w IH]; intros [|q qs] H; simpl in *; try discriminate; [reflexivity|].
  rewrite (IH qs) by now injection H. reflexivity.
Qed.

Section SymmetricSet.
Variables (qc : Q) (w0 : R) (ws : list R) (al : list Q).
Hypotheses (Hq : qnorm2 qc = 1) (Hlen : length ws = length al) (Hws : Forall (fun w => 0 < w) ws)
  (Hprem : 2 * vcoef ws al < w0 + 2 * sym_coef ws al).

(* a non-zero multiple of the centre that is an eigenvector has the centre's eigenvalue *)
Lemma sym_centre_multiple k mu : k <> 0 -> is_eigvec (outer_sum ROps (sym_weights w0 ws) (sym_quats qc al)) (qscale k qc) mu -> mu = w0 + 2 * sym_coef ws al.
Proof.
  intros Hk Hu. pose proof (eig_sym _ _ _ _ _ _ Hu (sym_centre_unit_eigvec qc w0 ws al Hq Hlen)) as E.
  rewrite qdot_scale_r, qdot_self, Hq in E. apply (Rmult_eq_reg_r k); [lra | exact Hk].
Qed.

Lemma sym_is_top : is_top (outer_sum ROps (sym_weights w0 ws) (sym_quats qc al)) (w0 + 2 * sym_coef ws al).
Proof.
  intros u mu Hu He. destruct (parallel_dec qc u Hq) as [[k ->]|Hn].
  - rewrite (sym_centre_multiple k mu (qscale_nonzero k qc Hu) He). lra.
  - apply Rlt_le. exact (sym_gap_resultant qc w0 ws al Hq Hlen Hws Hprem u mu He Hn).
Qed.

(* the centre itself meets the eigen-solver contract: the premise of the mean theorem is satisfiable *)
Lemma sym_centre_contract : max_eig_contract (outer_sum ROps (sym_weights w0 ws) (sym_quats qc al)) qc.
Proof.
  split; [exact Hq|]. exists (w0 + 2 * sym_coef ws al).
  split; [exact (sym_centre_unit_eigvec qc w0 ws al Hq Hlen) | exact sym_is_top].
Qed.

Lemma sym_top_simple : top_simple (outer_sum ROps (sym_weights w0 ws) (sym_quats qc al)).
Proof.
  apply (top_simple_line _ qc (w0 + 2 * sym_coef ws al));
    [rewrite Hq; lra | exact (sym_centre_unit_eigvec qc w0 ws al Hq Hlen) |].
  intros y lam Hle Hy. destruct (parallel_dec qc y Hq) as [|Hn]; [assumption|].
  pose proof (sym_gap_resultant qc w0 ws al Hq Hlen Hws Hprem y lam Hy Hn). lra.
Qed.

End SymmetricSet.

(* cos of the rotation angle of exp(d/2) as the code computes it: cos|d| outside the cut-off, 1 inside *)
Definition rcos (d : V) : R := 2 * (qw (rv_to_q ROps d) * qw (rv_to_q ROps d)) - 1.

Lemma rcos_big d : cut < n3 d -> rcos d = cos (n3 d).
Proof.
  intros H. unfold rcos. rewrite rv_to_q_big by assumption. simpl.
  replace (n3 d) with (2 * (n3 d / 2)) at 3 by lra. rewrite cos_2a_cos. lra.
Qed.

Lemma rcos_zone d : n3 d <= cut -> rcos d = 1.
Proof. intros H. unfold rcos. rewrite rv_to_q_zone by assumption. simpl. lra. Qed.

Lemma exp_neg d : rv_to_q ROps (vneg d) = qconj ROps (rv_to_q ROps d).
Proof.
  destruct (Rlt_dec cut (n3 d)) as [H|H].
  - apply quat_eq.
    + rewrite qw_exp, n3_vneg by (now rewrite n3_vneg). symmetry. now apply qw_exp.
    + change (qvec ROps (qconj ROps (rv_to_q ROps d))) with (vneg (qvec ROps (rv_to_q ROps d))).
      rewrite !qvec_exp, n3_vneg, vsd_neg, vneg_vsd by (now rewrite ?n3_vneg). reflexivity.
  - rewrite (rv_to_q_zone (vneg d)) by (rewrite n3_vneg; lra). rewrite (rv_to_q_zone d) by lra.
    rewrite qconj_R. unfold Q1. simpl. f_equal; lra.
Qed.

(* the library's own sigma-point layout: qc, qc (+) d_j, qc (+) (-d_j) *)
Definition sigma_quats (qc : Q) (ds : list V) : list Q := qc :: qsum ROps qc ds ++ qsum ROps qc (map vneg ds).

Lemma sigma_quats_sym qc ds : sigma_quats qc ds = sym_quats qc (map (rv_to_q ROps) ds).
Proof.
  unfold sigma_quats, sym_quats, qsum. rewrite !map_map. f_equal. f_equal.
  apply map_ext. intros d. unfold qsum_one. now rewrite exp_neg.
Qed.

Fixpoint wcos (ws : list R) (ds : list V) : R :=
  match ws, ds with
  | x :: ws', d :: ds' => x * rcos d + wcos ws' ds'
  | _, _ => 0
  end.

Lemma sigma_margin ws ds :
  2 * sym_coef ws (map (rv_to_q ROps) ds) - 2 * vcoef ws (map (rv_to_q ROps) ds) = 2 * wcos ws ds.
Proof.
  revert ds. induction ws as [|x ws IH]; intros [|d ds]; simpl; try lra.
  specialize (IH ds). rewrite exp_unit. unfold rcos. lra.
Qed.

(* weights summing to one (w0 + 2 sum w_j = 1): the premise reads 2 sum_j w_j (1 - cos|d_j|) < 1 *)
Fixpoint wvers (ws : list R) (ds : list V) : R :=
  match ws, ds with
  | x :: ws', d :: ds' => x * (1 - rcos d) + wvers ws' ds'
  | _, _ => 0
  end.

Lemma wcos_wvers ws (ds : list V) : length ws = length ds -> wcos ws ds = fold_right Rplus 0 ws - wvers ws ds.
Proof.
  revert ds. induction ws as [|x ws IH]; intros [|d ds] H; simpl in *; try discriminate; [lra|].
  rewrite (IH ds) by now injection H. lra.
Qed.
