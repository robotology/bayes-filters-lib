(* C05_Proofs.v — the serial unscented correction equals the standard additive one.
   The algebra is done on plain matrices X, Y, R, with the push-through identity, Woodbury and
   the determinant lemma of C15_Proofs at U = Y, V = Y^T.  Block-diagonal noise is bdiag, built
   by recursion on the number of blocks so that the serial accumulation becomes Y^T R^-1 Y;
   it equals C15_Proofs.BD, which supplies its entries and its algebra.  The two model
   functions are cut where they part (Section Steps) and compared on the updates alone. *)
Require Import ZArith List.
Require Import BFL.Ops BFL.Density BFL.C05_Model.
From mathcomp Require Import ssreflect ssrfun ssrbool eqtype ssrnat seq div choice fintype bigop order ssralg ssrnum zmodp matrix mxalgebra.
Require Import BFL.MxOps BFL.LinAlg BFL.C15_Proofs.
Set Implicit Arguments.
Unset Strict Implicit.
Unset Printing Implicit Defensive.
Import Order.Theory GRing.Theory Num.Theory.
Local Open Scope ring_scope.

(* Coq's division on nat (used by the model for block indices) is ssrnat's *)
Lemma nat_divmodE a s : Nat.div a s = (a %/ s)%N /\ Nat.modulo a s = (a %% s)%N.
Proof.
case: s => [|s]; first by rewrite divn0 modn0.
apply: (@Nat.div_mod_unique s.+1).
- exact: Nat.mod_upper_bound.
- by apply/ssrnat.ltP; rewrite ltn_mod.
- by rewrite -Nat.div_mod // {1}(divn_eq a s.+1) mulnC.
Qed.
Lemma nat_divE a s : Nat.div a s = (a %/ s)%N. Proof. by case: (nat_divmodE a s). Qed.
Lemma nat_modE a s : Nat.modulo a s = (a %% s)%N. Proof. by case: (nat_divmodE a s). Qed.

(* The algebra of the serial form: X, Y the weighted, mean-shifted sigma points of state and
   measurement, R the (SPD) noise covariance. *)
Section Algebra.
Variable F : realFieldType.
Variables (n m L : nat).
Variables (X : 'M[F]_(n,L)) (Y : 'M[F]_(m,L)) (R : 'M[F]_m) (nu : 'cV[F]_m).
Hypothesis spdR : spd R.

Let Ci := 1%:M + Y^T *m invmx R *m Y.
Let S := Y *m Y^T + R.

Lemma serial_S_spd : spd S.
Proof. by apply: psd_spd_add => //; exact: gram_psd. Qed.
Lemma serial_S_unit : S \in unitmx. Proof. exact: spd_unit serial_S_spd. Qed.
Lemma serial_S_sym : S^T = S. Proof. by case: serial_S_spd. Qed.

Lemma serial_Ci_spd : spd Ci.
Proof.
rewrite /Ci addrC; apply: psd_spd_add; last exact: spd1.
have -> : Y^T *m invmx R *m Y = Y^T *m invmx R *m Y^T^T by rewrite trmxK.
by apply: psd_congr; apply: spd_psd; apply: spd_inv.
Qed.
Lemma serial_Ci_unit : Ci \in unitmx. Proof. exact: spd_unit serial_Ci_spd. Qed.

Lemma serial_detS_gt0 : 0 < \det S. Proof. exact: spd_det_gt0 serial_S_spd. Qed.
Lemma serial_detC_gt0 : 0 < \det R * \det Ci.
Proof. by apply: mulr_gt0; [exact: spd_det_gt0 spdR | exact: spd_det_gt0 serial_Ci_spd]. Qed.

Lemma serial_push_through : invmx Ci *m (Y^T *m invmx R) = Y^T *m invmx S.
Proof. exact: push_through (spd_unit spdR) serial_S_unit. Qed.

Lemma serial_Ci_inv : invmx Ci = 1%:M - Y^T *m invmx S *m Y.
Proof.
(* by the push-through, Y^T S^-1 Y = Ci^-1 (Y^T R^-1 Y) = Ci^-1 (Ci - 1) *)
rewrite -serial_push_through -mulmxA -[Y^T *m invmx R *m Y](addKr 1%:M) -/Ci.
by rewrite mulmxDr mulmxN mulmx1 (mulVmx serial_Ci_unit) opprD opprK addrCA subrr addr0.
Qed.

Lemma serial_cov :
  X *m invmx Ci *m X^T = X *m X^T - X *m Y^T *m invmx S *m Y *m X^T.
Proof. by rewrite serial_Ci_inv mulmxBr mulmx1 mulmxBl !mulmxA. Qed.

(* K = X Y^T S^-1 is the gain of the additive correction: K S K^T is the term subtracted above *)
Lemma serial_gain_cov :
  (X *m Y^T *m invmx S) *m S *m (X *m Y^T *m invmx S)^T = X *m Y^T *m invmx S *m Y *m X^T.
Proof.
have uS := serial_S_unit.
rewrite !trmx_mul trmxK trmx_inv serial_S_sym -[_ *m invmx S *m S]mulmxA (mulVmx uS) mulmx1.
by rewrite !mulmxA.
Qed.

Lemma serial_mean :
  X *m invmx Ci *m (Y^T *m invmx R *m nu) = X *m Y^T *m invmx S *m nu.
Proof.
by rewrite -[X *m invmx Ci *m _]mulmxA [invmx Ci *m _]mulmxA serial_push_through !mulmxA.
Qed.

(* Woodbury on the quadratic form of the UVR density *)
Lemma serial_quadform :
  (nu^T *m invmx R) *m (1%:M - Y *m invmx Ci *m (Y^T *m invmx R)) *m nu =
  nu^T *m invmx S *m nu.
Proof. exact: esym (woodbury_quadform (spd_unit spdR) serial_S_unit nu). Qed.

End Algebra.

(* Block-diagonal matrices with k blocks of size s, assembled recursively
   ((k+1)*s is convertible with s + k*s, so block_mx needs no cast). *)
Section BlockDiag.
Variable F : realFieldType.
Variable s : nat.

Fixpoint bdiag (k : nat) (Rb : nat -> 'M[F]_s) : 'M[F]_(k * s) :=
  match k return 'M[F]_(k * s) with
  | 0%N => 0
  | k'.+1 => block_mx (Rb 0%N) 0 0 (bdiag k' (fun j => Rb j.+1))
  end.

(* entry by entry bdiag is C15_Proofs.BD, which has the algebra *)
Lemma bdiag_BD k Rb : bdiag k Rb = BD k Rb.
Proof. by elim: k Rb => [|k IH] Rb /=; [apply/matrixP; case | rewrite BD_S IH]. Qed.

Lemma mx_get_bdiag k Rb a b : (a < k * s)%N -> (b < k * s)%N ->
  mx_get (bdiag k Rb) a b =
  if (a %/ s == b %/ s)%N then mx_get (Rb (a %/ s)%N) (a %% s)%N (b %% s)%N else 0.
Proof.
by move=> ak bk; rewrite bdiag_BD -[a]/(val (Ordinal ak)) -[b]/(val (Ordinal bk)) mx_get_ord mxE.
Qed.

Lemma bdiag_spd k Rb : (forall j, (j < k)%N -> spd (Rb j)) -> spd (bdiag k Rb).
Proof. by rewrite bdiag_BD; exact: BD_spd. Qed.

Lemma bdiag_ext k Rb Rb' : (forall j, (j < k)%N -> Rb j = Rb' j) -> bdiag k Rb = bdiag k Rb'.
Proof. by rewrite !bdiag_BD; exact: BD_ext. Qed.

Lemma bdiag_unit k Rb : (forall j, (j < k)%N -> Rb j \in unitmx) -> bdiag k Rb \in unitmx.
Proof. by rewrite bdiag_BD => /BD_inverse []. Qed.

Lemma bdiag_inv k Rb : (forall j, (j < k)%N -> Rb j \in unitmx) ->
  invmx (bdiag k Rb) = bdiag k (fun j => invmx (Rb j)).
Proof. by rewrite !bdiag_BD => /BD_inverse []. Qed.

Lemma bdiag_det k Rb : \det (bdiag k Rb) = \prod_(j < k) \det (Rb j).
Proof. by rewrite bdiag_BD; exact: BD_det. Qed.

(* the slices of the model (mslice with nat offsets) on block-structured matrices *)
Lemma mx_get_dsub m1 m2 n (A : 'M[F]_(m1 + m2, n)) a c :
  mx_get (dsubmx A) a c = mx_get A (m1 + a) c.
Proof.
by rewrite -[A in RHS]vsubmxK mx_get_col_mx ltnNge leq_addr /= addKn.
Qed.

Lemma mx_get_usub m1 m2 n (A : 'M[F]_(m1 + m2, n)) a c : (a < m1)%N ->
  mx_get (usubmx A) a c = mx_get A a c.
Proof.
by move=> am; rewrite -[A in RHS]vsubmxK mx_get_col_mx am.
Qed.

Lemma mx_get_rsub m n1 n2 (A : 'M[F]_(m, n1 + n2)) a c :
  mx_get (rsubmx A) a c = mx_get A a (n1 + c).
Proof. by rewrite -mx_get_tr -[in RHS]mx_get_tr trmx_rsub mx_get_dsub. Qed.

Lemma mx_get_lsub m n1 n2 (A : 'M[F]_(m, n1 + n2)) a c : (c < n1)%N ->
  mx_get (lsubmx A) a c = mx_get A a c.
Proof. by move=> cn; rewrite -mx_get_tr -[in RHS]mx_get_tr trmx_lsub mx_get_usub. Qed.

(* row block j of Y (s rows from s*j), diagonal block j of R *)
Definition rblk m L (j : nat) (Y : 'M[F]_(m, L)) : 'M[F]_(s, L) :=
  \matrix_(i, c) mx_get Y (s * j + i) c.
Definition dblk m (j : nat) (R : 'M[F]_m) : 'M[F]_s :=
  \matrix_(i, c) mx_get R (s * j + i) (s * j + c).

Lemma rblk0 k L (Y : 'M[F]_(s + k * s, L)) : rblk 0 Y = usubmx Y.
Proof. by apply/matrixP=> i c; rewrite mxE muln0 add0n -[RHS]mx_get_ord mx_get_usub. Qed.

Lemma rblkS k L j (Y : 'M[F]_(s + k * s, L)) : rblk j.+1 Y = rblk j (dsubmx Y).
Proof. by apply/matrixP=> i c; rewrite !mxE mx_get_dsub mulnS addnA. Qed.

Lemma dblk_bdiag k Rb j : (j < k)%N -> dblk j (bdiag k Rb) = Rb j.
Proof.
move=> jk; apply/matrixP=> i c; have s0 : (0 < s)%N := leq_ltn_trans (leq0n i) (ltn_ord i).
by rewrite mxE ![(s * j)%N]mulnC mx_get_bdiag ?in_blk // !dv // !md // eqxx mx_get_ord.
Qed.

Lemma bdiag_offdiag k (Rb : nat -> 'M[F]_s) a b :
  (a %/ s != b %/ s)%N -> mx_get (bdiag k Rb) a b = 0.
Proof.
move=> ne.
case: (ltnP a (k * s)) => ak; last exact: mx_get_out_r.
case: (ltnP b (k * s)) => bk; last exact: mx_get_out_c.
by rewrite mx_get_bdiag // (negbTE ne).
Qed.

Lemma bdiag_sum k L L' (G : nat -> 'M[F]_s) (Y : 'M[F]_(k * s, L)) (Z : 'M[F]_(k * s, L')) :
  \sum_(j < k) (rblk j Y)^T *m G j *m rblk j Z = Y^T *m bdiag k G *m Z.
Proof.
elim: k G Y Z => [|k IH] G Y Z.
  by rewrite big_ord0 /=; apply/matrixP=> i c; rewrite !mxE big_ord0.
rewrite /= -{2}(vsubmxK Y) -{2}(vsubmxK Z) tr_col_mx mul_row_block mul_row_col !mulmx0 addr0 add0r -IH.
by rewrite big_ord_recl !rblk0; congr (_ + _); apply: eq_bigr => i _; rewrite !rblkS.
Qed.

(* column blocks: V blockdiag(G) assembled block by block, read back at column b
   from block b / s, column b mod s (the layout of V_inv_R / diff_T_inv_R in the
   UVR density) *)
Definition cblk L m (j : nat) (V : 'M[F]_(L, m)) : 'M[F]_(L, s) :=
  \matrix_(a, c) mx_get V a (j * s + c).

Lemma cblk0 k L (V : 'M[F]_(L, s + k * s)) : cblk 0 V = lsubmx V.
Proof. by apply/matrixP=> a c; rewrite mxE mul0n add0n -[RHS]mx_get_ord mx_get_lsub. Qed.

Lemma cblkS k L j (V : 'M[F]_(L, s + k * s)) : cblk j.+1 V = cblk j (rsubmx V).
Proof. by apply/matrixP=> a c; rewrite !mxE mx_get_rsub mulSn addnA. Qed.

Lemma rblk_tr m L j (Y : 'M[F]_(m, L)) : (rblk j Y)^T = cblk j Y^T.
Proof. by apply/matrixP=> a c; rewrite !mxE mx_get_tr mulnC. Qed.

Lemma mul_bdiag_cols k L (G : nat -> 'M[F]_s) (V : 'M[F]_(L, k * s)) (Bk : nat -> 'M[F]_(L, s)) :
  (0 < s)%N -> (forall j, (j < k)%N -> Bk j = cblk j V *m G j) ->
  V *m bdiag k G = \matrix_(a, b) mx_get (Bk (Nat.div b s)) a (Nat.modulo b s).
Proof.
move=> s0 HB; apply/matrixP=> a b.
rewrite bdiag_BD (mul_BD s0 G (Y := fun t => cblk t V)) => [|t i l tk iL ls].
  by rewrite mxE nat_divE nat_modE HB // ltn_divLR.
by rewrite -[i]/(val (Ordinal iL)) -[l]/(val (Ordinal ls)) mx_get_ord mxE.
Qed.
End BlockDiag.

(* The two corrections of one component, cut at the point where they part: both compute the
   same state offsets, propagated sigma points, predicted mean and innovation; ukf_update /
   sukf_update are what each does with them.  Every arithmetic instance. *)
Section Steps.
Variable O : MatOps.
Variables (n m : nat).
Local Notation L := (nsig n).

Definition state_offsets (nl : nat) (w : utw O) (x : M O n 1) (P : M O n n) : M O n L :=
  lay_sub nl (sigma_points n nl (utc w) x P) x.
Definition meas_sigma (nl : nat) (w : utw O) (h : M O n 1 -> M O m 1) (x : M O n 1) (P : M O n n) : M O m L :=
  propagate h (sigma_points n nl (utc w) x P).
Definition meas_mean (ml : nat) (w : utw O) (Ys : M O m L) : M O m 1 :=
  lay_mean ml Ys (wmean_col L w).
Definition meas_offsets (ml : nat) (w : utw O) (Ys : M O m L) : M O m L :=
  lay_sub ml Ys (meas_mean ml w Ys).

Definition ukf_update (W : M O L L) (R : M O m m) (x : M O n 1) (P : M O n n)
           (Xc : M O n L) (Yc : M O m L) (nu : M O m 1) : ukf_out O n m :=
  let Pyy := madd (mmul (mmul Yc W) (mtr Yc)) R in
  let K := mmul (mmul (mmul Xc W) (mtr Yc)) (minv Pyy) in
  mkUkfOut (madd x (mmul K nu)) (msub P (mmul (mmul K Pyy) (mtr K))) nu Pyy.

Definition sukf_update s (nz : noise O s m) (x : M O n 1) (X : M O n L) (Y : M O m L) (nu : M O m 1)
  : sukf_out O n m :=
  let acc := sukf_accum Y nu nz in
  let XC := mmul X (minv (fst acc)) in
  mkSukfOut (madd x (mmul XC (snd acc))) (mmul XC (mtr X)) nu Y.

Lemma ukf_correct_comp_layE nl ml w h y R x P :
  ukf_correct_comp_lay nl ml w h y R x P =
  let Ys := meas_sigma nl w h x P in
  ukf_update (wcov_diag L w) R x P (state_offsets nl w x P) (meas_offsets ml w Ys) (msub y (meas_mean ml w Ys)).
Proof. by []. Qed.

Lemma sukf_correct_comp_layE s nl ml w h y (nz : noise O s m) x P :
  sukf_correct_comp_lay nl ml w h y nz x P =
  let Ys := meas_sigma nl w h x P in
  sukf_update nz x (mmul (state_offsets nl w x P) (sqrt_wcov_diag L w))
              (mmul (meas_offsets ml w Ys) (sqrt_wcov_diag L w)) (msub y (meas_mean ml w Ys)).
Proof. by []. Qed.
End Steps.

(* the UVR density, cut into named pieces (every arithmetic instance) *)
Section UVRPieces.
Variable O : MatOps.
Notation Sc := (sc O).
Variables (s m L : nat).

Definition u_Rblk (R : M O s m) (i : nat) : M O s s := mslice 0 (s * i) s s R.
Definition u_invR (R : M O s m) : list (M O s s) :=
  if Nat.eqb m s then let single := minv (u_Rblk R 0) in List.map (fun _ => single) (List.seq 0 (Nat.div m s))
  else List.map (fun i => minv (u_Rblk R i)) (List.seq 0 (Nat.div m s)).
Definition u_iR (R : M O s m) (i : nat) : M O s s := List.nth i (u_invR R) (mzero s s).
(* the products B_i R_i^-1 side by side, read back at column b from block b / s, column b mod s *)
Definition u_mulinvR r (B : nat -> M O r s) (R : M O s m) : M O r m :=
  mbuild r m (fun a b =>
    mget (List.nth (Nat.div b s) (List.map (fun i => mmul (B i) (u_iR R i)) (List.seq 0 (Nat.div m s)))
                   (mzero r s)) a (Nat.modulo b s)).
Definition u_VinvR (V : M O L m) (R : M O s m) : M O L m := u_mulinvR (fun i => mslice 0 (i * s) L s V) R.
Definition u_dTinvR (diff : M O m 1) (R : M O s m) : M O 1 m :=
  u_mulinvR (fun i => mtr (mslice (i * s) 0 s 1 diff)) R.
Definition u_IVRU (U : M O m L) (V : M O L m) (R : M O s m) : M O L L :=
  madd (mid L) (mmul (u_VinvR V R) U).
Definition u_detR (R : M O s m) : T Sc :=
  if Nat.eqb m s then spow (mdet (u_Rblk R 0)) (Nat.div m s)
  else List.fold_left (fun acc i => smul Sc acc (mdet (u_Rblk R i))) (List.seq 0 (Nat.div m s)) (s1 Sc).

Lemma uvr_termsE (input mean : M O m 1) (U : M O m L) (V : M O L m) (R : M O s m) :
  uvr_terms input mean U V R =
  (smul Sc (u_detR R) (mdet (u_IVRU U V R)),
   mget (mmul (mmul (u_dTinvR (mcolwise_sub input mean) R)
                    (msub (mid m) (mmul (mmul U (minv (u_IVRU U V R))) (u_VinvR V R))))
              (mcolwise_sub input mean)) 0 0).
Proof. by []. Qed.
End UVRPieces.

Lemma fold_left_rel (A B C : Type) (R : A -> B -> Prop) (f : A -> C -> A) (g : B -> C -> B) (l : list C) a b :
  (forall a b c, List.In c l -> R a b -> R (f a c) (g b c)) -> R a b ->
  R (List.fold_left f l a) (List.fold_left g l b).
Proof.
elim: l a b => [|c l IH] a b H r //=.
by apply: IH => [a' b' c' Hc|]; apply: H => //; [right | left].
Qed.

Lemma in_seq0 i q : List.In i (List.seq 0 q) -> (i < q)%N.
Proof. by move/List.in_seq => [_ /ssrnat.ltP]. Qed.

(* The model at the MathComp instance. *)
Section Model.
Variable F : realFieldType.
Variable tr : Transc F.
Variable sq : forall n, 'M[F]_n -> 'M[F]_n.
Variable eg : forall n, 'M[F]_n -> 'M[F]_(n,1).
Let O := MxMat tr sq eg.

Lemma sukf_size_mismatch n m s nl ml (w : utw O) (h : M O n 1 -> M O m 1) (y : M O m 1)
      (nz : noise O s m) (pred corr_prev : mixture O n) :
  Nat.modulo m s <> 0%N ->
  sukf_correct nl ml w h y nz pred corr_prev = (pred, None).
Proof.
move=> ne; rewrite /sukf_correct.
by case E: (Nat.eqb _ _) => //; move/Nat.eqb_eq: E.
Qed.

Lemma sukf_likelihood_empty n m s (nz : noise O s m) :
  sukf_likelihood (n:=n) nz None = None.
Proof. by []. Qed.

Section Accum.
Variables (s k L : nat).
Notation m := (k * s)%N.

(* the noise handed to the SUKF has diagonal blocks Rb 0 .. Rb (k-1) *)
Definition noise_blocks (nz : noise O s m) (Rb : nat -> 'M[F]_s) : Prop :=
  match nz with
  | NoiseReduced R0 => forall j, (j < k)%N -> Rb j = R0
  | NoiseFull R => R = bdiag k Rb
  end.

Lemma noise_blockE (nz : noise O s m) Rb j : noise_blocks nz Rb -> (j < k)%N ->
  noise_block nz j = Rb j.
Proof.
case: nz => [R0|R] /= H jk; first by rewrite H.
by rewrite H; exact: dblk_bdiag.
Qed.

Lemma accum_fold (Y : M O m L) (nu : M O m 1) (nz : noise O s m) q (acc : M O L L * M O L 1) :
  List.fold_left (sukf_accum_step Y nu nz) (List.seq 0%N q) acc =
  (acc.1 + \sum_(j < q) (rblk s j Y)^T *m invmx (noise_block nz j) *m rblk s j Y,
   acc.2 + \sum_(j < q) (rblk s j Y)^T *m invmx (noise_block nz j) *m rblk s j nu).
Proof.
elim: q => [|q IH]; first by rewrite !big_ord0 !addr0 /=; case: acc.
by rewrite List.seq_S List.fold_left_app IH /= !big_ord_recr /= !addrA.
Qed.

Lemma sukf_accum_blocks (Y : M O m L) (nu : M O m 1) (nz : noise O s m) Rb :
  (0 < s)%N -> noise_blocks nz Rb -> (forall j, (j < k)%N -> Rb j \in unitmx) ->
  sukf_accum Y nu nz =
  (1%:M + Y^T *m invmx (bdiag k Rb) *m Y, Y^T *m invmx (bdiag k Rb) *m nu).
Proof.
move=> s0 Hnz uR; rewrite /sukf_accum (div_mulK _ s0) accum_fold /= add0r bdiag_inv //.
by rewrite -!bdiag_sum; congr (_ + _, _); apply: eq_bigr => j _; rewrite (noise_blockE Hnz).
Qed.

End Accum.

Hypothesis sqrt_ok : forall x : F, 0 <= x -> t_sqrt tr x * t_sqrt tr x = x.

Lemma mdiag_ofE L (d : nat -> F) : mdiag_of O L d = diag_mx (\row_j d j).
Proof.
apply/matrixP=> i j; rewrite !mxE nat_eqbE -val_eqE.
by case: (val i == val j); rewrite ?mulr1n ?mulr0n.
Qed.

Section Weights.
Variables (w : utw O) (L : nat).
Hypothesis wc0_ge0 : 0 <= wc0 w.
Hypothesis wci_ge0 : 0 <= wci w.

Lemma wc_at_ge0 j : 0 <= wc_at w j.
Proof. by rewrite /wc_at; case: Nat.eqb. Qed.

Lemma sqrtD_sq : sqrt_wcov_diag L w *m sqrt_wcov_diag L w = wcov_diag L w.
Proof.
rewrite /sqrt_wcov_diag /wcov_diag !mdiag_ofE mulmx_diag; congr diag_mx.
by apply/rowP=> j; rewrite !mxE sqrt_ok // wc_at_ge0.
Qed.

Lemma sqrtD_tr : (sqrt_wcov_diag L w)^T = sqrt_wcov_diag L w.
Proof. by rewrite /sqrt_wcov_diag mdiag_ofE tr_diag_mx. Qed.

Lemma weighted_cross a b (Xc : 'M[F]_(a, L)) (Yc : 'M[F]_(b, L)) :
  (Xc *m sqrt_wcov_diag L w) *m (Yc *m sqrt_wcov_diag L w)^T = Xc *m wcov_diag L w *m Yc^T.
Proof. by rewrite trmx_mul sqrtD_tr !mulmxA -[Xc *m _ *m _]mulmxA sqrtD_sq. Qed.
End Weights.

Lemma mcolwise_subE r c (X : 'M[F]_(r, c)) (v : 'cV[F]_r) :
  mcolwise_sub (O:=O) X v = \matrix_(i, j) (X i j - v i 0).
Proof. by apply/matrixP=> i j; rewrite !mxE /= mx_get_ord mx_get_col. Qed.

Lemma mcolwise_add_sub r c (X : 'M[F]_(r, c)) (v : 'cV[F]_r) :
  mcolwise_sub (O:=O) (mcolwise_add (O:=O) X v) v = X.
Proof. by rewrite mcolwise_subE; apply/matrixP=> i j; rewrite !mxE /= mx_get_ord mx_get_col addrK. Qed.

Lemma mul_row3_diag n (Z : 'M[F]_(n, 1)) (U V : 'M[F]_n) (d : nat -> F) (d1 : F) :
  (forall j, d j.+1 = d1) ->
  row_mx Z (row_mx U V) *m mdiag_of O (1 + (n + n)) d =
  row_mx (d 0%N *: Z) (row_mx (d1 *: U) (d1 *: V)).
Proof.
move=> dS; rewrite mdiag_ofE mul_mx_diag.
apply/matrixP=> i j; rewrite mxE [in LHS]mxE.
case: (split_ordP j) => [j0 ->|j1 ->]; rewrite ?row_mxEl ?row_mxEr.
  by rewrite !mxE ord1 mulrC.
have -> : (\row_j0 d j0) 0 (rshift 1 j1) = d1 by rewrite mxE /= add1n dS.
by case: (split_ordP j1) => [j2 ->|j2 ->]; rewrite ?row_mxEl ?row_mxEr !mxE mulrC.
Qed.

Lemma row3_gram n (Z : 'M[F]_(n, 1)) (U V : 'M[F]_n) :
  row_mx Z (row_mx U V) *m (row_mx Z (row_mx U V))^T = Z *m Z^T + (U *m U^T + V *m V^T).
Proof. by rewrite !tr_row_mx !mul_row_col. Qed.

Lemma scaled_gram n (a : F) (A : 'M[F]_n) : (a *: A) *m (a *: A)^T = (a * a) *: (A *m A^T).
Proof. by rewrite linearZ /= -scalemxAl -scalemxAr scalerA. Qed.

(* Euler layout: on the linear rows lay_add / lay_sub are the plain column-wise operations *)
Lemma lay_add_sub_linear r c nl (X : 'M[F]_(r, c)) (v : 'cV[F]_r) : (r <= nl)%N ->
  lay_sub (O:=O) nl (lay_add (O:=O) nl X v) v = X.
Proof.
move=> le; apply/matrixP=> i j; rewrite !mxE /= !mx_get_ord mxE /= !mx_get_ord mx_get_col.
by rewrite nat_ltbE (leq_trans (ltn_ord i) le) addrK.
Qed.

Section Sigma.
Variables (n nl : nat) (w : utw O) (x : 'cV[F]_n) (P : 'M[F]_n).
(* the sigma-point perturbations are recovered from the sigma points by the layout's
   difference: an identity on linear rows; on an angle row it says that
   directional_sub (directional_add p m) m = p, i.e. the perturbation lies in (-pi, pi] *)
Definition state_roundtrip : Prop :=
  lay_sub (O:=O) nl (lay_add (O:=O) nl (perturbations n (utc w) P) x) x = perturbations n (utc w) P.
Hypothesis rt : state_roundtrip.
Hypothesis c_gt0 : 0 < utc w.
Hypothesis wciE : wci w = ((1 + 1) * utc w)^-1.
Hypothesis sqP : @sq n P *m (@sq n P)^T = P.

Lemma two_c_gt0 : 0 < (1 + 1) * utc w.
Proof. by apply: mulr_gt0 => //; apply: addr_gt0; exact: ltr01. Qed.

Lemma wci_ge0_of_c : 0 <= wci w.
Proof. by rewrite wciE invr_ge0 ltW // two_c_gt0. Qed.

(* the weighted state offsets: X = (SP - x) sqrt(diag wc) *)
Definition Xw := lay_sub (O:=O) nl (sigma_points n nl (utc w) x P) x *m sqrt_wcov_diag (nsig n) w.

Lemma XwE :
  Xw = row_mx (0 : 'M[F]_(n, 1)) (row_mx ((t_sqrt tr (utc w) * t_sqrt tr (wci w)) *: @sq n P)
                        ((- (t_sqrt tr (utc w) * t_sqrt tr (wci w))) *: @sq n P)).
Proof.
rewrite /Xw /sigma_points rt /sqrt_wcov_diag /perturbations.
rewrite [LHS](@mul_row3_diag _ _ _ _ _ (t_sqrt tr (wci w))) //.
by rewrite /= scaler0 !scalerA mulrN ![t_sqrt tr (wci w) * _]mulrC.
Qed.

Lemma Xw_cov : Xw *m Xw^T = P.
Proof.
(* [LHS]: the width nsig n of Xw is 1 + (n + n) only after unfolding *)
rewrite XwE [LHS]row3_gram trmx0 mulmx0 add0r !scaled_gram mulrNN -scalerDl sqP.
set a := t_sqrt tr (utc w) * _.
have -> : a * a + a * a = 1; last by rewrite scale1r.
rewrite /a mulrACA !sqrt_ok ?wci_ge0_of_c ?ltW //.
have -> : utc w * wci w + utc w * wci w = ((1 + 1) * utc w) * wci w by rewrite -mulrA mulrDl !mul1r.
by rewrite wciE mulfV // gt_eqF // two_c_gt0.
Qed.
End Sigma.

Lemma state_roundtrip_linear n nl (w : utw O) (x : 'cV[F]_n) (P : 'M[F]_n) : (n <= nl)%N ->
  state_roundtrip nl w x P.
Proof. by move=> le; rewrite /state_roundtrip lay_add_sub_linear. Qed.

(* From here on: k blocks of size s > 0, the diagonal blocks Rb j of the noise argument nz are SPD;
   R is the block-diagonal matrix the UKF is given. *)
Section SpdBlocks.
Variables (k s : nat).
Notation m := (k * s)%N.
Variables (nz : noise O s m) (Rb : nat -> 'M[F]_s).
Hypothesis s_gt0 : (0 < s)%N.
Hypothesis Hnz : noise_blocks nz Rb.
Hypothesis spdRb : forall j, (j < k)%N -> spd (Rb j).
Let R : 'M[F]_m := bdiag k Rb.
Let uRb j : (j < k)%N -> Rb j \in unitmx. Proof. by move=> jk; apply: spd_unit; exact: spdRb. Qed.

Lemma noise_spd : spd R. Proof. exact: bdiag_spd. Qed.

(* the UVR density as getLikelihood() calls it = the direct density *)
Section Likelihood.
Variable L : nat.

Lemma lik_Rcat_block i : (i < k)%N -> mslice 0 (s * i) s s (lik_Rcat nz) = Rb i.
Proof.
move=> ik; apply/matrixP=> a c; rewrite mxE /= [(s * i)%N]mulnC.
rewrite /lik_Rcat /= mx_get_build ?in_blk // !nat_divE nat_modE dv // md // mulnK //.
by rewrite nth_map_seqN // (noise_blockE Hnz) // mx_get_ord.
Qed.

(* R.cols() == block_size: a single block *)
Lemma shared_k1 : Nat.eqb m s -> k = 1%N.
Proof. by move/Nat.eqb_eq/eqP; rewrite -{2}(mul1n s) eqn_pmul2r // => /eqP. Qed.

Lemma u_iRE i : (i < k)%N -> u_iR (lik_Rcat nz) i = invmx (Rb i).
Proof.
rewrite /u_iR /u_invR /u_Rblk (div_mulK _ s_gt0); case E: (Nat.eqb m s) => ik; last by rewrite nth_map_seqN // lik_Rcat_block.
have k1 := shared_k1 E; have k0 : (0 < k)%N by rewrite k1.
have -> : i = 0%N by move: ik; rewrite k1; case: i.
by rewrite nth_map_seqN // lik_Rcat_block.
Qed.

Lemma u_mulinvRE r (B : nat -> 'M[F]_(r, s)) (V : 'M[F]_(r, m)) : (forall j, (j < k)%N -> B j = cblk s j V) ->
  u_mulinvR (O:=O) B (lik_Rcat nz) = V *m invmx R.
Proof.
move=> HB; rewrite /R bdiag_inv // /u_mulinvR (div_mulK _ s_gt0); symmetry.
apply: (mul_bdiag_cols (Bk := fun j => List.nth j _ _)) => // j jk.
by rewrite nth_map_seqN // u_iRE // HB.
Qed.

Lemma u_detRE : u_detR (lik_Rcat nz) = \det R.
Proof.
rewrite /u_detR /u_Rblk /R bdiag_det (div_mulK _ s_gt0); case E: (Nat.eqb m s).
  have k1 := shared_k1 E; have k0 : (0 < k)%N by rewrite k1.
  have -> : \prod_(j < k) \det (Rb j) = \det (Rb 0%N) by rewrite k1 big_ord1.
  have -> x : spow (O:=O) x k = x by rewrite k1 /= mulr1.
  by rewrite lik_Rcat_block.
by rewrite fold_prod; apply: eq_bigr => j _; rewrite lik_Rcat_block.
Qed.

Lemma uvr_terms_eq (nu : 'cV[F]_m) (Y : 'M[F]_(m, L)) :
  uvr_terms (O:=O) nu (mzero m 1) Y (@mtr O m L Y) (lik_Rcat nz) =
  (\det R * \det (1%:M + Y^T *m invmx R *m Y),
   ((nu^T *m invmx R) *m (1%:M - Y *m invmx (1%:M + Y^T *m invmx R *m Y) *m (Y^T *m invmx R)) *m nu) 0 0).
Proof.
rewrite uvr_termsE u_detRE /u_IVRU /u_VinvR /u_dTinvR.
have -> : mcolwise_sub (O:=O) nu (mzero m 1) = nu.
  by rewrite mcolwise_subE; apply/matrixP=> i j; rewrite !mxE subr0 ord1.
rewrite (u_mulinvRE (V:=Y^T)) // (u_mulinvRE (V:=nu^T)) /= ?(mx_get_ord _ (0 : 'I_1) 0) // => j _.
by apply/matrixP=> a c; rewrite !mxE /= mx_get_tr.
Qed.

(* the argument of std::log in the UVR density is positive *)
Lemma uvr_det_gt0 (nu : 'cV[F]_m) (Y : 'M[F]_(m, L)) :
  0 < (uvr_terms (O:=O) nu (mzero m 1) Y (@mtr O m L Y) (lik_Rcat nz)).1.
Proof. by rewrite uvr_terms_eq; exact: (serial_detC_gt0 Y noise_spd). Qed.

Lemma uvr_is_direct (nu : 'cV[F]_m) (Y : 'M[F]_(m, L)) :
  uvr_log_density (O:=O) nu (mzero m 1) Y (@mtr O m L Y) (lik_Rcat nz) =
  log_density (O:=O) nu (mzero m 1) (Y *m Y^T + R).
Proof.
rewrite /uvr_log_density uvr_terms_eq /log_density /gauss_log_value /=; congr (_ * (_ + _ + _)).
  by rewrite (det_lemma Y Y^T (spd_unit noise_spd)).
rewrite /quadform /= (mx_get_ord _ (0 : 'I_1) 0) subr0.
by rewrite (serial_quadform Y nu noise_spd).
Qed.
End Likelihood.

(* the two updates on the same offsets: serial = additive UKF *)
Section Update.
Variable n : nat.
Notation L := (nsig n).

Lemma sukf_accum_spd (Y : 'M[F]_(m, L)) (nu : 'cV[F]_m) :
  sukf_accum (O:=O) Y nu nz = (1%:M + Y^T *m invmx R *m Y, Y^T *m invmx R *m nu).
Proof. exact: sukf_accum_blocks. Qed.

(* what the serial update inverts is invertible, for any Y, nu (no reliance on invmx's totalisation) *)
Lemma sukf_Cinv_unit (Y : 'M[F]_(m, L)) (nu : 'cV[F]_m) : (sukf_accum (O:=O) Y nu nz).1 \in unitmx.
Proof. by rewrite sukf_accum_spd; exact: (serial_Ci_unit Y noise_spd). Qed.

Variable w : utw O.
Hypothesis wc0_ge0 : 0 <= wc0 w.
Hypothesis wci_ge0 : 0 <= wci w.
Variables (x : 'cV[F]_n) (P : 'M[F]_n) (Xc : 'M[F]_(n, L)) (Yc : 'M[F]_(m, L)) (nu : 'cV[F]_m).
Let X := Xc *m sqrt_wcov_diag L w.
Let Y := Yc *m sqrt_wcov_diag L w.
Let so := sukf_update (O:=O) nz x X Y nu.
Let uo := ukf_update (O:=O) (wcov_diag L w) R x P Xc Yc nu.

(* both updates in terms of the weighted offsets X, Y *)
Lemma sukf_updateE :
  so = let C := invmx (1%:M + Y^T *m invmx R *m Y) in
       @mkSukfOut O n m (x + X *m C *m (Y^T *m invmx R *m nu)) (X *m C *m X^T) nu Y.
Proof. by rewrite /so /sukf_update sukf_accum_spd. Qed.

Lemma ukf_updateE :
  uo = let S := Y *m Y^T + R in let K := X *m Y^T *m invmx S in
       @mkUkfOut O n m (x + K *m nu) (P - K *m S *m K^T) nu S.
Proof. by rewrite /uo /ukf_update /= -(weighted_cross wc0_ge0 wci_ge0 Xc) -(weighted_cross wc0_ge0 wci_ge0 Yc). Qed.

Lemma ukf_Pyy_unit : uo_Pyy uo \in unitmx.
Proof. by rewrite ukf_updateE; exact: (serial_S_unit Y noise_spd). Qed.

(* the argument of std::log in the likelihood is positive: no reliance on the totalisation of ln *)
Lemma ukf_lndet_gt0 : 0 < \det (uo_Pyy uo : 'M[F]_m).
Proof. by rewrite ukf_updateE; exact: (serial_detS_gt0 Y noise_spd). Qed.

Lemma update_mean : so_mean so = uo_mean uo.
Proof. by rewrite sukf_updateE ukf_updateE /= (serial_mean X Y nu noise_spd). Qed.

Lemma update_cov : X *m X^T = P -> so_cov so = uo_cov uo.
Proof. by move=> XP; rewrite sukf_updateE ukf_updateE /= (serial_cov X Y noise_spd) (serial_gain_cov X Y noise_spd) XP. Qed.

Lemma update_likelihood : sukf_likelihood_comp nz so = ukf_likelihood_comp uo.
Proof. by rewrite /sukf_likelihood_comp /ukf_likelihood_comp /density ukf_updateE uvr_is_direct. Qed.
End Update.

Section Comp.
Variables (n nl ml : nat).
Variables (w : utw O) (h : M O n 1 -> M O m 1) (y : M O m 1).
Hypothesis c_gt0 : 0 < utc w.
Hypothesis wciE : wci w = ((1 + 1) * utc w)^-1.
Hypothesis wc0_ge0 : 0 <= wc0 w.
Let wci_ge0 := wci_ge0_of_c c_gt0 wciE.
Let so := sukf_correct_comp_lay nl ml w h y nz.
Let uo := ukf_correct_comp_lay nl ml w h y R.

Lemma sukf_comp_cov x P : @sq n P *m (@sq n P)^T = P -> state_roundtrip nl w x P ->
  so_cov (so x P) = uo_cov (uo x P).
Proof.
move=> sqP rt; rewrite /so /uo sukf_correct_comp_layE ukf_correct_comp_layE.
by apply: update_cov => //; exact: (Xw_cov rt c_gt0 wciE sqP).
Qed.

Lemma sukf_comp_mean x P : so_mean (so x P) = uo_mean (uo x P).
Proof. by rewrite /so /uo sukf_correct_comp_layE ukf_correct_comp_layE; exact: update_mean. Qed.

Lemma sukf_comp_likelihood x P : sukf_likelihood_comp nz (so x P) = ukf_likelihood_comp (uo x P).
Proof. by rewrite /so /uo sukf_correct_comp_layE ukf_correct_comp_layE; exact: update_likelihood. Qed.

Lemma ukf_comp_Pyy_unit x P : uo_Pyy (uo x P) \in unitmx.
Proof. by rewrite /uo ukf_correct_comp_layE; exact: ukf_Pyy_unit. Qed.

Lemma ukf_comp_lndet_gt0 x P : 0 < \det (uo_Pyy (uo x P) : 'M[F]_m).
Proof. by rewrite /uo ukf_correct_comp_layE; exact: ukf_lndet_gt0. Qed.

Lemma sukf_step_is_ukf (pred corr_prev : mixture O n) :
  (forall c, List.In c (mix_comps pred) ->
     @sq n c.2 *m (@sq n c.2)^T = c.2 /\ state_roundtrip nl w c.1 c.2) ->
  (sukf_correct nl ml w h y nz pred corr_prev).1 =
    (ukf_correct nl ml w h y R pred corr_prev).1 /\
  sukf_likelihood nz (sukf_correct nl ml w h y nz pred corr_prev).2 =
    Some (List.map (@ukf_likelihood_comp O n m) (ukf_correct nl ml w h y R pred corr_prev).2).
Proof.
move=> Hc; rewrite /sukf_correct nat_modE modnMl /ukf_correct /sukf_likelihood; split.
  congr (mkMix (overwrite_prefix _ _) _); rewrite !List.map_map; apply: List.map_ext_in => c /Hc [sqP rt].
  by rewrite -/(so _ _) -/(uo _ _) (sukf_comp_cov sqP rt) sukf_comp_mean.
congr Some; rewrite !List.map_map; apply: List.map_ext_in => c _.
exact: sukf_comp_likelihood.
Qed.
End Comp.
End SpdBlocks.

(* the step sees the noise argument only through its diagonal blocks: two arguments with the
   same blocks (the reduced constructor and the full one with equal blocks, say) give the same
   step and the same likelihood; no premise on the blocks *)
Section SameBlocks.
Variables (n nl ml k s : nat).
Notation m := (k * s)%N.
Variables (w : utw O) (h : M O n 1 -> M O m 1) (y : M O m 1) (nz nz' : noise O s m) (Rb : nat -> 'M[F]_s).
Hypothesis s_gt0 : (0 < s)%N.
Hypothesis Hnz : noise_blocks nz Rb.
Hypothesis Hnz' : noise_blocks nz' Rb.

Lemma sukf_accum_same L (Y : M O m L) (nu : M O m 1) : sukf_accum Y nu nz = sukf_accum Y nu nz'.
Proof.
rewrite /sukf_accum (div_mulK _ s_gt0); apply: fold_left_rel => [a acc j /in_seq0 jk ->|//].
by rewrite /sukf_accum_step (noise_blockE Hnz jk) (noise_blockE Hnz' jk).
Qed.

Lemma lik_Rcat_same : lik_Rcat nz = lik_Rcat nz'.
Proof.
rewrite /lik_Rcat (div_mulK _ s_gt0) [in LHS](@List.map_ext_in _ _ (noise_block nz) (noise_block nz')) //.
by move=> j /in_seq0 jk; rewrite (noise_blockE Hnz) // (noise_blockE Hnz').
Qed.

Lemma sukf_correct_same pred corr_prev :
  sukf_correct nl ml w h y nz pred corr_prev = sukf_correct nl ml w h y nz' pred corr_prev.
Proof.
have E x P : sukf_correct_comp_lay nl ml w h y nz x P = sukf_correct_comp_lay nl ml w h y nz' x P.
  by rewrite !sukf_correct_comp_layE /sukf_update sukf_accum_same.
(* in LHS only: matched against the right-hand side, the map over nz' is refuted only after
   unfolding the whole step *)
by rewrite /sukf_correct [in LHS](List.map_ext _ _ (fun c => E c.1 c.2)).
Qed.

Lemma sukf_likelihood_same (mb : members O n m) : sukf_likelihood nz mb = sukf_likelihood nz' mb.
Proof. by rewrite /sukf_likelihood /sukf_likelihood_comp lik_Rcat_same. Qed.
End SameBlocks.

Lemma ut_wciE n (alpha beta kappa : F) :
  wci (@ut_weights O n alpha beta kappa) = ((1 + 1) * utc (@ut_weights O n alpha beta kappa))^-1.
Proof. by rewrite /= div1r. Qed.

End Model.
Arguments ut_wciE {F tr sq eg n alpha beta kappa}.
