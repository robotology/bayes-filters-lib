(* Properties_C06.v — property C06: the SIS recursion keeps a normalised,
   fixed-size, correctly re-weighted particle set.  The invariant and the
   lemmas about the single operations are in C06_Proofs, the history of raw
   commands in C06_CmdProofs.  All hold over the reals (instance ROps of
   the scalar interface), for every particle count N >= 1, every layout
   (dl, dc), every type St of state columns and EVERY history: a list of events
   each carrying the skip flags in force, the result of freeze_measurements(),
   the likelihood vector (None = invalid), the prediction as a function on
   (index, state) and the resampling offset u1.  The only premise on an event
   (wf_ev) is that a valid likelihood vector has one NON-NEGATIVE entry per
   particle (GaussianLikelihood: scale_factor >= 0; a negative scale makes every
   log-weight NaN for ever in the C++ and is outside the domain).  A particle is a
   pair (state column, mean/covariance blocks): the prediction replaces the states
   only, copies and resampling carry the whole particle. *)
Require Import Reals ZArith QArith List Lra Lia.
Require Import BFL.C13_Model BFL.C13_Proofs.
Require Import BFL.Ops BFL.ListOps BFL.C07_Model BFL.C07_ROps BFL.C07_Proofs BFL.C06_Model BFL.C06_Proofs.
Require Import BFL.C06_Cmd BFL.C06_CmdProofs.
Import ListNotations.
Local Open Scope R_scope.

Section C06.
Variables St Aux : Type.   (* state column; mean and covariance blocks of a particle *)
Variables (N dl dc : nat).
Hypothesis Npos : (0 < N)%nat.

(* N particles, layout (dl, dc), log-sum-exp of the log-weights zero *)
Definition set_ok (s : @sset ROps St Aux) : Prop :=
  (length (s_parts s) = N /\ length (s_lw s) = N /\ s_lin s = dl /\ s_circ s = dc) /\ lse ROps (s_lw s) = 0.

(* invariant after EVERY step of every history (sis_trace lists the states after each step) *)
Theorem C06_inv_every_step (evs : list (@event ROps St)) (st0 : @sis_state ROps St Aux) :
  step st0 = 0%nat -> set_ok (pred st0) -> Forall (wf_ev St N) evs ->
  Forall (fun st => set_ok (pred st) /\ set_ok (cor st)) (sis_trace N st0 evs).
Proof.
  intros H G Hev. apply (trace_inv St Aux N dl dc Npos); [apply init_preinv; assumption | exact Hev].
Qed.

(* the same for the final state of the fold over the event list, with the step counter *)
Theorem C06_inv (evs : list (@event ROps St)) (st0 : @sis_state ROps St Aux) :
  step st0 = 0%nat -> set_ok (pred st0) -> Forall (wf_ev St N) evs -> evs <> [] ->
  (set_ok (pred (sis_run N st0 evs)) /\ set_ok (cor (sis_run N st0 evs))) /\
  step (sis_run N st0 evs) = length evs.
Proof. exact (run_inv_statement St Aux N dl dc Npos evs st0). Qed.

(* every argument handed to ln is positive when the likelihoods are non-negative:
   lik + tiny in the re-weighting, the sum inside log_sum_exp, N in -ln N *)
Theorem C06_ln_args_positive :
  (forall l, Forall (fun x => 0 <= x) l -> Forall (fun x => 0 < x) (lik_args ROps l)) /\
  (forall l, l <> [] -> exists mx, lse ROps l = mx + ln (lse_arg l) /\ 0 < lse_arg l) /\
  (log_uniform ROps N = - ln (INR N) /\ 0 < INR N).
Proof.
  split; [exact lik_args_pos|]. split; [exact lse_unfold|]. split.
  - apply (log_uniform_R exp).
  - apply lt_0_INR, Npos.
Qed.

(* measurement available, correction not skipped, likelihood valid:
   exp lw'_i = exp lw_i (l_i + tiny) / sum_k exp lw_k (l_k + tiny)  (before the resampling test) *)
Theorem C06_reweight (st : @sis_state ROps St Aux) (ev : @event ROps St) (l : list R) :
  ev_freeze ev = true -> ev_skip_corr ev = false -> ev_lik ev = Some l ->
  length l = N -> Forall (fun x => 0 <= x) l -> length (s_lw (pred (sis_mid st ev))) = N ->
  forall i, (i < N)%nat ->
  let lwp := s_lw (pred (sis_mid st ev)) in
  exp (nth i (s_lw (cor (sis_mid st ev))) 0)
  = exp (nth i lwp 0) * (nth i l 0 + Rtiny) / sumR (map (fun p => exp (fst p) * (snd p + Rtiny)) (combine lwp l)).
Proof using Npos.   (* 0 < N belongs to the statement; reweight does not need it *)
  exact (reweight St Aux N st ev l).
Qed.

(* acquisition fails: the corrected set IS the predicted set *)
Theorem C06_no_measurement (st : @sis_state ROps St Aux) (ev : @event ROps St) :
  ev_freeze ev = false -> cor (sis_mid st ev) = pred (sis_mid st ev).
Proof. exact (no_measurement St Aux st ev). Qed.

(* resampling happens iff neff < N/3; then all weights are -ln N; otherwise the corrected set is kept *)
Theorem C06_resample_iff (st : @sis_state ROps St Aux) (ev : @event ROps St) :
  let m := sis_mid st ev in
  (needs_resampling N (cor m) = true <-> neff ROps (s_lw (cor m)) < INR N / 3) /\
  (needs_resampling N (cor m) = true ->
     cor (sis_step N st ev) = resampled (cor m) (ev_u1 ev) /\
     (wf_set St Aux N dl dc (cor m) -> s_lw (cor (sis_step N st ev)) = repeat (- ln (INR N)) N)) /\
  (needs_resampling N (cor m) = false -> cor (sis_step N st ev) = cor m) /\
  pred (sis_step N st ev) = pred m /\ step (sis_step N st ev) = Datatypes.S (step st).
Proof. exact (resample_iff St Aux N dl dc st ev). Qed.

(* the resampled set has the layout of the corrected set
   (false before /repo commit 356425a: C06_Proofs.old_resampling_loses_layout) *)
Theorem C06_resample_keeps_layout (c : @sset ROps St Aux) (u1 : R) :
  s_lin (resampled c u1) = s_lin c /\ s_circ (resampled c u1) = s_circ c.
Proof. unfold resampled. destruct (resample (s_parts c) (s_lw c) u1) as [[out w] par]. split; reflexivity. Qed.

(* the function the driver runs and prints (sis_trace_full) has sis_trace as its third components, and its
   first two are the corrected set before the resampling test and the decision taken on it *)
Theorem C06_trace_full_bridge (evs : list (@event ROps St)) (st : @sis_state ROps St Aux) :
  map snd (sis_trace_full N st evs) = sis_trace N st evs.
Proof. exact (trace_full_bridge St Aux N evs st). Qed.

(* measurement acquired but unusable (correction skipped or likelihood invalid): the corrected set is the
   predicted set, provided the predicted weights were normalised (they are, by the invariant) *)
Theorem C06_no_usable_likelihood (st : @sis_state ROps St Aux) (ev : @event ROps St) :
  ev_freeze ev = true -> (ev_skip_corr ev = true \/ ev_lik ev = None) ->
  lse ROps (s_lw (pred (sis_mid st ev))) = 0 -> cor (sis_mid st ev) = pred (sis_mid st ev).
Proof. exact (no_usable_likelihood St Aux st ev). Qed.

(* after every step no resampling is pending (neff >= N/3) ... *)
Theorem C06_settled_after_step (st : @sis_state ROps St Aux) (ev : @event ROps St) :
  wf_set St Aux N dl dc (cor (sis_mid st ev)) -> needs_resampling N (cor (sis_step N st ev)) = false.
Proof. exact (settled_after_step St Aux N dl dc Npos st ev). Qed.

(* ... hence from the second step on a failed acquisition gives cor = pred at the END of the step *)
Theorem C06_no_measurement_end_of_step (st : @sis_state ROps St Aux) (ev : @event ROps St) :
  step st <> 0%nat -> needs_resampling N (cor st) = false -> ev_freeze ev = false ->
  cor (sis_step N st ev) = pred (sis_step N st ev).
Proof. exact (no_measurement_end_of_step St Aux N st ev). Qed.

(* positivity at the ln and division sites of one step, from the invariant and a non-negative likelihood;
   in order: ln (lik + tiny), the ln inside log_sum_exp of the re-weighted set, the denominator
   1 / sum (exp lw)^2 of neff, ln N *)
Theorem C06_step_sites_positive (st : @sis_state ROps St Aux) (ev : @event ROps St) :
  PreInv St Aux N dl dc st -> wf_ev St N ev ->
  (forall l, ev_lik ev = Some l -> Forall (fun x => 0 < x) (lik_args ROps l)) /\
  (0 < lse_arg (s_lw (correct ev (pred (sis_mid st ev))))) /\
  (0 < sumR (map (fun x => exp x * exp x) (s_lw (cor (sis_mid st ev))))) /\
  0 < INR N.
Proof.
  intros HP Hev. destruct (good_mid St Aux N dl dc Npos st ev HP Hev) as [[Wp _] [[_ [Wc _]] _]].
  split; [|split; [|split]].
  - intros l Hl. unfold wf_ev in Hev. rewrite Hl in Hev. apply lik_args_pos, Hev.
  - destruct (wf_correct St Aux N dl dc ev _ Hev Wp) as [_ [W _]].
    destruct (lse_unfold _ (nonempty_of_length N Npos _ W)) as [mx [_ Hpos]]. exact Hpos.
  - apply sum_sq_pos, (nonempty_of_length N Npos _ Wc).
  - apply lt_0_INR, Npos.
Qed.

(* ------------------------------------------------------------------------------------------------
   THE COMMAND LEVEL (C06_Cmd.v): "for every history of measurements, failed measurement acquisitions
   and skip commands", literally.  A history is a list of items: IStep ce = the raw commands
   filter.skip(name, status) issued before a step (any names, any order, not necessarily matched
   pairs), then one filtering step whose skip flags and state-model branch are READ from the flag state
   the dispatch of C13_Model leaves (with or without exogenous model: have); IReset = FilteringAlgorithm::reset()
   followed by a new initialisation.  hist_mid / hist_after = the step after the history `its`, before its
   resampling test / at its end; hist_cmds = every raw command issued up to and including those of the step.
   rule_* = "status of the last command that touches the flag" evaluated on the raw commands.
   ------------------------------------------------------------------------------------------------ *)

(* invariant after every item: both sets are fine after every step; after a reset the predicted (= freshly
   initialised) set is, and so is the corrected set as soon as a step has run *)
Theorem C06_cmd_inv_every_step (have : bool) (st0 : @sis_state ROps St Aux) (its : list (@item ROps St Aux)) :
  step st0 = 0%nat -> set_ok (pred st0) -> Forall (wf_item St Aux N) its ->
  Forall2 (fun it cs' => (set_ok (pred (c_sis cs')) /\ (step (c_sis cs') <> 0%nat -> set_ok (cor (c_sis cs')))) /\
                         (is_step St Aux it = true -> set_ok (pred (c_sis cs')) /\ set_ok (cor (c_sis cs'))))
          its (cmd_trace N (hist_start have st0) its).
Proof.
  intros H0 G0 Hw. apply (cmd_trace_inv St Aux N dl dc Npos); [apply init_preinv; assumption | exact Hw].
Qed.

Theorem C06_cmd_inv_after_step (have : bool) (st0 : @sis_state ROps St Aux) (its : list (@item ROps St Aux)) (ce : @cevent ROps St) :
  step st0 = 0%nat -> set_ok (pred st0) -> Forall (wf_item St Aux N) its -> wf_cev St N ce ->
  set_ok (pred (hist_after N have st0 its ce)) /\ set_ok (cor (hist_after N have st0 its ce)).
Proof.
  intros H0 G0 Hw Hc.
  apply (step_inv St Aux N dl dc Npos); [exact (hist_preinv St Aux N dl dc Npos have st0 H0 G0 its Hw) | exact Hc].
Qed.

(* the flags a step runs under are the dispatch of ALL raw commands so far from a fresh filter, and they obey the rule *)
Theorem C06_cmd_flags_by_rule (have : bool) (st0 : @sis_state ROps St Aux) (its : list (@item ROps St Aux)) (ce : @cevent ROps St) :
  hist_flags N have st0 its ce = final (hist_cmds its ce) (init have) /\
  f_pred (hist_flags N have st0 its ce) = rule_pred_skipped have (hist_cmds its ce) /\
  f_corr (hist_flags N have st0 its ce) = rule_corr_skipped (hist_cmds its ce).
Proof. exact (conj (hist_flags_final St Aux N have st0 its ce) (hist_flags_rule St Aux N have st0 its ce)). Qed.

(* measurement available, the last command touching the correction (if any) says "off", likelihood valid:
   every weight is multiplied by that particle's likelihood (+ tiny) before normalisation *)
Theorem C06_cmd_reweight (have : bool) (st0 : @sis_state ROps St Aux) (its : list (@item ROps St Aux)) (ce : @cevent ROps St) (l : list R) :
  step st0 = 0%nat -> set_ok (pred st0) -> Forall (wf_item St Aux N) its ->
  rule_corr_skipped (hist_cmds its ce) = false -> ce_freeze ce = true -> ce_lik ce = Some l ->
  length l = N -> Forall (fun x => 0 <= x) l ->
  forall i, (i < N)%nat ->
  let lwp := s_lw (pred (hist_mid N have st0 its ce)) in
  exp (nth i (s_lw (cor (hist_mid N have st0 its ce))) 0)
  = exp (nth i lwp 0) * (nth i l 0 + Rtiny) / sumR (map (fun p => exp (fst p) * (snd p + Rtiny)) (combine lwp l)).
Proof.
  intros H0 G0 Hw Hr Hf Hl Hlen Hpos i Hi.
  assert (Hc : wf_cev St N ce) by (unfold wf_cev; rewrite Hl; split; assumption).
  destruct (hist_good_mid St Aux N dl dc Npos have st0 H0 G0 its ce Hw Hc) as [[[_ [L _]] _] _].
  destruct (hist_flags_rule St Aux N have st0 its ce) as [_ Hfc]. rewrite Hr in Hfc.
  unfold hist_mid in *. apply (reweight St Aux N); auto.
Qed.

(* acquisition fails: corrected = predicted, whatever has been commanded *)
Theorem C06_cmd_no_measurement (have : bool) (st0 : @sis_state ROps St Aux) (its : list (@item ROps St Aux)) (ce : @cevent ROps St) :
  ce_freeze ce = false -> cor (hist_mid N have st0 its ce) = pred (hist_mid N have st0 its ce).
Proof. exact (no_measurement St Aux _ (event_of _ ce)). Qed.

(* measurement acquired but the correction is commanded off, or the likelihood is invalid: corrected = predicted
   (the normalisation premise of C06_no_usable_likelihood is discharged by the invariant of the history) *)
Theorem C06_cmd_no_usable_likelihood (have : bool) (st0 : @sis_state ROps St Aux) (its : list (@item ROps St Aux)) (ce : @cevent ROps St) :
  step st0 = 0%nat -> set_ok (pred st0) -> Forall (wf_item St Aux N) its -> wf_cev St N ce -> ce_freeze ce = true ->
  (rule_corr_skipped (hist_cmds its ce) = true \/ ce_lik ce = None) ->
  cor (hist_mid N have st0 its ce) = pred (hist_mid N have st0 its ce).
Proof.
  intros H0 G0 Hw Hc Hf Hs.
  destruct (hist_good_mid St Aux N dl dc Npos have st0 H0 G0 its ce Hw Hc) as [[_ Hn] _].
  destruct (hist_flags_rule St Aux N have st0 its ce) as [_ Hfc].
  unfold hist_mid in *. apply no_usable_likelihood; auto.
  destruct Hs as [Hs|Hs]; [left; simpl; rewrite Hfc; exact Hs | right; exact Hs].
Qed.

(* the prediction, from the commands: none at step 0; the corrected set itself when the rule says "skipped"; otherwise
   weights copied, means/covariances of the output object kept, states moved by the branch of propagate the commands select
   (state + exogenous, state only, exogenous only: the two non-writing branches are never reached) *)
Theorem C06_cmd_prediction (have : bool) (st0 : @sis_state ROps St Aux) (its : list (@item ROps St Aux)) (ce : @cevent ROps St) :
  step st0 = 0%nat -> set_ok (pred st0) -> Forall (wf_item St Aux N) its ->
  let st := c_sis (hist_state N have st0 its) in
  let cmds := hist_cmds its ce in
  (step st = 0%nat -> pred (hist_mid N have st0 its ce) = pred st) /\
  (step st <> 0%nat -> rule_pred_skipped have cmds = true -> pred (hist_mid N have st0 its ce) = cor st) /\
  (step st <> 0%nat -> rule_pred_skipped have cmds = false ->
     s_lw (pred (hist_mid N have st0 its ce)) = s_lw (cor st) /\
     map fst (s_parts (pred (hist_mid N have st0 its ce))) = mapi_from (ce_motion ce (rule_mode have cmds)) 0 (map fst (s_parts (cor st))) /\
     map snd (s_parts (pred (hist_mid N have st0 its ce))) = map snd (s_parts (pred st)) /\
     s_lin (pred (hist_mid N have st0 its ce)) = s_lin (pred st) /\ s_circ (pred (hist_mid N have st0 its ce)) = s_circ (pred st) /\
     (rule_mode have cmds = MFull \/ rule_mode have cmds = MStateOnly \/ rule_mode have cmds = MExoOnly)).
Proof.
  intros H0 G0 Hw st cmds. subst cmds. destruct (hist_flags_rule St Aux N have st0 its ce) as [Hfp _].
  unfold hist_mid. rewrite pred_mid. fold st. split; [|split].
  - intros ->. reflexivity.
  - intros H Hr. apply Nat.eqb_neq in H. rewrite H. unfold C06_Model.predict. cbn [ev_skip_pred event_of].
    rewrite Hfp, Hr. reflexivity.
  - intros H Hr. pose proof (hist_preinv St Aux N dl dc Npos have st0 H0 G0 its Hw) as [[[P1 _] _] Hc].
    destruct (Hc H) as [[C1 _] _].
    destruct (predict_moved St Aux (event_of (hist_flags N have st0 its ce) ce) (cor st) (pred st)) as (A & B & C & D).
    { cbn [ev_skip_pred event_of]. rewrite Hfp. exact Hr. }
    { exact (eq_trans C1 (eq_sym P1)). }
    cbn [ev_pred event_of] in A. rewrite (hist_mode_rule St Aux N have st0 its ce Hr) in A.
    apply Nat.eqb_neq in H. rewrite H, predict_lw. repeat split; try assumption. apply rule_mode_cases.
Qed.

(* resampling runs exactly when neff < N/3 of the corrected weights, after which the weights are uniform *)
Theorem C06_cmd_resample_iff (have : bool) (st0 : @sis_state ROps St Aux) (its : list (@item ROps St Aux)) (ce : @cevent ROps St) :
  let m := hist_mid N have st0 its ce in
  (needs_resampling N (cor m) = true <-> neff ROps (s_lw (cor m)) < INR N / 3) /\
  (needs_resampling N (cor m) = true ->
     cor (hist_after N have st0 its ce) = resampled (cor m) (ce_u1 ce) /\
     (wf_set St Aux N dl dc (cor m) -> s_lw (cor (hist_after N have st0 its ce)) = repeat (- ln (INR N)) N)) /\
  (needs_resampling N (cor m) = false -> cor (hist_after N have st0 its ce) = cor m) /\
  pred (hist_after N have st0 its ce) = pred m /\
  step (hist_after N have st0 its ce) = Datatypes.S (step (c_sis (hist_state N have st0 its))).
Proof. exact (resample_iff St Aux N dl dc _ (event_of _ ce)). Qed.

Theorem C06_cmd_resampled_uniform (have : bool) (st0 : @sis_state ROps St Aux) (its : list (@item ROps St Aux)) (ce : @cevent ROps St) :
  step st0 = 0%nat -> set_ok (pred st0) -> Forall (wf_item St Aux N) its -> wf_cev St N ce ->
  needs_resampling N (cor (hist_mid N have st0 its ce)) = true ->
  s_lw (cor (hist_after N have st0 its ce)) = repeat (- ln (INR N)) N.
Proof.
  intros H0 G0 Hw Hc H. destruct (C06_cmd_resample_iff have st0 its ce) as [_ [R _]].
  apply (R H), (hist_good_mid St Aux N dl dc Npos have st0 H0 G0 its ce Hw Hc).
Qed.

(* from the second step of a pass on (not right after a reset), a failed acquisition leaves corrected = predicted at the END of the step:
   no resampling is pending after any step of any history *)
Theorem C06_cmd_no_measurement_end_of_step (have : bool) (st0 : @sis_state ROps St Aux) (its : list (@item ROps St Aux)) (ce : @cevent ROps St) :
  step st0 = 0%nat -> set_ok (pred st0) -> Forall (wf_item St Aux N) its ->
  step (c_sis (hist_state N have st0 its)) <> 0%nat -> ce_freeze ce = false ->
  cor (hist_after N have st0 its ce) = pred (hist_after N have st0 its ce).
Proof.
  intros H0 G0 Hw Hs Hf. unfold hist_after. rewrite cmd_step_sis.
  apply (no_measurement_end_of_step St Aux N);
    [exact Hs | exact (hist_settled St Aux N dl dc Npos have st0 H0 G0 its Hw Hs) | exact Hf].
Qed.

(* un-matched pairs: after skip("all", false) a step runs exactly as on a filter that never received a command,
   whatever was commanded before (skip(correction, on) ... skip(all, off) leaves nothing skipped) *)
Theorem C06_cmd_all_off_nothing_skipped (have : bool) (cs : list cmd) (ce : @cevent ROps St) :
  event_of (final (cs ++ [(NAll, false)]) (init have)) ce = event_of (init have) ce /\
  ev_skip_pred (event_of (init have) ce) = false /\ ev_skip_corr (event_of (init have) ce) = false /\
  ev_pred (event_of (init have) ce) = ce_motion ce (if have then MFull else MStateOnly).
Proof. rewrite back_to_init_after_all_off. destruct have; repeat split. Qed.

(* the function the driver runs and prints (cmd_trace_full): its second components are cmd_trace, and its k-th report
   is that of the k-th item on the state the items before it lead to *)
Theorem C06_cmd_trace_full_bridge (its : list (@item ROps St Aux)) (cs : @cstate ROps St Aux) :
  map snd (cmd_trace_full N cs its) = cmd_trace N cs its /\
  forall k r cs', nth_error (cmd_trace_full N cs its) k = Some (r, cs') ->
    exists it, nth_error its k = Some it /\
               r = step_report N (cmd_run N cs (firstn k its)) it /\ cs' = item_step N (cmd_run N cs (firstn k its)) it.
Proof.
  split; revert cs.
  - induction its as [|it its IH]; intro cs; simpl; [reflexivity | f_equal; apply IH].
  - induction its as [|it its IH]; intros cs [|k] r cs' H; simpl in H; try discriminate H.
    + injection H as <- <-. exists it. repeat split.
    + exact (IH _ k r cs' H).
Qed.

End C06.

(* the hypotheses are satisfiable, and the executable model on exact rationals: N = 3, one linear +
   one circular component, QOps has sexp = sln = identity so only the structure is exercised:
   a failed acquisition copies the predicted set, the layout survives, the step counter advances *)
Example C06_initial_state_exists :
  let s := @mkSset ROps nat nat 1 1 [(7, 0); (8, 1); (9, 2)]%nat [- ln 3; - ln 3; - ln 3] in
  set_ok nat nat 3 1 1 s.
Proof.
  cbv zeta. unfold set_ok. cbn [s_parts s_lw s_lin s_circ length]. repeat split; auto.
  rewrite (lse_spec [- ln 3; - ln 3; - ln 3]) by congruence. simpl. rewrite exp_Ropp, exp_ln by lra.
  replace (/ 3 + (/ 3 + (/ 3 + 0))) with 1 by lra. apply ln_1.
Qed.

Example C06_concrete_Q :
  let s := @mkSset QOps nat nat 1 1 [(7, 0); (8, 1); (9, 2)]%nat [1#3; 1#3; 1#3]%Q in
  let ev := @mkEvent QOps nat false false false None (fun i x => (x + i)%nat) (1#10)%Q in
  let st := sis_step 3 (sis_step 3 (@mkSis QOps nat nat 0 s s) ev) ev in
  (step st, s_lin (cor st), s_circ (cor st), s_parts (pred st)) = (2%nat, 1%nat, 1%nat, [(7, 0); (9, 1); (11, 2)]%nat).
Proof. vm_compute. reflexivity. Qed.

(* command level on exact rationals: skip(correction, on) before step 0, skip(all, off) before step 1: the flags
   are those of a fresh filter again, every command was answered true, an unknown name is answered false *)
Example C06_cmd_concrete_Q :
  let s := @mkSset QOps nat nat 1 1 [(7, 0); (8, 1); (9, 2)]%nat [1#3; 1#3; 1#3]%Q in
  let ce c := @mkCEvent QOps nat c false None (fun _ i x => (x + i)%nat) (1#10)%Q in
  let tr := cmd_trace_full 3 (hist_start true (@mkSis QOps nat nat 0 s s))
              [IStep (ce [(NCorrection, true); (NState, true)]); IStep (ce [(NAll, false); (NOther, true)])] in
  (map (fun x => c_flags (snd x)) tr, map (fun x => option_map (fun r => fst (fst r)) (fst x)) tr)
  = ([mkFlags false false true (Some false) true; init true], [Some [Ok true; Ok true]; Some [Ok true; Ok false]]).
Proof. vm_compute. reflexivity. Qed.

Print Assumptions C06_inv_every_step.
Print Assumptions C06_inv.
Print Assumptions C06_ln_args_positive.
Print Assumptions C06_reweight.
Print Assumptions C06_no_measurement.
Print Assumptions C06_resample_iff.
Print Assumptions C06_resample_keeps_layout.
Print Assumptions C06_trace_full_bridge.
Print Assumptions C06_no_usable_likelihood.
Print Assumptions C06_settled_after_step.
Print Assumptions C06_no_measurement_end_of_step.
Print Assumptions C06_step_sites_positive.
Print Assumptions C06_cmd_inv_every_step.
Print Assumptions C06_cmd_inv_after_step.
Print Assumptions C06_cmd_flags_by_rule.
Print Assumptions C06_cmd_reweight.
Print Assumptions C06_cmd_no_measurement.
Print Assumptions C06_cmd_no_usable_likelihood.
Print Assumptions C06_cmd_prediction.
Print Assumptions C06_cmd_resample_iff.
Print Assumptions C06_cmd_resampled_uniform.
Print Assumptions C06_cmd_no_measurement_end_of_step.
Print Assumptions C06_cmd_all_off_nothing_skipped.
Print Assumptions C06_cmd_trace_full_bridge.
