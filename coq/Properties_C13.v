(* Properties_C13.v — property C13: skip commands are safe, reversible and turn
   the skipped step into the identity.  The closed form of one command, the flags
   after a word and the invariant behind them are in C13_Proofs, the moves of the
   step objects in C13_LifeProofs.  The theorems hold for ALL command words (lists of
   name x on/off), with and without an exogenous model, for the four step
   configurations (KF, UKF, bootstrap, Gaussian-particle), for arbitrary step
   bodies pstep / cstep and arbitrary beliefs. *)
Require Import List Bool.
Require Import BFL.Ops BFL.C02_Model BFL.C13_Model BFL.C13_Proofs BFL.C13_Link BFL.C13_Life BFL.C13_LifeProofs.
Import ListNotations.
Local Open Scope bool_scope.

(* 'prediction', 'state', 'correction', 'all' return true and do not throw,
   from ANY flag state, with or without exogenous model *)
Theorem C13_known_names_true_nothrow (w : name) (b : bool) (f : flags) :
  known w = true -> fst (filter_skip w b f) = Ok true.
Proof. exact (known_true_nothrow w b f). Qed.

(* no command word ever throws *)
Theorem C13_never_throws (cs : list cmd) (f : flags) : ~ In Throws (fst (run cs f)).
Proof. exact (run_never_throws cs f). Qed.

(* ... and that rests on each of the three tests of have_exogenous_model() placed in front of the partial
   accessor exogenous_model() (StateModel.cpp:20, Prediction::skip "state" and "exogenous" branches):
   the same dispatch definitions with any one of them removed throw on a filter without exogenous model *)
Theorem C13_each_guard_is_needed :
  fst (filter_skip_g (mkGuards false true true) NPrediction true (init false)) = Throws /\
  fst (filter_skip_g (mkGuards true false true) NState true (init false)) = Throws /\
  fst (filter_skip_g (mkGuards true true false) NExogenous true (init false)) = Throws.
Proof. repeat split. Qed.

(* every answer to a word made of the four known names is true *)
Theorem C13_known_word_all_true (cs : list cmd) (f : flags) :
  forallb (fun c => known (fst c)) cs = true -> Forall (fun r => r = Ok true) (fst (run cs f)).
Proof. exact (run_known_all_true cs f). Qed.

(* 'exogenous' returns true when such a model exists ... *)
Theorem C13_exogenous_with_model_true (b : bool) (f : flags) (e : bool) :
  f_exo f = Some e -> fst (filter_skip NExogenous b f) = Ok true.
Proof. intros H; rewrite filter_skip_after; simpl; rewrite H; reflexivity. Qed.

(* ... and false, changing nothing, when it does not *)
Theorem C13_exogenous_without_model_false_unchanged (b : bool) (f : flags) :
  f_exo f = None -> filter_skip NExogenous b f = (Ok false, f).
Proof. intros H; rewrite filter_skip_after; simpl; rewrite H; reflexivity. Qed.

(* on every filter configuration with an exogenous model, however it was supplied (add_exogenous_model or
   the DrawParticles(state_model, exogenous_model) constructor), at any point of any command word:
   no command attaches or detaches the model *)
Theorem C13_exogenous_supplied_true (a : assembly) (b : bool) (cs : list cmd) :
  exo_supplied a = true -> fst (filter_skip NExogenous b (snd (run cs (init_of a)))) = Ok true.
Proof.
intros Ha.
assert (Hh : have_exo (init_of a) = true) by (destruct a as [[|]|]; [reflexivity|discriminate Ha|reflexivity]).
destruct (run_keeps_exo cs (init_of a) Hh) as [e He]; exact (C13_exogenous_with_model_true b _ e He).
Qed.

(* in particular when the model was attached with StateModel::add_exogenous_model *)
Theorem C13_exogenous_true_after_any_word (b : bool) (cs : list cmd) :
  fst (filter_skip NExogenous b (snd (run cs (init_of (ViaStateModel true))))) = Ok true.
Proof. exact (C13_exogenous_supplied_true (ViaStateModel true) b cs eq_refl). Qed.

(* an unknown name returns false and changes nothing *)
Theorem C13_unknown_false_unchanged (b : bool) (f : flags) : filter_skip NOther b f = (Ok false, f).
Proof. reflexivity. Qed.

(* the derived rule the code implements, from a freshly constructed filter:
   state flag   = status of the last command among prediction/state/all,
   exo flag     = status of the last command among prediction/exogenous/all (if there is such a model),
   correction   = status of the last command among correction/all,
   prediction's is_skipping() = state flag && (exo flag, or true without exogenous model),
   the Gaussian prediction wrapped by a Gaussian-particle prediction is never touched *)
Theorem C13_flags_match_commands (have : bool) (cs : list cmd) :
  let f := final cs (init have) in
  f_state f = last_status state_names false cs /\
  f_exo f = (if have then Some (last_status exo_names false cs) else None) /\
  f_corr f = last_status corr_names false cs /\
  f_pred f = f_state f && exo_or_true f /\
  f_inner f = false.
Proof. exact (flags_match_commands have cs). Qed.

Theorem C13_prediction_reported (have : bool) (cs : list cmd) :
  f_pred (final cs (init have)) =
  last_status state_names false cs && (if have then last_status exo_names false cs else true).
Proof. exact (pred_reported have cs). Qed.

Section Steps.
Variable B : Type.
Variable pstep : kind -> prop_mode -> B -> B -> B.
Variable cstep : kind -> B -> B -> B.
Variable same_shape : B -> B -> bool.      (* has the output object handed in the shape of the input *)
Variable gpf_sliced : B -> B -> B.         (* what GPFPrediction's sliced assignment leaves when it has not *)

(* a skipped step returns its input (the whole object), for every configuration *)
Theorem C13_skipped_prediction_is_identity (k : kind) (f : flags) (prev old : B) :
  f_pred f = true -> predict B pstep same_shape gpf_sliced k f prev old = prev.
Proof. exact (predict_skipped B pstep same_shape gpf_sliced k f prev old). Qed.

Theorem C13_skipped_correction_is_identity (k : kind) (f : flags) (pred old : B) :
  f_corr f = true -> correct B cstep k f pred old = pred.
Proof. exact (correct_skipped B cstep k f pred old). Qed.

(* after 'prediction on' / 'all on' (resp. 'correction on' / 'all on'), whatever came before *)
Theorem C13_identity_after_prediction_on (have : bool) (cs : list cmd) (w : name) (k : kind) (prev old : B) :
  w = NPrediction \/ w = NAll ->
  predict B pstep same_shape gpf_sliced k (final (cs ++ [(w, true)]) (init have)) prev old = prev.
Proof.
intros Hw; apply predict_skipped; rewrite final_app, final_one.
destruct Hw as [-> | ->]; reflexivity.
Qed.

Theorem C13_identity_after_correction_on (have : bool) (cs : list cmd) (w : name) (k : kind) (pred old : B) :
  w = NCorrection \/ w = NAll ->
  correct B cstep k (final (cs ++ [(w, true)]) (init have)) pred old = pred.
Proof.
intros Hw; apply correct_skipped; rewrite final_app, final_one.
destruct Hw as [-> | ->]; reflexivity.
Qed.

(* whenever the derived rule says "skipping" *)
Theorem C13_identity_by_rule (have : bool) (cs : list cmd) (k : kind) (prev old : B) :
  last_status state_names false cs && (if have then last_status exo_names false cs else true) = true ->
  predict B pstep same_shape gpf_sliced k (final cs (init have)) prev old = prev.
Proof. exact (predict_identity_by_rule B pstep same_shape gpf_sliced have cs k prev old). Qed.

Theorem C13_correction_identity_by_rule (have : bool) (cs : list cmd) (k : kind) (pred old : B) :
  last_status corr_names false cs = true ->
  correct B cstep k (final cs (init have)) pred old = pred.
Proof. exact (correct_identity_by_rule B cstep have cs k pred old). Qed.

(* KF and UKF steps are the identity as soon as the state model is skipped, even while is_skipping()
   is false (predictStep's own test; whole-object assignment: any shape of the output object) *)
Theorem C13_state_skipped_gaussian_identity (k : kind) (f : flags) (prev old : B) :
  k = KF \/ k = UKF -> f_state f = true -> predict B pstep same_shape gpf_sliced k f prev old = prev.
Proof.
unfold predict, predict_step; intros Hk ->; destruct (f_pred f); simpl; [reflexivity|].
destruct Hk as [-> | ->]; reflexivity.
Qed.

(* PARTIAL for the Gaussian-particle prediction: identity only under the premise that the output
   object has the input's shape (GPFPrediction's sliced assignment; what is missing is the case of
   another shape, where the code leaves an inconsistent object -- next theorem).  Not needed by the
   property: there the prediction is not "skipped" (is_skipping() is false). *)
Theorem C13_state_skipped_gpf_identity_partial (f : flags) (prev old : B) :
  f_state f = true -> same_shape prev old = true -> predict B pstep same_shape gpf_sliced GPF f prev old = prev.
Proof.
unfold predict, predict_step, gpf_inner_identity; intros -> ->.
destruct (f_pred f); simpl; [reflexivity|]; destruct (f_inner f); reflexivity.
Qed.

Theorem C13_state_skipped_gpf_other_shape (f : flags) (prev old : B) :
  f_pred f = false -> f_state f = true -> same_shape prev old = false ->
  predict B pstep same_shape gpf_sliced GPF f prev old = gpf_sliced prev old.
Proof.
unfold predict, predict_step, gpf_inner_identity; intros -> -> ->; simpl.
destruct (f_inner f); reflexivity.
Qed.

(* per-step reversibility: with the state part (and the exogenous part, if any) switched off again
   the prediction is that of a never-skipped filter WHATEVER the correction's flag is, and dually *)
Theorem C13_prediction_restored (have : bool) (cs : list cmd) (k : kind) :
  last_status state_names false cs = false ->
  (have = true -> last_status exo_names false cs = false) ->
  forall prev old,
    predict B pstep same_shape gpf_sliced k (final cs (init have)) prev old =
    predict B pstep same_shape gpf_sliced k (init have) prev old.
Proof.
intros Hs He prev old; rewrite final_by_rule, Hs.
destruct have; [rewrite (He eq_refl)|]; reflexivity.
Qed.

Theorem C13_correction_restored (have : bool) (cs : list cmd) (k : kind) :
  last_status corr_names false cs = false ->
  forall pred old, correct B cstep k (final cs (init have)) pred old = correct B cstep k (init have) pred old.
Proof.
intros Hc pred old; rewrite final_by_rule; unfold correct; simpl; rewrite Hc; reflexivity.
Qed.

(* reversibility: once everything is off again the flags are those of a fresh
   filter, hence both step functions are (extensionally) those of a never-skipped filter *)
Theorem C13_reversible (have : bool) (cs : list cmd) (k : kind) :
  all_off (final cs (init have)) ->
  (forall prev old, predict B pstep same_shape gpf_sliced k (final cs (init have)) prev old = predict B pstep same_shape gpf_sliced k (init have) prev old) /\
  (forall pred old, correct B cstep k (final cs (init have)) pred old = correct B cstep k (init have) pred old).
Proof. exact (reversible B pstep cstep same_shape gpf_sliced have cs k). Qed.

Theorem C13_all_off_restores_fresh_state (have : bool) (cs : list cmd) :
  final (cs ++ [(NAll, false)]) (init have) = init have.
Proof. exact (back_to_init_after_all_off have cs). Qed.

Theorem C13_both_off_restores_fresh_state (have : bool) (cs : list cmd) :
  final (cs ++ [(NPrediction, false); (NCorrection, false)]) (init have) = init have.
Proof.
rewrite final_by_rule, !last_status_app; destruct have; reflexivity.
Qed.

Theorem C13_reversible_all_off (have : bool) (cs : list cmd) (k : kind) :
  (forall prev old, predict B pstep same_shape gpf_sliced k (final (cs ++ [(NAll, false)]) (init have)) prev old =
                    pstep k (if have then MFull else MStateOnly) prev old) /\
  (forall pred old, correct B cstep k (final (cs ++ [(NAll, false)]) (init have)) pred old = cstep k pred old).
Proof.
rewrite back_to_init_after_all_off; split; intros; [apply never_skipped_predict|reflexivity].
Qed.

(* the only computations a filter driven by skip commands can perform in its
   prediction: identity, full step, state model alone, (bootstrap only) exogenous part alone, and
   (Gaussian particle filter only, output object of another shape) the sliced assignment;
   the branch of LinearStateModel::propagate that writes nothing is never reached *)
Theorem C13_reachable_predictions (have : bool) (cs : list cmd) (k : kind) (prev old : B) :
  let f := final cs (init have) in
  predict B pstep same_shape gpf_sliced k f prev old = prev \/
  predict B pstep same_shape gpf_sliced k f prev old = pstep k MFull prev old \/
  predict B pstep same_shape gpf_sliced k f prev old = pstep k MStateOnly prev old \/
  (k = Boot /\ predict B pstep same_shape gpf_sliced k f prev old = pstep k MExoOnly prev old) \/
  (k = GPF /\ same_shape prev old = false /\ predict B pstep same_shape gpf_sliced k f prev old = gpf_sliced prev old).
Proof.
cbv zeta; set (f := final cs (init have)).
destruct (flags_match_commands have cs) as (_ & _ & _ & Hp & Hn); fold f in Hp, Hn.
pose proof (prop_mode_unskipped f Hp) as Hm.
unfold predict; destruct (f_pred f); [left; reflexivity|].
unfold predict_step; rewrite Hn, (Hm eq_refl); simpl negb; cbv iota.
destruct (f_state f).
- (* the state model is skipped: the Gaussian steps test that themselves, the bootstrap step runs the
     exogenous part alone, the Gaussian-particle step does its sliced assignment *)
  destruct k; [left; reflexivity | left; reflexivity | do 3 right; left; split; reflexivity |].
  unfold gpf_inner_identity; destruct (same_shape prev old); [left; reflexivity|].
  do 4 right; repeat split; reflexivity.
- destruct (exo_or_true f); [do 2 right; left | right; left]; destruct k; reflexivity.
Qed.
End Steps.

(* The measurement path.
   freeze_measurements is not gated by the skip flag: every call advances the measurement source,
   also while the correction is skipped *)
Theorem C13_freeze_not_gated (st : mstate) :
  ms_cursor (next OpFreeze st) = S (ms_cursor st) /\ ms_flags (next OpFreeze st) = ms_flags st.
Proof. split; reflexivity. Qed.

(* after ANY word of operations (skip commands, freeze, predict, correct) the cursor of the measurement
   source is the number of freeze calls, and the flags are those after the skip commands alone *)
Theorem C13_measurement_cursor (ops : list op) (st : mstate) :
  ms_cursor (final_m ops st) = ms_cursor st + freezes_of ops /\
  ms_flags (final_m ops st) = final (skips_of ops) (ms_flags st).
Proof. rewrite final_m_eq; split; reflexivity. Qed.

(* reversibility extended to the measurement state: once everything is switched off again the whole
   machine state (flags AND measurement cursor) equals that of a never-skipped twin that received the
   same freeze / predict / correct calls *)
Theorem C13_reversible_with_measurements (have : bool) (ops : list op) :
  all_off (final (skips_of ops) (init have)) ->
  final_m ops (m_init have) = final_m (calls_of ops) (m_init have).
Proof.
intros H; rewrite !final_m_eq, skips_of_calls, freezes_of_calls.
change (ms_flags (m_init have)) with (init have); rewrite (all_off_is_init have _ H); reflexivity.
Qed.

(* per step: with the correction switched off again, correct() uses the measurement frozen by the LAST
   freeze call (those issued during the skip included) -- exactly what the twin computes *)
Theorem C13_correction_restored_with_measurements (B : Type) (cstepm : kind -> nat -> B -> B -> B)
  (have : bool) (ops : list op) (k : kind) :
  last_status corr_names false (skips_of ops) = false ->
  forall pred old,
    correct_m B cstepm k (final_m ops (m_init have)) pred old = cstepm k (freezes_of ops) pred old /\
    correct_m B cstepm k (final_m ops (m_init have)) pred old =
    correct_m B cstepm k (final_m (calls_of ops) (m_init have)) pred old.
Proof.
intros Hc pred old; rewrite !final_m_eq, skips_of_calls, freezes_of_calls.
change (ms_flags (m_init have)) with (init have); rewrite final_by_rule.
unfold correct_m, correct; simpl; rewrite Hc; split; [reflexivity | destruct have; reflexivity].
Qed.

(* the propagate modes of this model are the branches of C02's model of
   LinearStateModel::propagate (for every arithmetic instance): MFull is F x + u, MStateOnly is F x, ... *)
Theorem C13_modes_are_linear_propagate (O : MatOps) (n k : nat) (F : M O n n) (exo : option (M O n k -> M O n k))
  (p i ss se c : bool) (cur old : M O n k) :
  lin_propagate F exo ss se cur old = interp_mode O F exo (prop_mode_of (flags_of exo p i ss se c)) cur old.
Proof. destruct exo as [u|]; destruct ss; destruct se; reflexivity. Qed.

(* Object lifetimes: however the step objects were obtained (C13_Life).
   LMove replaces the prediction and correction step objects by the objects moved from them (move construction or
   move assignment).  The move as the code performs it (base-class subobject taken from the source, models moved as
   pointers) keeps every flag: *)
Theorem C13_move_keeps_every_flag (st : mstate) : lnext LMove st = st /\ move_flags (ms_flags st) = ms_flags st.
Proof. exact (conj (lnext_move st) (move_flags_id (ms_flags st))). Qed.

(* ... and only a move that takes both base-class subobjects from the source does *)
Theorem C13_move_identity_iff (M : movers) : (forall f, move_flags_g M f = f) <-> M = movers_now.
Proof.
split.
- intros H; destruct M as [p c].
  generalize (H (mkFlags true false false None true)); unfold move_flags_g; simpl.
  destruct p, c; intros E; try discriminate E; reflexivity.
- intros ->; exact move_flags_id.
Qed.

(* any number of moves at any positions of any word of operations, from any state: every observation that is not
   a move (answers of the skip commands and the skipping state reported after them, outcome of every predict / correct,
   freezes) and the final state are those of the word without the moves *)
Theorem C13_moves_unobservable (k : kind) (ops : list lop) (st : mstate) :
  kept (run_lops k ops st) = run_ops k (erase ops) st /\ lfinal ops st = final_m (erase ops) st.
Proof. exact (conj (kept_run_lops k ops st) (lfinal_erase ops st)). Qed.

(* one more move inserted at any position of any word (which may contain moves already) *)
Theorem C13_move_at_any_position (k : kind) (n : nat) (ops : list lop) (st : mstate) :
  kept (run_lops k (insert_move n ops) st) = kept (run_lops k ops st) /\
  lfinal (insert_move n ops) st = lfinal ops st.
Proof. rewrite !kept_run_lops, !lfinal_erase, erase_insert_move; split; reflexivity. Qed.

(* the skipping state reported by the objects obtained by a move matches the commands given so far *)
Theorem C13_moved_objects_report_commands (k : kind) (have : bool) (a b : list lop) :
  exists f, run_lops k (a ++ LMove :: b) (m_init have) =
            run_lops k a (m_init have) ++ LMoved f :: run_lops k b (lfinal a (m_init have)) /\
  let cs := skips_of (erase a) in
  f_state f = last_status state_names false cs /\
  f_exo f = (if have then Some (last_status exo_names false cs) else None) /\
  f_corr f = last_status corr_names false cs /\
  f_pred f = last_status state_names false cs && (if have then last_status exo_names false cs else true) /\
  f_inner f = false.
Proof.
exists (ms_flags (final_m (erase a) (m_init have))); split.
- rewrite run_lops_move, lfinal_erase; reflexivity.
- rewrite final_m_eq; simpl ms_flags; rewrite final_by_rule; repeat split.
Qed.

(* the identity clause on objects obtained through moves *)
Theorem C13_identity_with_moves (B : Type) (pstep : kind -> prop_mode -> B -> B -> B) (cstep : kind -> B -> B -> B)
  (same_shape : B -> B -> bool) (gpf_sliced : B -> B -> B) (have : bool) (ops : list lop) (k : kind) (x old : B) :
  let cs := skips_of (erase ops) in
  (last_status state_names false cs && (if have then last_status exo_names false cs else true) = true ->
   predict B pstep same_shape gpf_sliced k (ms_flags (lfinal ops (m_init have))) x old = x) /\
  (last_status corr_names false cs = true ->
   correct B cstep k (ms_flags (lfinal ops (m_init have))) x old = x).
Proof.
intros cs; rewrite lfinal_flags; split; intros H;
  [apply predict_identity_by_rule | apply correct_identity_by_rule]; exact H.
Qed.

(* restoring: the step functions of the moved objects are those of objects never moved (hence, with
   C13_reversible / C13_prediction_restored / C13_correction_restored, of a never-skipped filter once switched off) *)
Theorem C13_steps_with_moves (B : Type) (pstep : kind -> prop_mode -> B -> B -> B) (cstep : kind -> B -> B -> B)
  (same_shape : B -> B -> bool) (gpf_sliced : B -> B -> B) (ops : list lop) (st : mstate) (k : kind) :
  (forall prev old, predict B pstep same_shape gpf_sliced k (ms_flags (lfinal ops st)) prev old =
                    predict B pstep same_shape gpf_sliced k (ms_flags (final_m (erase ops) st)) prev old) /\
  (forall x old, correct B cstep k (ms_flags (lfinal ops st)) x old =
                 correct B cstep k (ms_flags (final_m (erase ops) st)) x old).
Proof. rewrite lfinal_erase; split; reflexivity. Qed.

(* the correction move constructors as they were before "fix: KF, UKF and SUKF correction move constructors carry the
   skip state of the base class" (instance movers_before of the same definitions): correction on; move; correct runs the
   correction *)
Theorem C13_move_before_fix_refuted :
  exists (ops : list lop) (k : kind) (have : bool),
    last_status corr_names false (skips_of (erase ops)) = true /\
    run_lops_g movers_before k (ops ++ [LOp (OpCorrect false)]) (m_init have) =
      [LObs (ObsSkip (Ok true) (mkFlags false false false None true)); LMoved (init false); LObs (ObsStep (OCorrected KF 0))] /\
    run_lops k (ops ++ [LOp (OpCorrect false)]) (m_init have) =
      [LObs (ObsSkip (Ok true) (mkFlags false false false None true)); LMoved (mkFlags false false false None true); LObs (ObsStep OInput)].
Proof. exact old_move_refuted. Qed.

Example C13_word_with_moves :
  run_lops GPF [LMove; LOp (OpSkip NAll true); LOp OpFreeze; LMove; LOp (OpPredict true); LOp (OpCorrect false);
                LOp (OpSkip NCorrection false); LMove; LOp (OpCorrect false)] (m_init true)
  = [LMoved (init true); LObs (ObsSkip (Ok true) (mkFlags true false true (Some true) true)); LObs (ObsFreeze 1);
     LMoved (mkFlags true false true (Some true) true); LObs (ObsStep OInput); LObs (ObsStep OInput);
     LObs (ObsSkip (Ok true) (mkFlags true false true (Some true) false)); LMoved (mkFlags true false true (Some true) false);
     LObs (ObsStep (OCorrected GPF 1))].
Proof. reflexivity. Qed.

(* non-vacuity: concrete words, by computation on the very functions that are extracted *)
Example C13_word_without_exo :
  run [(NPrediction, true); (NExogenous, true); (NOther, true); (NState, false); (NAll, false)] (init false)
  = ([Ok true; Ok false; Ok false; Ok true; Ok true], init false).
Proof. reflexivity. Qed.

Example C13_word_with_exo :
  let f := final [(NState, true); (NCorrection, true)] (init true) in
  f_pred f = false /\ f_state f = true /\ f_exo f = Some false /\ f_corr f = true /\
  obs_predict KF f true = OInput /\ obs_predict Boot f false = ORan Boot MExoOnly /\ obs_correct UKF (mkM f 3) true = OInput /\
  obs_predict GPF f false = OInput /\ obs_predict GPF f true = OSliced /\
  all_off (final [(NState, true); (NCorrection, true); (NPrediction, false); (NCorrection, false)] (init true)).
Proof. repeat split. Qed.

(* skip on; freeze; skip off; correct: the correction uses the measurement frozen DURING the skip *)
Example C13_freeze_during_skip :
  run_ops KF [OpFreeze; OpSkip NCorrection true; OpFreeze; OpCorrect false; OpSkip NCorrection false; OpCorrect false] (m_init false)
  = [ObsFreeze 1; ObsSkip (Ok true) (mkFlags false false false None true); ObsFreeze 2; ObsStep OInput;
     ObsSkip (Ok true) (init false); ObsStep (OCorrected KF 2)].
Proof. reflexivity. Qed.

(* 'prediction on; state off' with an exogenous model leaves the exogenous part
   skipped: is_skipping() is false, the step is the state model alone *)
Example C13_prediction_on_state_off :
  let f := final [(NPrediction, true); (NState, false)] (init true) in
  f_pred f = false /\ f_exo f = Some true /\ obs_predict KF f false = ORan KF MStateOnly /\ ~ all_off f.
Proof. repeat split; intros (_ & _ & H & _); discriminate H. Qed.

Print Assumptions C13_known_names_true_nothrow.
Print Assumptions C13_never_throws.
Print Assumptions C13_each_guard_is_needed.
Print Assumptions C13_known_word_all_true.
Print Assumptions C13_exogenous_with_model_true.
Print Assumptions C13_exogenous_without_model_false_unchanged.
Print Assumptions C13_exogenous_supplied_true.
Print Assumptions C13_exogenous_true_after_any_word.
Print Assumptions C13_unknown_false_unchanged.
Print Assumptions C13_flags_match_commands.
Print Assumptions C13_prediction_reported.
Print Assumptions C13_skipped_prediction_is_identity.
Print Assumptions C13_skipped_correction_is_identity.
Print Assumptions C13_identity_after_prediction_on.
Print Assumptions C13_identity_after_correction_on.
Print Assumptions C13_identity_by_rule.
Print Assumptions C13_correction_identity_by_rule.
Print Assumptions C13_state_skipped_gaussian_identity.
Print Assumptions C13_state_skipped_gpf_identity_partial.
Print Assumptions C13_state_skipped_gpf_other_shape.
Print Assumptions C13_prediction_restored.
Print Assumptions C13_correction_restored.
Print Assumptions C13_reversible.
Print Assumptions C13_all_off_restores_fresh_state.
Print Assumptions C13_both_off_restores_fresh_state.
Print Assumptions C13_reversible_all_off.
Print Assumptions C13_reachable_predictions.
Print Assumptions C13_freeze_not_gated.
Print Assumptions C13_measurement_cursor.
Print Assumptions C13_reversible_with_measurements.
Print Assumptions C13_correction_restored_with_measurements.
Print Assumptions C13_modes_are_linear_propagate.
Print Assumptions C13_move_keeps_every_flag.
Print Assumptions C13_move_identity_iff.
Print Assumptions C13_moves_unobservable.
Print Assumptions C13_move_at_any_position.
Print Assumptions C13_moved_objects_report_commands.
Print Assumptions C13_identity_with_moves.
Print Assumptions C13_steps_with_moves.
Print Assumptions C13_move_before_fix_refuted.
