(* C16_ProofsSM.v — the constructor checks and the two serving state machines
   (SimulatedStateModel, SimulatedLinearSensor) of C16_Model, for every
   arithmetic instance: these proofs never look at the matrix operations. *)
Require Import ZArith List Bool Lia.
Require Import BFL.Ops BFL.C16_Model.
Import ListNotations.

Lemma skipn_skipn_add (A : Type) a b (l : list A) : skipn a (skipn b l) = skipn (b + a) l.
Proof.
revert l; induction b as [|b IH]; intros [|x l]; simpl; auto. now rewrite skipn_nil.
Qed.

Lemma is_empty_true r c : is_empty r c = true -> r = 0 \/ c = 0.
Proof.
unfold is_empty; intros E; apply orb_prop in E.
destruct E as [E|E]; apply Nat.eqb_eq in E; auto.
Qed.

Lemma is_empty_false r c : is_empty r c = false -> 0 < r /\ 0 < c.
Proof.
unfold is_empty; intros E; apply orb_false_elim in E.
destruct E as [Er Ec]; apply Nat.eqb_neq in Er, Ec; split; apply Nat.neq_0_lt_0; assumption.
Qed.

Section Ctors.
Variable O : MatOps.

Lemma lti_meas_ctor_spec hr hc rr rc (H : M O hr hc) (R : M O rr rc) :
  match lti_meas_ctor H R with
  | inr (H', R') => H' = H /\ R' = R /\ 0 < hr /\ 0 < hc /\ rr = rc /\ hr = rr
  | inl ErrHEmpty => hr = 0 \/ hc = 0
  | inl ErrREmpty => 0 < hr /\ 0 < hc /\ (rr = 0 \/ rc = 0)
  | inl ErrRNotSquare => 0 < hr /\ 0 < hc /\ 0 < rr /\ 0 < rc /\ rr <> rc
  | inl ErrHRMismatch => 0 < hr /\ 0 < hc /\ 0 < rr /\ rr = rc /\ hr <> rr
  | inl (ErrIndex _ _) => False
  end.
Proof.
unfold lti_meas_ctor.
destruct (is_empty hr hc) eqn:EH; [exact (is_empty_true _ _ EH)|].
destruct (is_empty_false _ _ EH) as [Hr Hc].
destruct (is_empty rr rc) eqn:ER; [pose proof (is_empty_true _ _ ER); auto|].
destruct (is_empty_false _ _ ER) as [Rr Rc].
destruct (Nat.eqb_spec rr rc) as [Rsq|]; simpl; [|repeat split; assumption].
destruct (Nat.eqb_spec hr rr); simpl; repeat split; assumption.
Qed.

(* the index loop: either every index is in range, or it stops at the first one that is not *)
Lemma lm_fill_outcome m n (idxs : list nat) : forall i (H : M O m n),
  match lm_fill i idxs H with
  | inr _ => Forall (fun c => c < n) idxs
  | inl (ErrIndex p v) =>
      exists k, p = i + k /\ nth_error idxs k = Some v /\ n <= v /\ Forall (fun c => c < n) (firstn k idxs)
  | inl _ => False
  end.
Proof.
induction idxs as [|c rest IH]; intros i H; simpl.
- constructor.
- destruct (Nat.ltb_spec c n) as [lt|ge].
  + specialize (IH (S i) (mset H i c (s1 (sc O)))).
    destruct (lm_fill (S i) rest (mset H i c (s1 (sc O)))) as [[| | | |p v]|H']; try exact IH.
    * destruct IH as [k [-> [E [ge F]]]]. exists (S k). repeat split; simpl; auto; try lia.
    * constructor; auto.
  + exists 0. repeat split; simpl; auto; try lia.
Qed.

(* LinearModel's constructor: the checks in the code's order, then the index loop *)
Lemma linear_model_ctor_spec n (idxs : list nat) rr rc (R : M O rr rc) :
  let m := length idxs in
  match linear_model_ctor n idxs R with
  | inr (H, R', L) =>
      R' = R /\ L = msqrt (mbuild rr rr (fun i j => mget R i j)) /\ lm_fill 0 idxs (mzero m n) = inr H /\
      0 < m /\ 0 < n /\ rr = rc /\ m = rr /\ Forall (fun c => c < n) idxs
  | inl ErrHEmpty => m = 0 \/ n = 0
  | inl ErrREmpty => 0 < m /\ 0 < n /\ (rr = 0 \/ rc = 0)
  | inl ErrRNotSquare => 0 < m /\ 0 < n /\ 0 < rr /\ 0 < rc /\ rr <> rc
  | inl ErrHRMismatch => 0 < m /\ 0 < n /\ 0 < rr /\ rr = rc /\ m <> rr
  | inl (ErrIndex p v) =>
      (0 < m /\ 0 < n /\ rr = rc /\ m = rr) /\
      nth_error idxs p = Some v /\ n <= v /\ Forall (fun c => c < n) (firstn p idxs)
  end.
Proof.
cbv zeta. unfold linear_model_ctor.
pose proof (lti_meas_ctor_spec _ _ _ _ (mzero (length idxs) n) R) as S.
destruct (lti_meas_ctor (mzero (length idxs) n) R) as [e|[H0 R']].
- destruct e; auto. contradiction.
- destruct S as [-> [-> [mp [np [sq mr]]]]].
  pose proof (lm_fill_outcome (length idxs) n idxs 0 (mzero (length idxs) n)) as L.
  destruct (lm_fill 0 idxs (mzero (length idxs) n)) as [e|H]; [|repeat split; auto].
  destruct e; try contradiction.
  destruct L as [k [-> [E [ge F]]]]. simpl. repeat split; auto.
Qed.

(* conversely: with admissible shapes, an index outside the state vector is rejected,
   and the error names the first such index *)
Lemma linear_model_rejects n (idxs : list nat) rr rc (R : M O rr rc) :
  0 < length idxs -> 0 < n -> rr = rc -> length idxs = rr -> ~ Forall (fun c => c < n) idxs ->
  exists p v, linear_model_ctor n idxs R = inl (ErrIndex p v) /\
              nth_error idxs p = Some v /\ n <= v /\ Forall (fun c => c < n) (firstn p idxs).
Proof.
intros mp np sq mr bad.
pose proof (linear_model_ctor_spec n idxs rr rc R) as S. cbv zeta in S.
destruct (linear_model_ctor n idxs R) as [e|[[H R'] L]].
- destruct e as [| | | |p v]; try lia.
  exists p, v. destruct S as [_ [E [ge F]]]. auto.
- destruct S as [_ [_ [_ [_ [_ [_ [_ F]]]]]]]. contradiction.
Qed.
End Ctors.

Section Sim.
Variable O : MatOps.
Variable d : nat.
Notation t := (T (sc O)).
Variable motion : M O d 1 -> list t -> M O d 1 * list t.
Notation state := (@sim_state O d).

(* k-fold motion with the draws threaded: the pair (x_k, draws left) *)
Fixpoint iter_motion (k : nat) (p : M O d 1 * list t) : M O d 1 * list t :=
  match k with
  | 0 => p
  | S k' => let q := iter_motion k' p in motion (fst q) (snd q)
  end.

Lemma iter_motion_shift k p : iter_motion (S k) p = iter_motion k (motion (fst p) (snd p)).
Proof.
induction k as [|k IH]; [reflexivity|].
simpl in *. rewrite IH. reflexivity.
Qed.

Lemma sim_columns_length n : forall x zs, length (sim_columns motion n x zs) = n.
Proof.
induction n as [|n IH]; intros x zs; simpl; [reflexivity|].
destruct (motion x zs) as [x' zs']. simpl. now rewrite IH.
Qed.

Lemma sim_columns_nth n : forall x zs k, k < n ->
  nth_error (sim_columns motion n x zs) k = Some (fst (iter_motion (S k) (x, zs))).
Proof.
induction n as [|n IH]; intros x zs k lt; [inversion lt|].
rewrite iter_motion_shift. simpl sim_columns. simpl fst. simpl snd.
destruct (motion x zs) as [x' zs'] eqn:E.
destruct k as [|k]; simpl; [reflexivity|].
apply IH, Nat.succ_lt_mono, lt.
Qed.

(* well-formed states: the cursor never runs past the stored columns *)
Definition sim_wf (st : state) : Prop :=
  sim_time st = length (sim_target st) /\ sim_cur st <= sim_time st.

Lemma sim_ctor_spec x0 len zs :
  match sim_ctor motion x0 len zs with
  | inl ErrSimEmpty => len = 0
  | inr st =>
      0 < len /\ sim_wf st /\ sim_time st = len /\ sim_cur st = 0 /\ sim_data st = None /\
      (forall k, k < len -> nth_error (sim_target st) k = Some (fst (iter_motion k (x0, zs))))
  end.
Proof.
destruct len as [|n]; simpl; [reflexivity|].
split; [apply Nat.lt_0_succ|]. split.
{ split; simpl; [now rewrite sim_columns_length|apply Nat.le_0_l]. }
do 3 (split; [reflexivity|]).
intros [|k] lt; simpl; [reflexivity|]. apply sim_columns_nth, Nat.succ_lt_mono, lt.
Qed.

(* no call touches the stored trajectory or its length; the cursor advances on bufferData()
   until the end, returns to 0 on reset *)
Lemma sim_step_frame (st : state) op :
  sim_target (fst (sim_step st op)) = sim_target st /\ sim_time (fst (sim_step st op)) = sim_time st.
Proof. destruct op; simpl; [destruct (sim_time st <=? sim_cur st)|..]; split; reflexivity. Qed.

Lemma sim_step_cur (st : state) op : sim_cur st <= sim_time st ->
  sim_cur (fst (sim_step st op)) =
  match op with
  | SimBuffer => Nat.min (S (sim_cur st)) (sim_time st)
  | SimReset => 0
  | SimOther => sim_cur st
  end.
Proof.
intros L; destruct op; [|reflexivity..]. unfold sim_step.
destruct (Nat.leb_spec (sim_time st) (sim_cur st)); cbn [fst sim_cur]; lia.
Qed.

Lemma sim_step_wf st op : sim_wf st -> sim_wf (fst (sim_step st op)).
Proof.
intros [E L]. destruct (sim_step_frame st op) as [Ft Fl].
unfold sim_wf. rewrite Ft, Fl, sim_step_cur by exact L.
split; [exact E|]. destruct op; [apply Nat.le_min_r|apply Nat.le_0_l|exact L].
Qed.

(* one call, completely *)
Lemma sim_buffer_spec st : sim_wf st ->
  (sim_cur st < sim_time st /\
   exists x, nth_error (sim_target st) (sim_cur st) = Some x /\
             sim_step st SimBuffer = (mkSim (sim_target st) (sim_time st) (S (sim_cur st)) (Some x), true))
  \/ (sim_cur st = sim_time st /\ sim_step st SimBuffer = (st, false)).
Proof.
intros [E L]. simpl. destruct (Nat.leb_spec (sim_time st) (sim_cur st)) as [ge|lt].
- right. split; [exact (Nat.le_antisymm _ _ L ge)|reflexivity].
- left. split; [exact lt|].
  destruct (nth_error (sim_target st) (sim_cur st)) as [x|] eqn:N.
  + exists x. split; reflexivity.
  + apply nth_error_None in N. rewrite <- E in N.
    destruct (Nat.lt_irrefl _ (Nat.lt_le_trans _ _ _ lt N)).
Qed.

(* number of bufferData() calls since the most recent reset; r = history, most recent first *)
Fixpoint since_reset_rev (r : list sim_op) : nat :=
  match r with
  | [] => 0
  | SimReset :: _ => 0
  | SimBuffer :: r' => S (since_reset_rev r')
  | SimOther :: r' => since_reset_rev r'
  end.
Definition since_reset (ops : list sim_op) : nat := since_reset_rev (rev ops).

Lemma since_reset_snoc ops op :
  since_reset (ops ++ [op]) =
  match op with SimBuffer => S (since_reset ops) | SimReset => 0 | SimOther => since_reset ops end.
Proof. unfold since_reset. rewrite rev_app_distr. now destruct op. Qed.

(* a run, one call at a time, without taking the pairs apart *)
Lemma sim_run_cons (st : state) op rest :
  sim_run st (op :: rest) =
  ((snd (sim_step st op), sim_data (fst (sim_step st op))) :: fst (sim_run (fst (sim_step st op)) rest),
   snd (sim_run (fst (sim_step st op)) rest)).
Proof. simpl. destruct (sim_step st op) as [st' b]. simpl. now destruct (sim_run st' rest). Qed.

Lemma sim_run_app (st : state) (l1 l2 : list sim_op) :
  sim_run st (l1 ++ l2) =
  (fst (sim_run st l1) ++ fst (sim_run (snd (sim_run st l1)) l2), snd (sim_run (snd (sim_run st l1)) l2)).
Proof.
revert st; induction l1 as [|op l1 IH]; intros st.
- simpl. now destruct (sim_run st l2).
- rewrite <- app_comm_cons, !sim_run_cons, IH. reflexivity.
Qed.

Lemma sim_run_snoc (st : state) l op :
  snd (sim_run st (l ++ [op])) = fst (sim_step (snd (sim_run st l)) op).
Proof. rewrite sim_run_app, sim_run_cons. reflexivity. Qed.

Lemma sim_run_length ops : forall st : state, length (fst (sim_run st ops)) = length ops.
Proof.
induction ops as [|op ops IH]; intros st; [reflexivity|].
rewrite sim_run_cons. simpl. now rewrite IH.
Qed.

(* after any call sequence: the stored trajectory is untouched and the cursor is the
   number of calls since the last reset, capped at the length *)
Lemma sim_run_state (st : state) : sim_wf st -> sim_cur st = 0 -> forall ops,
  let st1 := snd (sim_run st ops) in
  sim_wf st1 /\ sim_target st1 = sim_target st /\ sim_time st1 = sim_time st /\
  sim_cur st1 = Nat.min (since_reset ops) (sim_time st).
Proof.
intros W C0 ops. induction ops as [|op ops IH] using rev_ind; cbv zeta in *.
- repeat split; try apply W. exact C0.
- destruct IH as [W1 [T1 [L1 C1]]]. rewrite sim_run_snoc, since_reset_snoc.
  destruct (sim_step_frame (snd (sim_run st ops)) op) as [Ft Fl].
  split; [now apply sim_step_wf|].
  rewrite Ft, Fl, sim_step_cur by apply W1. rewrite C1, L1.
  split; [exact T1|]. split; [reflexivity|]. destruct op; [lia|reflexivity..].
Qed.

(* bufferData() issued after an arbitrary history [pre] on a freshly constructed model *)
Lemma sim_serving x0 len zs st pre :
  sim_ctor motion x0 len zs = inr st ->
  let st1 := snd (sim_run st pre) in
  let c := since_reset pre in
  (c < len ->
     sim_step st1 SimBuffer =
       (mkSim (sim_target st) len (S c) (Some (fst (iter_motion c (x0, zs)))), true))
  /\ (len <= c -> sim_step st1 SimBuffer = (st1, false)).
Proof.
intros E. pose proof (sim_ctor_spec x0 len zs) as S. rewrite E in S.
destruct S as [_ [W [TL [C0 [_ N]]]]].
destruct (sim_run_state st W C0 pre) as [_ [T1 [L1 C1]]].
cbv zeta. unfold sim_step. rewrite T1, L1, C1, TL.
split; intros H.
- rewrite Nat.min_l by apply Nat.lt_le_incl, H.
  destruct (Nat.leb_spec len (since_reset pre)) as [ge|_].
  + destruct (Nat.lt_irrefl _ (Nat.lt_le_trans _ _ _ H ge)).
  + rewrite (N _ H). reflexivity.
- rewrite Nat.min_r by exact H. rewrite Nat.leb_refl. reflexivity.
Qed.

Lemma sim_reset_spec (st : state) :
  sim_step st SimReset = (mkSim (sim_target st) (sim_time st) 0 (sim_data st), true).
Proof. reflexivity. Qed.
Lemma sim_other_spec (st : state) : sim_step st SimOther = (st, false).
Proof. reflexivity. Qed.

Variable m : nat.
Notation sstate := (@sens_state O d m).

Definition proj_op (op : sens_op) : sim_op :=
  match op with SensFreeze => SimBuffer | SensReset => SimReset | SensOther => SimOther end.

(* the simulated state model inside the sensor sees exactly the projected calls *)
Lemma sensor_step_sim H LR (st : sstate) op :
  sens_sim (fst (sensor_step H LR st op)) = fst (sim_step (sens_sim st) (proj_op op)).
Proof.
destruct op; [|reflexivity..]. unfold sensor_step, sensor_freeze, proj_op.
destruct (sim_step (sens_sim st) SimBuffer) as [s' ok].
destruct ok; [destruct (sim_data s')|]; reflexivity.
Qed.

Lemma sensor_run_cons H LR (st : sstate) op rest :
  sensor_run H LR st (op :: rest) =
  ((snd (sensor_step H LR st op), sens_meas (fst (sensor_step H LR st op)))
     :: fst (sensor_run H LR (fst (sensor_step H LR st op)) rest),
   snd (sensor_run H LR (fst (sensor_step H LR st op)) rest)).
Proof.
simpl. destruct (sensor_step H LR st op) as [st' b]. simpl. now destruct (sensor_run H LR st' rest).
Qed.

Lemma sensor_run_sim H LR ops : forall (st : sstate),
  sens_sim (snd (sensor_run H LR st ops)) = snd (sim_run (sens_sim st) (map proj_op ops)).
Proof.
induction ops as [|op ops IH]; intros st; [reflexivity|].
simpl map. rewrite sensor_run_cons, sim_run_cons. simpl snd.
rewrite IH, sensor_step_sim. reflexivity.
Qed.

(* a failing freeze leaves the draws and the stored measurement alone; a successful one
   consumes exactly m draws *)
Lemma sensor_freeze_draws H LR (st : sstate) :
  let '(st', ok) := sensor_freeze H LR st in
  if ok then sens_zs st' = skipn (m * 1) (sens_zs st)
  else sens_zs st' = sens_zs st /\ sens_meas st' = sens_meas st.
Proof.
unfold sensor_freeze. destruct (sim_step (sens_sim st) SimBuffer) as [s' ok]. destruct ok.
- destruct (sim_data s'); simpl; auto.
- simpl; auto.
Qed.

(* successful freezes in a run, read off its outputs *)
Fixpoint freeze_successes (ops : list sens_op) (outs : list (bool * option (M O m 1))) : nat :=
  match ops, outs with
  | op :: ops', (b, _) :: outs' =>
      (match op with SensFreeze => if b then 1 else 0 | _ => 0 end) + freeze_successes ops' outs'
  | _, _ => 0
  end.

End Sim.

Arguments sim_wf {O d} st.
Arguments iter_motion {O d} motion k p.
Arguments freeze_successes {O m} ops outs.
