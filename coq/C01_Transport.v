(* C01_Transport.v — the Kalman correction model (C01_Model.v) and the Gaussian
   density (Density.v) executed at the LIST instance (the one extracted and run),
   over the scalars of an arbitrary realFieldType, represent what the same Gallina
   terms compute at the MathComp instance (the one the C01 theorems are about), on
   well-formed inputs with SPD covariances.  Unlike C02_Transport / C03_Transport this step
   inverts a matrix (repr_minv, repr_mdet, on which the later transport files build): the inverse / determinant of the list instance are the
   Gauss-Jordan routine of ListOps.v, proved correct in ListGauss.v; the matrices
   inverted here are proved invertible (C01_Proofs.v / LinAlg.v), not assumed so.
   Only rounding separates the executed model from the theorems.  Axiom-free. *)
Require Import ZArith List Bool.
Require Import BFL.Ops BFL.ListOps BFL.Density BFL.C01_Model.
From mathcomp Require Import ssreflect ssrfun ssrbool eqtype ssrnat seq choice fintype bigop order ssralg ssrnum zmodp matrix mxalgebra.
Require Import BFL.MxOps BFL.LinAlg BFL.ListOpsCorrect BFL.ListGauss BFL.C02_Transport BFL.C01_Proofs.
Set Implicit Arguments.
Unset Strict Implicit.
Unset Printing Implicit Defensive.
Import GRing.Theory.
Local Open Scope ring_scope.

Section T.
Variable F : realFieldType.
Variable tr : Transc F.
Variable sq : forall n, 'M[F]_n -> 'M[F]_n.
Variable eg : forall n, 'M[F]_n -> 'M[F]_(n,1).
Let S := FOps tr.
Let OL := ListMat S idL idL.
Let OM := MxMat tr sq eg.
Notation repr m n l A := (@C02_Transport.repr F m n l A) (only parsing).
Local Notation Radd := (repr_add tr idL idL).
Local Notation Rsub := (repr_msub tr idL idL).
Local Notation Ropp := (repr_mopp tr idL idL).
Local Notation Rmul := (repr_mul tr idL idL).
Local Notation Rtr := (repr_tr tr idL idL).

(* inverse and determinant: the Gauss-Jordan routine, on an invertible input *)
Lemma repr_minv n l (A : 'M[F]_n) : repr n n l A -> A \in unitmx ->
  repr n n (@minv OL n l) (invmx A).
Proof. by move=> [w <-] uA; have [w' E] := linv_correct tr w uA. Qed.

Lemma repr_mdet n l (A : 'M[F]_n) : repr n n l A -> A \in unitmx ->
  @mdet OL n l = \det A.
Proof. by move=> [w <-] uA; exact: ldet_correct. Qed.

Theorem quadform_transport d ld (delta : 'cV[F]_d) lSi (Si : 'M[F]_d) :
  repr d 1 ld delta -> repr d d lSi Si ->
  @quadform OL d ld lSi = @quadform OM d delta Si.
Proof.
move=> rd rS; rewrite /quadform; apply: (rget tr sq eg).
by apply: Rmul => //; apply: Rmul => //; apply: Rtr.
Qed.

Theorem log_density_transport d lx (x : 'cV[F]_d) lmu (mu : 'cV[F]_d) lc (cov : 'M[F]_d) :
  repr d 1 lx x -> repr d 1 lmu mu -> repr d d lc cov -> cov \in unitmx ->
  @log_density OL d lx lmu lc = @log_density OM d x mu cov.
Proof.
move=> rx rmu rc uc; rewrite /log_density.
have -> : @quadform OL d (@msub OL d 1 lx lmu) (@minv OL d lc)
        = @quadform OM d (@msub OM d 1 x mu) (@minv OM d cov).
  by apply: quadform_transport; [exact: repr_msub | exact: repr_minv].
by rewrite (repr_mdet rc uc).
Qed.

Theorem density_transport d lx (x : 'cV[F]_d) lmu (mu : 'cV[F]_d) lc (cov : 'M[F]_d) :
  repr d 1 lx x -> repr d 1 lmu mu -> repr d d lc cov -> cov \in unitmx ->
  @density OL d lx lmu lc = @density OM d x mu cov.
Proof. by move=> rx rmu rc uc; rewrite /density (log_density_transport rx rmu rc uc). Qed.

Definition repr_cols d (ls : list (lmxF F)) (xs : list 'cV[F]_d) : Prop :=
  List.Forall2 (fun l x => repr d 1 l x) ls xs.

Theorem density_batch_transport d ls (xs : list 'cV[F]_d) lmu (mu : 'cV[F]_d) lc (cov : 'M[F]_d) :
  repr_cols ls xs -> repr d 1 lmu mu -> repr d d lc cov -> cov \in unitmx ->
  @density_batch OL d ls lmu lc = @density_batch OM d xs mu cov.
Proof.
move=> rxs rmu rc uc; apply: F2_map_eq; apply: F2_impl rxs => l x rx.
exact: density_transport.
Qed.

Definition repr_gcomp n (cl : gcomp OL n) (cm : gcomp OM n) : Prop :=
  repr n 1 (gmean cl) (gmean cm : 'cV[F]_n) /\ repr n n (gcov cl) (gcov cm : 'M[F]_n).

Definition repr_kfout n m (ol : kf_out OL n m) (om : kf_out OM n m) : Prop :=
  [/\ repr_gcomp (ko_comp ol) (ko_comp om),
      repr m 1 (ko_innov ol) (ko_innov om : 'cV[F]_m) &
      repr m m (ko_Py ol) (ko_Py om : 'M[F]_m)].

Section KF.
Variables (n m : nat).
Variables (lH : lmxF F) (H : 'M[F]_(m,n)) (lR : lmxF F) (R : 'M[F]_m) (ly : lmxF F) (y : 'cV[F]_m).
Hypothesis rH : repr m n lH H.
Hypothesis rR : repr m m lR R.
Hypothesis ry : repr m 1 ly y.
Hypothesis spdR : spd R.

(* one component: mean, covariance, innovation, innovation covariance *)
Theorem kf_correct_one_transport (cl : gcomp OL n) (cm : gcomp OM n) :
  repr_gcomp cl cm -> spd (gcov cm : 'M[F]_n) ->
  repr_kfout (@kf_correct_one OL n m lH lR ly cl) (@kf_correct_one OM n m H R y cm).
Proof.
move=> [rx rP] spdP.
have rHt := Rtr rH.
have rnu := Ropp (Rsub (Rmul rH rx) ry).
have rPy := Radd (Rmul (Rmul rH rP) rHt) rR.
have uPy : (H *m gcov cm *m H^T + R : 'M[F]_m) \in unitmx := S_unit H spdP spdR.
have rK := Rmul (Rmul rP rHt) (repr_minv rPy uPy).
split.
- split; first by rewrite !ko_meanE; exact: (Radd rx (Rmul rK rnu)).
  rewrite !ko_covE.
  exact: (Rsub rP (Rmul (Rmul rK rPy) (Rtr rK))).
- by rewrite !ko_innovE; exact: rnu.
- by rewrite !ko_PyE; exact: rPy.
Qed.

(* the reported likelihood of one component *)
Theorem kf_likelihood_transport (ol : kf_out OL n m) (om : kf_out OM n m) :
  repr_kfout ol om -> (ko_Py om : 'M[F]_m) \in unitmx ->
  @kf_likelihood OL n m ol = @kf_likelihood OM n m om.
Proof.
move=> [_ rnu rPy] uPy; rewrite /kf_likelihood.
exact: (density_transport rnu (repr_mzero tr _ _ m 1) rPy uPy).
Qed.

Theorem kf_one_likelihood_transport (cl : gcomp OL n) (cm : gcomp OM n) :
  repr_gcomp cl cm -> spd (gcov cm : 'M[F]_n) ->
  @kf_likelihood OL n m (@kf_correct_one OL n m lH lR ly cl) =
  @kf_likelihood OM n m (@kf_correct_one OM n m H R y cm).
Proof.
move=> rc spdP; apply: kf_likelihood_transport; first exact: kf_correct_one_transport.
exact: (@kf_one_Py_unit F tr sq eg n m H R y spdR cm spdP).
Qed.

(* the whole mixture, any number of components *)
Theorem kf_correct_transport (csl : list (gcomp OL n)) (csm : list (gcomp OM n)) :
  List.Forall2 (@repr_gcomp n) csl csm ->
  List.Forall (fun c : gcomp OM n => spd (gcov c : 'M[F]_n)) csm ->
  List.Forall2 (@repr_kfout n m) (@kf_correct OL n m lH lR ly csl) (@kf_correct OM n m H R y csm).
Proof.
move=> rcs spds; apply: F2_map; apply: F2_impl (F2_Forall_r rcs spds) => cl cm [rc spdP].
exact: kf_correct_one_transport.
Qed.

Theorem kf_likelihoods_transport (csl : list (gcomp OL n)) (csm : list (gcomp OM n)) :
  List.Forall2 (@repr_gcomp n) csl csm ->
  List.Forall (fun c : gcomp OM n => spd (gcov c : 'M[F]_n)) csm ->
  List.map (@kf_likelihood OL n m) (@kf_correct OL n m lH lR ly csl) =
  List.map (@kf_likelihood OM n m) (@kf_correct OM n m H R y csm).
Proof.
move=> rcs spds; rewrite /kf_correct !List.map_map; apply: F2_map_eq.
apply: F2_impl (F2_Forall_r rcs spds) => cl cm [rc spdP].
exact: kf_one_likelihood_transport.
Qed.

(* the spec-level (information-form) posterior used by the violation search *)
Theorem info_posterior_transport (cl : gcomp OL n) (cm : gcomp OM n) :
  repr_gcomp cl cm -> spd (gcov cm : 'M[F]_n) ->
  repr_gcomp (@info_posterior OL n m lH lR ly cl) (@info_posterior OM n m H R y cm).
Proof.
move=> [rx rP] spdP; rewrite /info_posterior /repr_gcomp /=.
have rHt := Rtr rH.
have rPi := repr_minv rP (spd_unit spdP).
have rRi := repr_minv rR (spd_unit spdR).
have rHRi := Rmul rHt rRi.
have rI := Radd rPi (Rmul rHRi rH).
have uI : (invmx (gcov cm) + H^T *m invmx R *m H : 'M[F]_n) \in unitmx := info_unit H spdP spdR.
have rPp := repr_minv rI uI.
split=> //.
exact: (Rmul rPp (Radd (Rmul rPi rx) (Rmul rHRi ry))).
Qed.

End KF.
End T.

(* non-vacuity: the premises of the transport theorems are satisfiable in every
   dimension (identity covariances, zero measurement matrix); the concrete run of
   the same model over exact rationals is Properties_C01.C01_concrete_Q. *)
Example kf_transport_premises_satisfiable (F : realFieldType) (tr : Transc F)
        (sq : forall n, 'M[F]_n -> 'M[F]_n) (eg : forall n, 'M[F]_n -> 'M[F]_(n,1)) n m :
  let OL := ListMat (FOps tr) (fun _ X => X) (fun _ X => X) in
  let OM := MxMat tr sq eg in
  [/\ @C02_Transport.repr F m n (@mzero OL m n) (0 : 'M[F]_(m,n)),
      @C02_Transport.repr F m m (@mid OL m) (1%:M : 'M[F]_m),
      spd (1%:M : 'M[F]_m) &
      repr_gcomp (tr:=tr) (sq:=sq) (eg:=eg)
        (@mkGcomp OL n (@mzero OL n 1) (@mid OL n)) (@mkGcomp OM n (0 : 'cV[F]_n) (1%:M : 'M[F]_n))
      /\ spd (1%:M : 'M[F]_n)].
Proof.
split; [exact: repr_mzero | exact: repr_mid | exact: spd1 | split; last exact: spd1].
by split; [exact: repr_mzero | exact: repr_mid].
Qed.

Print Assumptions log_density_transport.
Print Assumptions kf_correct_transport.
Print Assumptions kf_likelihoods_transport.
Print Assumptions info_posterior_transport.
