(* C09_Regress.v — regression witness.  The transcription of teardown() as it
   was BEFORE /repo commit 5346d85 ("fix: FilteringAlgorithm::teardown wakes a
   filtering thread that is waiting for run"):

       bool FilteringAlgorithm::teardown() { teardown_ = true; return true; }

   i.e. a plain store: no mutex, no notify.  Not part of the model of the code
   as it is now; kept so that a reintroduction of the defect is recognised:
   for this transcription the bounded-exit theorem is FALSE. *)
Require Import List Bool Arith Lia.
Require Import BFL.C09_Model.
Import ListNotations.

Definition teardown_old (c : config) : option config :=
  let '(mk p r s t n w d tr) := c in
  Some (mk p r s true n w d (ECmd Teardown :: tr)).

Definition step_old : config -> move -> option config := step_with teardown_old.
Definition reachable_old : config -> Prop := reachable_with teardown_old.

Fixpoint run_moves_old (c : config) (ms : list move) : option config :=
  match ms with
  | [] => Some c
  | m :: ms' => match step_old c m with Some c' => run_moves_old c' ms' | None => None end
  end.

(* moves that deliver a wake-up: run(), reboot() (they notify) and a spurious wake-up
   (MRebootEnd is enabled only after MCmd Reboot) *)
Definition wakes (m : move) : bool :=
  match m with MCmd Run | MCmd Reboot | MSpurious => true | _ => false end.

(* boot(); the thread runs until it blocks in cv_run_.wait; teardown() *)
Definition hang : config := mk PSleep false false true 0 false false [ECmd Teardown].

Lemma hang_reachable : reachable_old hang.
Proof.
  apply (R_step _ (mk PSleep false false false 0 false false []) (MCmd Teardown)); [|reflexivity].
  apply (R_step _ (mk PHeld false false false 0 false false []) (MThread true)); [|reflexivity].
  apply (R_step _ (mk PLock false false false 0 false false []) (MThread true)); [|reflexivity].
  apply (R_step _ (mk PZero false false false 0 false false []) (MThread true)); [|reflexivity].
  apply (R_step _ init (MThread true)); [|reflexivity].
  constructor.
Qed.

Definition asleep_unwoken (c : config) : Prop :=
  c_pc c = PSleep /\ c_woken c = false /\ c_td c = true /\ c_mid c = false.

Lemma asleep_stays c m c' : asleep_unwoken c -> wakes m = false -> step_old c m = Some c' -> asleep_unwoken c'.
Proof.
  destruct c as [p r s t n w d tr]. intros (P & W & T & M) Hm H. simpl in *. subst.
  destruct m as [b| |k|]; try discriminate; simpl in H; try discriminate.
  destruct k; simpl in *; try discriminate; injection H as <-; repeat split.
Qed.

Lemma asleep_forever c ms c' : asleep_unwoken c -> forallb (fun m => negb (wakes m)) ms = true ->
  run_moves_old c ms = Some c' -> asleep_unwoken c'.
Proof.
  revert c. induction ms as [|m ms IH]; simpl; intros c A F H.
  - injection H as <-. exact A.
  - apply andb_true_iff in F. destruct F as [F1 F2]. apply negb_true_iff in F1.
    destruct (step_old c m) as [c1|] eqn:E; [|discriminate].
    apply (IH c1); auto. apply (asleep_stays c m c1); auto.
Qed.

Lemma asleep_disabled c : asleep_unwoken c ->
  (forall b, step_old c (MThread b) = None) /\ step_old c (MCmd Wait) = None.
Proof.
  destruct c as [p r s t n w d tr]. intros (P & W & T & M). simpl in *. subst. split; reflexivity.
Qed.

(* teardown requested, thread not exited, and — whatever reset(), teardown(),
   is_running(), step_number() calls follow — the thread can never move again
   and wait() is never enabled *)
Lemma teardown_hang :
  exists c, reachable_old c /\ c_td c = true /\ c_pc c <> PExited
    /\ forall ms c', forallb (fun m => negb (wakes m)) ms = true -> run_moves_old c ms = Some c' ->
         c_pc c' <> PExited /\ (forall b, step_old c' (MThread b) = None) /\ step_old c' (MCmd Wait) = None.
Proof.
  exists hang. split; [exact hang_reachable|]. split; [reflexivity|]. split; [discriminate|].
  intros ms c' F H.
  assert (A : asleep_unwoken c') by (eapply asleep_forever; eauto; repeat split).
  split; [destruct A as (P & _); rewrite P; discriminate|].
  apply asleep_disabled; auto.
Qed.

(* Why the ORDER of the two stores of reboot() matters (the transcription check of
   props/C09.py fails closed on it): with  run_ = false; reset_ = true;  the thread can read
   run_ = false and then reset_ = false in its unlocked do-while condition and TERMINATE
   although neither teardown was requested nor run_condition() answered false. *)
Definition step_swapped (c : config) (m : move) : option config :=
  match m with
  | MCmd Reboot =>
      let '(mk p r s t n w d tr) := c in
      if mutex_free p && negb d then Some (mk p false s t n w true (ECmd Reboot :: tr)) else None
  | MRebootEnd =>
      let '(mk p r s t n w d tr) := c in
      if d then Some (mk p r true t n (notified p w) false tr) else None
  | _ => step c m
  end.

Fixpoint run_moves_swapped (c : config) (ms : list move) : option config :=
  match ms with
  | [] => Some c
  | m :: ms' => match step_swapped c m with Some c' => run_moves_swapped c' ms' | None => None end
  end.

Definition swapped_schedule : list move :=
  [MCmd Run; MThread true; MThread true; MThread true; MThread true; MThread true; MThread true; (* PC1a *)
   MThread false; MThread true; (* PC2a *) MThread true; (* PC2b *)
   MCmd Reboot; MThread true; MThread true; (* PFinal *) MThread true; MRebootEnd].

Lemma reboot_store_order_matters :
  exists c, run_moves_swapped init swapped_schedule = Some c
    /\ c_trace c = [EExit; ECmd Reboot; ERc true; ERc false; EInit; ECmd Run]
    /\ c_td c = false.
Proof. eexists. vm_compute. repeat split; reflexivity. Qed.
