(* C19_ROps.v — the Coq-reals instance of the scalar interface SOps at which the
   theorems of C19, C18, C03, C15 and C17 over Coq's reals ("World B") are stated
   (C07 and C08 bring their own: C07_ROps.v, C08_Real.v).
   Nothing is assumed about atan2: it is DEFINED from atan by quadrant, and its
   contract (polar form + uniqueness of the principal argument) is proved.
   Axioms: the four standard real-number axioms of Coq's Reals only. *)
Require Import ZArith Reals Lra Lia.
Require Import BFL.Ops.
Local Open Scope R_scope.

(* atan2 y x, as std::atan2 / std::arg on finite non-NaN doubles without signed zeros *)
Definition atan2 (y x : R) : R :=
  match total_order_T x 0 with
  | inleft (left _)  => if Rle_dec 0 y then atan (y / x) + PI else atan (y / x) - PI
  | inleft (right _) => match total_order_T y 0 with
                        | inleft (left _) => - (PI / 2) | inleft (right _) => 0 | inright _ => PI / 2 end
  | inright _ => atan (y / x)
  end.

Definition Rleb (a b : R) : bool := if Rle_dec a b then true else false.
Definition Rltb (a b : R) : bool := if Rlt_dec a b then true else false.

Definition ROps : SOps :=
  mkSOps R 0 1 Rplus Rminus Rmult Rdiv Ropp Rleb Rltb IZR
         sqrt exp ln cos sin acos atan2 PI (/ IZR (Z.pow 2 1022)).

Lemma Rleb_true a b : Rleb a b = true <-> a <= b.
Proof. unfold Rleb. destruct (Rle_dec a b); split; intros; auto; try discriminate; contradiction. Qed.
Lemma Rleb_false a b : Rleb a b = false <-> b < a.
Proof. unfold Rleb. destruct (Rle_dec a b); split; intros; auto; try discriminate; lra. Qed.
Lemma Rltb_true a b : Rltb a b = true <-> a < b.
Proof. unfold Rltb. destruct (Rlt_dec a b); split; intros; auto; try discriminate; contradiction. Qed.
Lemma Rltb_false a b : Rltb a b = false <-> b <= a.
Proof. unfold Rltb. destruct (Rlt_dec a b); split; intros; auto; try discriminate; lra. Qed.

Lemma sqrt_sumsq_pos x y : x <> 0 \/ y <> 0 -> 0 < sqrt (x² + y²).
Proof.
  intros H. apply sqrt_lt_R0.
  destruct H as [H|H]; [apply Rplus_lt_le_0_compat | apply Rplus_le_lt_0_compat]; auto using Rle_0_sqr, Rsqr_pos_lt.
Qed.

(* right half-plane: the angle is the arc tangent of the slope *)
Lemma polar_right y x : 0 < x ->
  x = sqrt (x² + y²) * cos (atan (y / x)) /\ y = sqrt (x² + y²) * sin (atan (y / x)).
Proof.
  intros Hx. set (t := y / x).
  assert (Hs : 0 < sqrt (1 + t²)) by (apply sqrt_lt_R0; unfold Rsqr; nra).
  assert (Hr : sqrt (x² + y²) = x * sqrt (1 + t²)).
  { replace (x² + y²) with (x² * (1 + t²)) by (unfold t, Rsqr; field; lra).
    rewrite sqrt_mult_alt by apply Rle_0_sqr. rewrite sqrt_Rsqr by lra. reflexivity. }
  assert (Hyx : y = t * x) by (unfold t; field; lra).
  rewrite cos_atan, sin_atan, Hr. split; [field; lra | rewrite Hyx at 1; field; lra].
Qed.

(* polar representation: existence part of the contract *)
Lemma atan2_polar y x : (x <> 0 \/ y <> 0) ->
  let r := sqrt (x² + y²) in let th := atan2 y x in
  - PI < th <= PI /\ x = r * cos th /\ y = r * sin th.
Proof.
  intros Hnz r th. subst r th. unfold atan2. pose proof PI_RGT_0 as Hpi.
  destruct (total_order_T x 0) as [[Hx|Hx]|Hx].
  - (* left half-plane: reflect through the origin, which turns the angle by PI *)
    destruct (polar_right (- y) (- x)) as [Ex Ey]; [lra|].
    rewrite <- !Rsqr_neg in Ex, Ey. replace (- y / - x) with (y / x) in Ex, Ey by (field; lra).
    set (t := y / x) in *. pose proof (atan_bound t) as [Hb1 Hb2].
    assert (Hyx : y = t * x) by (unfold t; field; lra).
    destruct (Rle_dec 0 y) as [Hy|Hy].
    + assert (t <= 0) by nra.
      assert (atan t <= 0) by (destruct (Req_dec t 0) as [->|]; [rewrite atan_0; lra | left; rewrite <- atan_0; apply atan_increasing; lra]).
      rewrite neg_cos, neg_sin. lra.
    + assert (0 < t) by nra.
      assert (0 < atan t) by (rewrite <- atan_0; apply atan_increasing; lra).
      rewrite cos_minus, sin_minus, cos_PI, sin_PI. lra.
  - subst x. assert (Hy : y <> 0) by (destruct Hnz; [lra | auto]).
    replace (0² + y²) with (y²) by (unfold Rsqr; lra).
    destruct (total_order_T y 0) as [[Hy'|Hy']|Hy']; try lra.
    + rewrite cos_neg, sin_neg, cos_PI2, sin_PI2. rewrite (Rsqr_neg y), sqrt_Rsqr by lra. lra.
    + rewrite cos_PI2, sin_PI2, sqrt_Rsqr by lra. lra.
  - pose proof (atan_bound (y / x)). destruct (polar_right y x Hx). lra.
Qed.

(* the same with the radius left abstract, and positive *)
Lemma atan2_polar_pos y x : x <> 0 \/ y <> 0 ->
  exists r, 0 < r /\ - PI < atan2 y x <= PI /\ x = r * cos (atan2 y x) /\ y = r * sin (atan2 y x).
Proof.
  intros H. exists (sqrt (x² + y²)). split; [now apply sqrt_sumsq_pos | exact (atan2_polar y x H)].
Qed.

Lemma atan2_0_0 : atan2 0 0 = 0.
Proof.
  unfold atan2. destruct (total_order_T 0 0) as [[H|H]|H]; lra.
Qed.

Lemma IZR_pos_INR p : IZR (Z.pos p) = INR (Pos.to_nat p).
Proof. now rewrite INR_IZR_INZ, positive_nat_Z. Qed.
Lemma period_Z (f : R -> R) : (forall x (k : nat), f (x + 2 * INR k * PI) = f x) ->
  forall x (k : Z), f (x + 2 * IZR k * PI) = f x.
Proof.
  intros Hf x [|p|p].
  - f_equal. simpl. lra.
  - rewrite (IZR_pos_INR p). apply Hf.
  - rewrite <- (Hf (x + 2 * IZR (Z.neg p) * PI) (Pos.to_nat p)). f_equal.
    change (Z.neg p) with (- Z.pos p)%Z. rewrite opp_IZR, (IZR_pos_INR p). lra.
Qed.
Lemma cos_period_Z x (k : Z) : cos (x + 2 * IZR k * PI) = cos x.
Proof. exact (period_Z cos cos_period x k). Qed.
Lemma sin_period_Z x (k : Z) : sin (x + 2 * IZR k * PI) = sin x.
Proof. exact (period_Z sin sin_period x k). Qed.

(* cos d = 1 and |d| < 2 PI force d = 0: the half angle has sine 0 and lies within (-PI, PI) *)
Lemma cos_eq_1_small d : cos d = 1 -> - (2 * PI) < d < 2 * PI -> d = 0.
Proof.
  intros Hc Hd. pose proof PI_RGT_0 as Hpi.
  assert (Hs : sin (d / 2) = 0).
  { replace d with (2 * (d / 2)) in Hc by lra. rewrite cos_2a_sin in Hc. nra. }
  apply sin_eq_0_0 in Hs. destruct Hs as [k Hk].
  assert (k = 0%Z) by (assert (-1 < k < 1)%Z by (split; apply lt_IZR; nra); lia).
  subst k. lra.
Qed.

(* uniqueness of the principal argument *)
Lemma polar_unique r th1 th2 : 0 < r ->
  - PI < th1 <= PI -> - PI < th2 <= PI ->
  r * cos th1 = r * cos th2 -> r * sin th1 = r * sin th2 -> th1 = th2.
Proof.
  intros Hr H1 H2 Hc Hs.
  assert (Hc' : cos th1 = cos th2) by (apply (Rmult_eq_reg_l r); lra).
  assert (Hs' : sin th1 = sin th2) by (apply (Rmult_eq_reg_l r); lra).
  assert (Hd : cos (th1 - th2) = 1).
  { rewrite cos_minus, Hc', Hs'. pose proof (sin2_cos2 th2) as H. unfold Rsqr in H. lra. }
  apply cos_eq_1_small in Hd; lra.
Qed.

(* the contract in the form used by clients: atan2 (r sin th) (r cos th) = th *)
Lemma atan2_of_polar r th : 0 < r -> - PI < th <= PI ->
  atan2 (r * sin th) (r * cos th) = th.
Proof.
  intros Hr Hth.
  assert (Hnz : r * cos th <> 0 \/ r * sin th <> 0).
  { destruct (Req_dec (cos th) 0) as [Hc|Hc].
    - right. pose proof (sin2_cos2 th) as H. rewrite Hc in H. unfold Rsqr in H. nra.
    - left. nra. }
  destruct (atan2_polar _ _ Hnz) as [Hrange [Hx Hy]].
  assert (Hrr : sqrt ((r * cos th)² + (r * sin th)²) = r).
  { replace ((r * cos th)² + (r * sin th)²) with (r² * ((sin th)² + (cos th)²)) by (unfold Rsqr; lra).
    rewrite sin2_cos2, Rmult_1_r. apply sqrt_Rsqr. lra. }
  rewrite Hrr in Hx, Hy.
  apply (polar_unique r); auto; lra.
Qed.

Lemma atan2_scale c y x : 0 < c -> atan2 (c * y) (c * x) = atan2 y x.
Proof.
  intros Hc.
  assert (P : x <> 0 \/ y <> 0 -> atan2 (c * y) (c * x) = atan2 y x).
  { intros H. destruct (atan2_polar_pos y x H) as [r [Hr [Hth [Ex Ey]]]].
    set (th := atan2 y x) in *. clearbody th. rewrite Ex, Ey, <- !Rmult_assoc.
    apply atan2_of_polar; [now apply Rmult_lt_0_compat | exact Hth]. }
  destruct (Req_dec x 0) as [->|Hx]; [destruct (Req_dec y 0) as [->|Hy]|]; auto.
  now rewrite !Rmult_0_r.
Qed.
