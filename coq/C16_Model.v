(* C16_Model.v — model of the shipped models and initialisers, as they are in
   /repo now:
     WhiteNoiseAcceleration::ImplData ctor, getNoiseSample, getTransitionProbability
                                         (WhiteNoiseAcceleration.cpp:22-98, 194-220)
     AdditiveStateModel::motion          (AdditiveStateModel.cpp:14-19)
     LinearStateModel::propagate         (LinearStateModel.cpp:16-38; the branch taken by
                                          a model that is not skipping and has no exogenous
                                          model attached — the skip branches belong to C13)
     LTIStateModel ctor                  (LTIStateModel.cpp:14-28)
     LTIMeasurementModel ctor            (LTIMeasurementModel.cpp:16-32)
     LinearModel ctor, getNoiseSample    (LinearModel.cpp:21-60)
     SimulatedStateModel ctor, bufferData, getData, setProperty
                                         (SimulatedStateModel.cpp:16-75)
     SimulatedLinearSensor ctor (descriptions), freeze, measure (SimulatedLinearSensor.cpp:17-103)
     InitSurveillanceAreaGrid::initialize   (InitSurveillanceAreaGrid.cpp:44-63)
   Polymorphic in the arithmetic (MatOps).  The standard-normal draws of the
   seeded generators are an INPUT of the model (a list consumed front to back,
   in the order the code calls gauss_rnd_sample_()); std::pow(T, 3.0) and
   std::pow(T, 2.0) are transcribed as T*(T*T) and T*T; the LDLT-based factor
   is the oracle [msqrt].  No proofs in this file. *)
Require Import ZArith List Bool.
Require Import BFL.Ops BFL.Density.
Import ListNotations.
Local Open Scope bool_scope.

(* WhiteNoiseAcceleration::Dim *)
Inductive Dim := OneD | TwoD | ThreeD.
Definition dim_blocks (d : Dim) : nat := match d with OneD => 1 | TwoD => 2 | ThreeD => 3 end.
(* size of F_ / Q_ / the state description *)
Definition dim_n (d : Dim) : nat := match d with OneD => 2 | TwoD => 4 | ThreeD => 6 end.

(* which constructor check fired (the checks are an if / else-if chain) *)
Inductive lti_err := ErrFEmpty | ErrQEmpty | ErrFNotSquare | ErrQNotSquare | ErrFQMismatch.
Inductive meas_err := ErrHEmpty | ErrREmpty | ErrRNotSquare | ErrHRMismatch
                      | ErrIndex (pos value : nat).       (* LinearModel only *)

(* SimulatedStateModel's constructor: simulation_time = 0 throws *)
Inductive sim_err := ErrSimEmpty.

(* calls on a SimulatedStateModel / a SimulatedLinearSensor *)
Inductive sim_op := SimBuffer | SimReset | SimOther.      (* bufferData(), setProperty("reset"), setProperty(<other>) *)
Inductive sens_op := SensFreeze | SensReset | SensOther.  (* freeze(), reset / other property of the simulated state model *)

(* VectorDescription with Euler-type circular components: component counts; every size
   accessor is then the component count, total_size their sum *)
Record vdesc := mkDesc { d_lin : nat; d_circ : nat; d_noise : nat }.
Definition desc_total (v : vdesc) : nat := d_lin v + d_circ v + d_noise v.
Definition desc_linear_size (v : vdesc) : nat := d_lin v.
(* add_noise_components *)
Definition desc_add_noise (v : vdesc) (k : nat) : vdesc := mkDesc (d_lin v) (d_circ v) (d_noise v + k).

Section Models.
Variable O : MatOps.
Notation S := (sc O).
Notation t := (T S).

(* ---------------------------------------------------------------- WNA *)

Definition lit2 : t := sofZ S 2.
Definition lit3 : t := sofZ S 3.
Definition pow2 (x : t) : t := smul S x x.                 (* std::pow(x, 2.0) *)
Definition pow3 (x : t) : t := smul S x (smul S x x).      (* std::pow(x, 3.0) *)

(* double q11 = 1.0 / 3.0 * std::pow(T_, 3.0);  double q2 = 1.0 / 2.0 * std::pow(T_, 2.0); *)
Definition wna_q11 (Ts : t) : t := smul S (sdiv S (s1 S) lit3) (pow3 Ts).
Definition wna_q2 (Ts : t) : t := smul S (sdiv S (s1 S) lit2) (pow2 Ts).

(* Matrix2d F; F << 1.0, T_, 0.0, 1.0;   Matrix2d Q; Q << q11, q2, q2, T_; *)
Definition wna_F2 (Ts : t) : M O 2 2 := mof_lists O 2 2 [[s1 S; Ts]; [s0 S; s1 S]].
Definition wna_Q2 (Ts : t) : M O 2 2 :=
  mof_lists O 2 2 [[wna_q11 Ts; wna_q2 Ts]; [wna_q2 Ts; Ts]].
Definition Z2 : M O 2 2 := mzero 2 2.                      (* Matrix2d::Zero() *)

(* the comma initialisers of the three cases: rows of 2x2 blocks *)
Definition blocks1 (B : M O 2 2) : M O 2 2 := B.
Definition blocks2 (B : M O 2 2) : M O (2 + 2) (2 + 2) :=
  mvcat (mhcat B Z2)
        (mhcat Z2 B).
Definition blocks3 (B : M O 2 2) : M O (2 + (2 + 2)) (2 + (2 + 2)) :=
  mvcat (mhcat B (mhcat Z2 Z2))
        (mvcat (mhcat Z2 (mhcat B Z2))
               (mhcat Z2 (mhcat Z2 B))).
Definition blocks (d : Dim) (B : M O 2 2) : M O (dim_n d) (dim_n d) :=
  match d return M O (dim_n d) (dim_n d) with
  | OneD => blocks1 B
  | TwoD => blocks2 B
  | ThreeD => blocks3 B
  end.

(* F_, Q_ (after Q_ *= tilde_q_), sqrt_Q_ *)
Definition wna_F (d : Dim) (Ts : t) : M O (dim_n d) (dim_n d) := blocks d (wna_F2 Ts).
Definition wna_Q (d : Dim) (Ts q : t) : M O (dim_n d) (dim_n d) := mscale q (blocks d (wna_Q2 Ts)).
Definition wna_sqrtQ (d : Dim) (Ts q : t) : M O (dim_n d) (dim_n d) := msqrt (wna_Q d Ts q).

(* MatrixXd rand_vectors(rows, num); for i < size: *(data() + i) = gauss_rnd_sample_();
   Eigen's default storage is column-major: entry (r, c) is the (c*rows + r)-th draw *)
Definition fill_colmajor (rows num : nat) (zs : list t) : M O rows num :=
  mbuild rows num (fun r c => nth (c * rows + r) zs (s0 S)).

(* getNoiseSample(num) of WhiteNoiseAcceleration (L = sqrt_Q_) and of LinearModel
   (L = sqrt_R_): L * rand_vectors; returns the sample and the draws left *)
Definition noise_sample {d} (L : M O d d) (num : nat) (zs : list t) : M O d num * list t :=
  (mmul L (fill_colmajor d num zs), skipn (d * num) zs).

(* AdditiveStateModel::motion over LinearStateModel::propagate (not skipping, no
   exogenous model): mot = F * cur; mot += getNoiseSample(mot.cols()) *)
Definition additive_motion {d c} (F L : M O d d) (X : M O d c) (zs : list t) : M O d c * list t :=
  let prop := mmul F X in
  let '(w, zs') := noise_sample L c zs in
  (madd prop w, zs').

Definition wna_noise_sample (d : Dim) (Ts q : t) (num : nat) (zs : list t) :=
  noise_sample (wna_sqrtQ d Ts q) num zs.
Definition wna_motion (d : Dim) (Ts q : t) {c} (X : M O (dim_n d) c) (zs : list t) :=
  additive_motion (wna_F d Ts) (wna_sqrtQ d Ts q) X zs.

(* multivariate_gaussian_density(cur - F_ * prev, VectorXd::Zero(prev.rows()), Q_):
   one value per column *)
Definition transition_probability {d c} (F Q : M O d d) (prev cur : M O d c) : list t :=
  let diff := msub cur (mmul F prev) in
  map (fun j => density (mcol j diff) (mzero d 1) Q) (seq 0 c).
Definition wna_transition_probability (d : Dim) (Ts q : t) {c} (prev cur : M O (dim_n d) c) :=
  transition_probability (wna_F d Ts) (wna_Q d Ts q) prev cur.

(* ---------------------------------------------------------------- constructors *)

Definition is_empty (r c : nat) : bool := (r =? 0) || (c =? 0).

(* LTIStateModel(F, Q): members are copies of the arguments *)
Definition lti_state_ctor {fr fc qr qc} (F : M O fr fc) (Q : M O qr qc)
  : lti_err + (M O fr fc * M O qr qc) :=
  if is_empty fr fc then inl ErrFEmpty
  else if is_empty qr qc then inl ErrQEmpty
  else if negb (fr =? fc) then inl ErrFNotSquare
  else if negb (qr =? qc) then inl ErrQNotSquare
  else if negb (fr =? qr) then inl ErrFQMismatch
  else inr (F, Q).

(* LTIMeasurementModel(H, R) *)
Definition lti_meas_ctor {hr hc rr rc} (H : M O hr hc) (R : M O rr rc)
  : meas_err + (M O hr hc * M O rr rc) :=
  if is_empty hr hc then inl ErrHEmpty
  else if is_empty rr rc then inl ErrREmpty
  else if negb (rr =? rc) then inl ErrRNotSquare
  else if negb (hr =? rr) then inl ErrHRMismatch
  else inr (H, R).

(* H_(i, j) = v *)
Definition mset {r c} (A : M O r c) (i j : nat) (v : t) : M O r c :=
  mbuild r c (fun a b => if (a =? i) && (b =? j) then v else mget A a b).

(* the loop of LinearModel's constructor, from row i on *)
Fixpoint lm_fill {m n} (i : nat) (idxs : list nat) (H : M O m n) : meas_err + M O m n :=
  match idxs with
  | [] => inr H
  | ci :: rest =>
      if ci <? n then lm_fill (Datatypes.S i) rest (mset H i ci (s1 S))
      else inl (ErrIndex i ci)
  end.

(* LinearModel({n, idxs}, R, seed): base-class constructor on Zero(|idxs|, n) and R,
   then the loop, then sqrt_R_.  Result: H_, R_, sqrt_R_ *)
Definition linear_model_ctor (n : nat) (idxs : list nat) {rr rc} (R : M O rr rc)
  : meas_err + (M O (length idxs) n * M O rr rc * M O rr rr) :=
  match lti_meas_ctor (mzero (length idxs) n) R with
  | inl e => inl e
  | inr (H0, R') =>
      match lm_fill 0 idxs H0 with
      | inl e => inl e
      | inr H => inr (H, R', msqrt (mbuild rr rr (fun i j => mget R' i j)))
      end
  end.

(* ---------------------------------------------------------------- simulated trajectory *)

Section Sim.
Variable d : nat.
(* StateModel::motion on one column, threading the draws *)
Variable motion : M O d 1 -> list t -> M O d 1 * list t.

(* for k = 1 .. simulation_time-1: motion(target.col(k-1), target.col(k)) *)
Fixpoint sim_columns (k : nat) (x : M O d 1) (zs : list t) : list (M O d 1) :=
  match k with
  | 0 => []
  | Datatypes.S k' => let '(x', zs') := motion x zs in x' :: sim_columns k' x' zs'
  end.

Record sim_state := mkSim {
  sim_target : list (M O d 1);      (* the columns of target_ *)
  sim_time : nat;                   (* simulation_time_ *)
  sim_cur : nat;                    (* current_simulation_time_ *)
  sim_data : option (M O d 1)       (* data_simulated_state_model_ (None: empty Data) *)
}.

(* the constructor: throws when simulation_time = 0 (before allocating target_), otherwise
   column 0 is the initial state and column k is motion(column k-1) *)
Definition sim_ctor (x0 : M O d 1) (simulation_time : nat) (zs : list t) : sim_err + sim_state :=
  match simulation_time with
  | 0 => inl ErrSimEmpty
  | Datatypes.S k => inr (mkSim (x0 :: sim_columns k x0 zs) simulation_time 0 None)
  end.

(* bufferData / setProperty; the boolean is the call's return value.  A column
   read outside target_ would show up as [None] in sim_data. *)
Definition sim_step (st : sim_state) (op : sim_op) : sim_state * bool :=
  match op with
  | SimBuffer =>
      if sim_time st <=? sim_cur st then (st, false)
      else (mkSim (sim_target st) (sim_time st) (Datatypes.S (sim_cur st))
                  (nth_error (sim_target st) (sim_cur st)), true)
  | SimReset => (mkSim (sim_target st) (sim_time st) 0 (sim_data st), true)
  | SimOther => (st, false)
  end.

(* a whole call sequence: the return value and getData() after every call *)
Fixpoint sim_run (st : sim_state) (ops : list sim_op) : list (bool * option (M O d 1)) * sim_state :=
  match ops with
  | [] => ([], st)
  | op :: rest =>
      let '(st', b) := sim_step st op in
      let '(outs, stf) := sim_run st' rest in
      ((b, sim_data st') :: outs, stf)
  end.

(* ---------------------------------------------------------------- simulated linear sensor *)

Variable m : nat.
Record sens_state := mkSens {
  sens_sim : sim_state;
  sens_zs : list t;                 (* draws left in the sensor's own generator *)
  sens_meas : option (M O m 1)      (* measurement_ (None: still empty) *)
}.

(* freeze(): forwards a failing bufferData(); otherwise H_ * data + noise(1 column) *)
Definition sensor_freeze (H : M O m d) (LR : M O m m) (st : sens_state) : sens_state * bool :=
  let '(sim', ok) := sim_step (sens_sim st) SimBuffer in
  if ok then
    match sim_data sim' with
    | Some x =>
        let '(w, zs') := noise_sample LR 1 (sens_zs st) in
        (mkSens sim' zs' (Some (madd (mmul H x) w)), true)
    | None => (mkSens sim' (sens_zs st) (sens_meas st), false)   (* unreachable: see C16 proofs *)
    end
  else (mkSens sim' (sens_zs st) (sens_meas st), false).

Definition sensor_step (H : M O m d) (LR : M O m m) (st : sens_state) (op : sens_op) : sens_state * bool :=
  match op with
  | SensFreeze => sensor_freeze H LR st
  | SensReset => let '(s', b) := sim_step (sens_sim st) SimReset in (mkSens s' (sens_zs st) (sens_meas st), b)
  | SensOther => let '(s', b) := sim_step (sens_sim st) SimOther in (mkSens s' (sens_zs st) (sens_meas st), b)
  end.

(* return value of every call and measure() after it *)
Fixpoint sensor_run (H : M O m d) (LR : M O m m) (st : sens_state) (ops : list sens_op)
  : list (bool * option (M O m 1)) * sens_state :=
  match ops with
  | [] => ([], st)
  | op :: rest =>
      let '(st', b) := sensor_step H LR st op in
      let '(outs, stf) := sensor_run H LR st' rest in
      ((b, sens_meas st') :: outs, stf)
  end.
End Sim.

(* ---------------------------------------------------------------- sensor descriptions *)

(* the rest of SimulatedLinearSensor's constructor (SimulatedLinearSensor.cpp:29-66):
   input description = state description of the simulated model + one noise component per
   row of R; every row i of H_ counts as linear or circular according to where its entry of
   largest magnitude sits: H_.row(i).array().abs().maxCoeff(&state_index) — Eigen's visitor
   keeps the FIRST maximum (it updates on strictly larger values only) *)
Definition sabs1 (x : t) : t := if sltb S x (s0 S) then sopp S x else x.

Fixpoint argmax_from (f : nat -> t) (j k best : nat) (bestv : t) : nat :=
  match k with
  | 0 => best
  | Datatypes.S k' =>
      if sltb S bestv (f j) then argmax_from f (Datatypes.S j) k' j (f j)
      else argmax_from f (Datatypes.S j) k' best bestv
  end.

Definition row_argmax_abs {m n} (H : M O m n) (i : nat) : nat :=
  match n with
  | 0 => 0
  | Datatypes.S k => argmax_from (fun j => sabs1 (mget H i j)) 1 k 0 (sabs1 (mget H i 0))
  end.

(* (input_description_, measurement_description_) *)
Definition sensor_descriptions {m n} (H : M O m n) (state_desc : vdesc) (noise_rows : nat) : vdesc * vdesc :=
  let input := desc_add_noise state_desc noise_rows in
  let counts :=
    fold_left (fun acc i => if row_argmax_abs H i <? desc_linear_size input
                            then (Datatypes.S (fst acc), snd acc) else (fst acc, Datatypes.S (snd acc)))
              (seq 0 m) (0, 0) in
  (input, mkDesc (fst counts) (snd counts) 0).

(* ---------------------------------------------------------------- grid initialiser *)

(* particles.state().col(k) << v 0, v 1, v 2, v 3 *)
Definition set_col {r c} (A : M O r c) (k : nat) (v : nat -> t) : M O r c :=
  mbuild r c (fun i j => if j =? k then v i else mget A i j).

(* (delta / (num_particle_ - 1)) * i + inf, num_particle_ being a double member *)
Definition grid_coord (delta inf : t) (n i : nat) : t :=
  sadd S (smul S (sdiv S delta (ssub S (sofnat S n) (s1 S))) (sofnat S i)) inf.

Definition grid_point (xinf dx yinf dy : t) (nx ny i j : nat) : nat -> t :=
  fun r => match r with
           | 0 => grid_coord dx xinf nx i
           | 2 => grid_coord dy yinf ny j
           | _ => s0 S
           end.

(* the (i, j) pairs in the order of the two nested loops *)
Definition grid_pairs (nx ny : nat) : list (nat * nat) := list_prod (seq 0 nx) (seq 0 ny).

(* initialize(particles): [st], [w] are the state matrix and the weight vector on
   entry; None = returns false without touching the set *)
Definition grid_initialize (xinf xsup yinf ysup : t) (nx ny : nat) {np} (st : M O 4 np) (w : M O np 1)
  : option (M O 4 np * M O np 1) :=
  if negb (np =? nx * ny) then None
  else
    let dx := ssub S xsup xinf in
    let dy := ssub S ysup yinf in
    let st' := fold_left (fun A ij => set_col A (fst ij * ny + snd ij)
                                              (grid_point xinf dx yinf dy nx ny (fst ij) (snd ij)))
                         (grid_pairs nx ny) st in
    Some (st', mconst O np 1 (sopp S (sln S (sofnat S np)))).

(* initialize(particles) on a particle set with ANY number [r] of state rows, both checks in the
   code's order: the particle count, then "the grid is laid out on states (x, vx, y, vy)"
   (particles.state().rows() != 4 -> false).  For r = 4 this is [grid_initialize] (Properties_C16.C16_grid_rows_four). *)
Definition grid_initialize_rows (xinf xsup yinf ysup : t) (nx ny : nat) {r np} (st : M O r np) (w : M O np 1)
  : option (M O r np * M O np 1) :=
  if negb (np =? nx * ny) then None
  else if negb (r =? 4) then None
  else
    let dx := ssub S xsup xinf in
    let dy := ssub S ysup yinf in
    let st' := fold_left (fun A ij => set_col A (fst ij * ny + snd ij)
                                              (grid_point xinf dx yinf dy nx ny (fst ij) (snd ij)))
                         (grid_pairs nx ny) st in
    Some (st', mconst O np 1 (sopp S (sln S (sofnat S np)))).

End Models.

Arguments wna_F2 {_}. Arguments wna_Q2 {_}. Arguments blocks {_}.
Arguments wna_F {_}. Arguments wna_Q {_}. Arguments wna_sqrtQ {_}.
Arguments fill_colmajor {_}. Arguments noise_sample {_ d}. Arguments additive_motion {_ d c}.
Arguments wna_noise_sample {_}. Arguments wna_motion {_} d Ts q {c}.
Arguments transition_probability {_ d c}. Arguments wna_transition_probability {_} d Ts q {c}.
Arguments lti_state_ctor {_ fr fc qr qc}. Arguments lti_meas_ctor {_ hr hc rr rc}.
Arguments mset {_ r c}. Arguments lm_fill {_ m n}. Arguments linear_model_ctor {_} n idxs {rr rc}.
Arguments sim_columns {_ d}. Arguments sim_state {_}. Arguments mkSim {_ d}.
Arguments sim_target {_ d}. Arguments sim_time {_ d}. Arguments sim_cur {_ d}. Arguments sim_data {_ d}.
Arguments sim_ctor {_ d}. Arguments sim_step {_ d}. Arguments sim_run {_ d}.
Arguments sens_state {_}. Arguments mkSens {_ d m}.
Arguments sens_sim {_ d m}. Arguments sens_zs {_ d m}. Arguments sens_meas {_ d m}.
Arguments sensor_freeze {_ d m}. Arguments sensor_step {_ d m}. Arguments sensor_run {_ d m}.
Arguments sabs1 {_}. Arguments argmax_from {_}. Arguments row_argmax_abs {_ m n}. Arguments sensor_descriptions {_ m n}.
Arguments set_col {_ r c}. Arguments grid_coord {_}. Arguments grid_point {_}.
Arguments grid_initialize {_} xinf xsup yinf ysup nx ny {np}.
Arguments grid_initialize_rows {_} xinf xsup yinf ysup nx ny {r np}.
