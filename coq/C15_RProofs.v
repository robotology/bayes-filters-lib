(* C15_RProofs.v — utils::log_sum_exp over Coq's reals (World B): the model
   C15_Model.lse at the instances ROps (plain reals) and EOps (reals extended
   by -inf, C15_ROps.v).  Axioms: the four standard real-number axioms only. *)
Require Import ZArith Reals List Lra.
Require Import BFL.Ops BFL.C19_ROps BFL.C15_ROps BFL.C15_Model.
Import ListNotations.
Local Open Scope R_scope.

Definition sumR (l : list R) : R := fold_right Rplus 0 l.

Lemma sumR_scal c l : sumR (map (fun a => c * a) l) = c * sumR l.
Proof. induction l; simpl; [ring | rewrite IHl; ring]. Qed.

Lemma sumR_nonneg l : (forall a, In a l -> 0 <= a) -> 0 <= sumR l.
Proof.
  induction l as [|a l IH]; intros H; simpl; [lra|].
  assert (0 <= a) by (apply H; left; auto).
  assert (0 <= sumR l) by (apply IH; intros; apply H; right; auto). lra.
Qed.

Lemma sumR_pos l : l <> [] -> (forall a, In a l -> 0 < a) -> 0 < sumR l.
Proof.
  destruct l as [|a l]; [congruence|]; intros _ H; simpl.
  pose proof (H a (or_introl eq_refl)).
  pose proof (sumR_nonneg l (fun b Hb => Rlt_le _ _ (H b (or_intror Hb)))). lra.
Qed.

Lemma sumR_le_length l : (forall a, In a l -> a <= 1) -> sumR l <= INR (length l).
Proof.
  induction l as [|a l IH]; intros H; [simpl; lra|].
  change (length (a :: l)) with (S (length l)). rewrite S_INR. simpl.
  assert (a <= 1) by (apply H; left; auto).
  assert (sumR l <= INR (length l)) by (apply IH; intros; apply H; right; auto). lra.
Qed.

Lemma sumR_ge_member l x : (forall a, In a l -> 0 <= a) -> In x l -> x <= sumR l.
Proof.
  induction l as [|a l IH]; intros H Hin; [destruct Hin|].
  assert (0 <= a) by (apply H; left; auto).
  assert (0 <= sumR l) by (apply sumR_nonneg; intros; apply H; right; auto).
  simpl. destruct Hin as [->|Hin]; [lra|].
  assert (x <= sumR l) by (apply IH; auto; intros; apply H; right; auto). lra.
Qed.

(* the model's sum is a left fold from 0 *)
Lemma fold_left_Rplus l a : fold_left Rplus l a = a + sumR l.
Proof. revert a; induction l as [|b l IH]; intros a; simpl; [ring | rewrite IH; ring]. Qed.

Lemma ssum_R l : ssum ROps l = sumR l.
Proof. unfold ssum. simpl. rewrite fold_left_Rplus. ring. Qed.

Lemma smaxl_R_cons x0 b l :
  smaxl ROps x0 (b :: l) = smaxl ROps (if Rltb x0 b then b else x0) l.
Proof. reflexivity. Qed.

(* data.maxCoeff(): the running maximum is an entry and dominates every entry *)
Lemma smaxl_R_spec x0 l :
  In (smaxl ROps x0 l) (x0 :: l) /\ forall a, In a (x0 :: l) -> a <= smaxl ROps x0 l.
Proof.
  revert x0; induction l as [|b l IH]; intros x0.
  - simpl. split; [auto | intros a [->|[]]; lra].
  - rewrite smaxl_R_cons. set (x1 := if Rltb x0 b then b else x0).
    assert (Hx : (x1 = x0 \/ x1 = b) /\ x0 <= x1 /\ b <= x1).
    { unfold x1. destruct (Rltb x0 b) eqn:E; [apply Rltb_true in E | apply Rltb_false in E]; lra. }
    destruct Hx as [Hx [H0 Hb]]. destruct (IH x1) as [Hin Hle].
    assert (Hm := Hle x1 (or_introl eq_refl)). split.
    + destruct Hin as [<-|Hin]; [destruct Hx as [->| ->]; simpl; auto | right; right; exact Hin].
    + intros a [<-|[<-|Ha]]; [lra | lra | apply Hle; right; exact Ha].
Qed.

Lemma exps_nonneg (f : R -> R) xs a : In a (map (fun x => exp (f x)) xs) -> 0 <= a.
Proof. intros Ha. apply in_map_iff in Ha. destruct Ha as [b [<- _]]. left; apply exp_pos. Qed.

Lemma sum_exp_pos (f : R -> R) xs : xs <> [] -> 0 < sumR (map (fun a => exp (f a)) xs).
Proof.
  intros H. apply sumR_pos; [destruct xs; [congruence|discriminate]|].
  intros a Ha. apply in_map_iff in Ha. destruct Ha as [b [<- _]]. apply exp_pos.
Qed.

(* a common shift of the exponents comes out of ln sum exp: for c = - max this is why
   the code may subtract the maximum first, for any c it is the shift law *)
Lemma ln_sum_exp_shift xs c : xs <> [] ->
  ln (sumR (map (fun a => exp (a + c)) xs)) = ln (sumR (map exp xs)) + c.
Proof.
  intros Hne.
  assert (E : map (fun a => exp (a + c)) xs = map (fun y => exp c * y) (map exp xs)).
  { rewrite map_map. apply map_ext; intro a. rewrite exp_plus. ring. }
  rewrite E, sumR_scal, ln_mult, ln_exp;
    [ring | apply exp_pos | apply (sum_exp_pos (fun a => a)), Hne].
Qed.

Lemma lse_R_unfold x0 l :
  lse (Sc:=ROps) x0 l =
  smaxl ROps x0 l + ln (sumR (map (fun a => exp (a - smaxl ROps x0 l)) (x0 :: l))).
Proof. unfold lse. rewrite ssum_R. reflexivity. Qed.

Theorem lse_spec x0 l : lse (Sc:=ROps) x0 l = ln (sumR (map exp (x0 :: l))).
Proof.
  rewrite lse_R_unfold. unfold Rminus.
  rewrite ln_sum_exp_shift by discriminate. apply Rplus_minus.
Qed.

Theorem lse_shift x0 l c :
  lse (Sc:=ROps) (x0 + c) (map (fun a => a + c) l) = lse (Sc:=ROps) x0 l + c.
Proof.
  rewrite !lse_spec.
  change ((x0 + c) :: map (fun a => a + c) l) with (map (fun a => a + c) (x0 :: l)).
  rewrite map_map. apply ln_sum_exp_shift. discriminate.
Qed.

(* the exponents the code feeds to exp: every one <= 0, and the maximum's own is 0 *)
Lemma lse_shifted_R_spec x0 l :
  (forall e, In e (lse_shifted (Sc:=ROps) x0 l) -> e <= 0) /\ In 0 (lse_shifted (Sc:=ROps) x0 l).
Proof.
  destruct (smaxl_R_spec x0 l) as [Hin Hle]. unfold lse_shifted. split.
  - intros e He. apply in_map_iff in He. destruct He as [a [<- Ha]]. exact (Rle_minus _ _ (Hle a Ha)).
  - apply in_map_iff. exists (smaxl ROps x0 l). split; [apply Rminus_diag_eq; reflexivity | exact Hin].
Qed.

(* what the code feeds to ln: exponents <= 0, one of them 0, give a sum in [1, n] *)
Lemma sum_exp_nonpos_bounds sh : (forall e, In e sh -> e <= 0) -> In 0 sh ->
  1 <= sumR (map exp sh) <= INR (length sh).
Proof.
  intros H1 H2. split.
  - apply sumR_ge_member; [exact (exps_nonneg (fun a => a) sh) | rewrite <- exp_0; apply in_map, H2].
  - rewrite <- (map_length exp). apply sumR_le_length.
    intros a Ha. apply in_map_iff in Ha. destruct Ha as [e [<- He]].
    specialize (H1 e He). destruct (Req_dec e 0) as [->|Hne]; [rewrite exp_0; lra|].
    left. rewrite <- exp_0. apply exp_increasing. lra.
Qed.

(* entries -inf: the same model function at the extended instance *)
Fixpoint fins (l : list ext) : list R :=
  match l with
  | [] => []
  | Fin x :: t => x :: fins t
  | _ :: t => fins t
  end.
Definition no_bad (l : list ext) : Prop := forall a, In a l -> a <> Bad.

Lemma no_bad_cons a l : no_bad (a :: l) <-> a <> Bad /\ no_bad l.
Proof.
  split.
  - intros H. split; [apply H; left; reflexivity | intros b Hb; apply H; right; exact Hb].
  - intros [Ha Hl] b [<-|Hb]; [exact Ha | exact (Hl b Hb)].
Qed.

Lemma fins_in x l : In (Fin x) l -> In x (fins l).
Proof.
  induction l as [|b t IH]; intros H; [destruct H|].
  destruct H as [->|H]; [left; reflexivity|].
  destruct b; simpl; auto.
Qed.

Lemma smaxl_E_cons x0 b l :
  smaxl EOps x0 (b :: l) = smaxl EOps (if e_ltb x0 b then b else x0) l.
Proof. reflexivity. Qed.

(* On a NaN-free list whose finite entries are x :: t, the extended instance computes what
   the real instance computes on x :: t: -inf never wins a comparison and adds exp(-inf) = 0 *)
Lemma smaxl_E_fins x0 l x t : no_bad (x0 :: l) -> fins (x0 :: l) = x :: t ->
  smaxl EOps x0 l = Fin (smaxl ROps x t).
Proof.
  revert x0 x t; induction l as [|b l IH]; intros x0 x t Hnb Hf.
  - destruct x0; simpl in Hf; try discriminate. injection Hf as -> <-. reflexivity.
  - rewrite smaxl_E_cons. apply no_bad_cons in Hnb. destruct Hnb as [H0 Hnb].
    apply no_bad_cons in Hnb. destruct Hnb as [Hb Hnb].
    assert (IH1 : forall x1 x t, x1 <> Bad -> fins (x1 :: l) = x :: t ->
                  smaxl EOps x1 l = Fin (smaxl ROps x t)).
    { intros x1 x' t' H1 Hf1. apply IH; [apply no_bad_cons; split; assumption | exact Hf1]. }
    destruct x0 as [|y|], b as [|z|]; try congruence; simpl in Hf |- *.
    (* at most one of the two is finite: the comparison keeps it, or -inf *)
    1-3: apply IH1; [discriminate | exact Hf].
    injection Hf as <- <-. rewrite smaxl_R_cons.
    destruct (Rltb y z); (apply IH1; [discriminate | reflexivity]).
Qed.

Lemma esum_shifted m xs acc : no_bad xs ->
  fold_left (sadd EOps) (map (fun a => sexp EOps (ssub EOps a (Fin m))) xs) (Fin acc)
  = Fin (acc + sumR (map (fun a => exp (a - m)) (fins xs))).
Proof.
  revert acc; induction xs as [|b xs IH]; intros acc Hnb.
  - simpl. f_equal. ring.
  - apply no_bad_cons in Hnb. destruct Hnb as [Hb Hnb].
    destruct b as [|x|]; [| |congruence]; simpl; rewrite IH by assumption; f_equal; ring.
Qed.

Lemma lse_E_fins x0 l x t : no_bad (x0 :: l) -> fins (x0 :: l) = x :: t ->
  lse (Sc:=EOps) x0 l = Fin (lse (Sc:=ROps) x t).
Proof.
  intros Hnb Hf. rewrite lse_R_unfold. unfold lse, ssum.
  rewrite (smaxl_E_fins _ _ _ _ Hnb Hf).
  change (s0 EOps) with (Fin 0). rewrite (esum_shifted _ _ 0 Hnb), Hf, Rplus_0_l.
  set (m := smaxl ROps x t).
  assert (Hpos : 0 < sumR (map (fun a => exp (a - m)) (x :: t)))
    by (apply (sum_exp_pos (fun a => a - m)); discriminate).
  set (s := sumR _) in *. simpl.
  destruct (Rlt_dec 0 s); [reflexivity | contradiction].
Qed.

(* outside the property: with no finite entry the code returns NaN (-inf - -inf) *)
Lemma efold_bad l : fold_left e_add l Bad = Bad.
Proof. induction l as [|a l IH]; simpl; [reflexivity|]. destruct a; exact IH. Qed.

Lemma emax_all_ninf l : (forall a, In a l -> a = NInf) -> smaxl EOps NInf l = NInf.
Proof.
  induction l as [|b l IH]; intros H; [reflexivity|].
  rewrite smaxl_E_cons. rewrite (H b) by (left; reflexivity). simpl.
  apply IH. intros a Ha. apply H. right; exact Ha.
Qed.

Lemma fins_shift c l :
  fins (map (fun a => e_add a (Fin c)) l) = map (fun a => a + c) (fins l).
Proof.
  induction l as [|b l IH]; [reflexivity|].
  destruct b as [|x|]; simpl; rewrite ?IH; reflexivity.
Qed.

Lemma no_bad_shift c l : no_bad l -> no_bad (map (fun a => e_add a (Fin c)) l).
Proof.
  intros H a Ha. apply in_map_iff in Ha. destruct Ha as [b [<- Hb]].
  specialize (H b Hb). destruct b; simpl; congruence.
Qed.
