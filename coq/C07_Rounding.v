(* C07_Rounding.v — "... differs from N times its weight by less than one UP TO
   ROUNDING OF THE CUMULATIVE WEIGHTS".

   The carried-pointer loop of Resampling::resample (model: res_loop) is run on an
   ARBITRARY list c of cumulative weights — in particular the doubles the running
   sum csw(i) = csw(i-1) + exp(w(i)) really produces, read as real numbers — that
   is only required to be non-decreasing and non-negative (true of a running sum of
   non-negative terms under any monotone rounding).  Nothing is assumed about its
   last entry: it may fall short of the last comb point (then only the guard
   idx < N-1 stops the pointer and the surplus goes to the last particle) or
   exceed 1.

   clamp c := c with every entry cut at 1 and the last one set to 1.
   - tracks_clamp : the loop cannot tell c from clamp c (all comb points are < 1, and the pointer
     never leaves the last entry), so the selection theorems of C07_Proofs apply with the bounds 0, clamp c;
   - hence (Properties_C07.C07_count_bound_cumulative) particle i is selected a number of
     times that differs from N (ĉ_i - ĉ_{i-1}) by less than one, ĉ = clamp c;
   - clamp_close : clamping does not move c away from exact cumulative weights, so
     (C07_count_bound_rounded) if every c_i is within delta of C_i = w_0 + ... + w_i
     (sum 1) then |count_i - N w_i| < 1 + 2 N delta.
   The comb points u_j = u1 + j/N are exact here (the property's wording is about
   the cumulative weights only). *)
Require Import Reals List Lia Lra.
Require Import BFL.Ops BFL.C07_Model BFL.C07_ROps BFL.C07_Proofs.
Import ListNotations.
Local Open Scope R_scope.

(* acc <= l_0 <= l_1 <= ... *)
Fixpoint chain (acc : R) (l : list R) : Prop :=
  match l with [] => True | y :: r => acc <= y /\ chain y r end.

(* every entry cut at 1, the last one set to 1 *)
Fixpoint clamp (l : list R) : list R :=
  match l with
  | [] => []
  | x :: r => match r with [] => [1] | _ :: _ => Rmin x 1 :: clamp r end
  end.

Lemma clamp_length l : length (clamp l) = length l.
Proof. induction l as [|x r IH]; [reflexivity|]. destruct r; [reflexivity|]. simpl in *. rewrite IH. reflexivity. Qed.

Lemma clamp_nth l i : (i < length l)%nat ->
  nth i (clamp l) 0 = if (i =? length l - 1)%nat then 1 else Rmin (nth i l 0) 1.
Proof.
  revert i; induction l as [|x r IH]; intros i H; [simpl in H; lia|].
  destruct r as [|y r'].
  - simpl in H. assert (i = 0)%nat by lia. subst. reflexivity.
  - change (clamp (x :: y :: r')) with (Rmin x 1 :: clamp (y :: r')).
    destruct i.
    + reflexivity.
    + simpl nth. rewrite IH by (simpl in *; lia). cbn [length]. rewrite !Nat.sub_succ, !Nat.sub_0_r. reflexivity.
Qed.

Lemma clamp_chain l a a' : chain a l -> a' <= a -> a' <= 1 -> chain a' (clamp l).
Proof.
  revert a a'; induction l as [|x r IH]; intros a a' Hc H1 H2; [exact I|].
  destruct Hc as [Hax Hc]. destruct r as [|y r'].
  - simpl. split; [exact H2 | exact I].
  - change (clamp (x :: y :: r')) with (Rmin x 1 :: clamp (y :: r')). split.
    + apply Rmin_glb; lra.
    + apply (IH x); [exact Hc | apply Rmin_l | apply Rmin_r].
Qed.

Lemma clamp_last l : (0 < length l)%nat -> nth (length l - 1) (clamp l) 0 = 1.
Proof. intro H. rewrite clamp_nth by lia. rewrite Nat.eqb_refl. reflexivity. Qed.

Lemma chain_step a l i : chain a l -> (i < length l)%nat ->
  match i with O => a | Datatypes.S i' => nth i' l 0 end <= nth i l 0.
Proof.
  revert a i; induction l as [|y r IH]; intros a i Hc Hi; [simpl in Hi; lia|]. destruct Hc as [H1 H2].
  destruct i as [|i]; [exact H1|]. simpl in Hi. specialize (IH y i H2 ltac:(lia)). destruct i; exact IH.
Qed.

(* ---- the loop sees c as clamp c: all comb points are < 1, and the last entry is never decisive ---- *)
Lemma tracks_clamp c : (0 < length c)%nat -> chain 0 c ->
  tracks (length c) c (fun i => match i with O => 0 | Datatypes.S i' => nth i' (clamp c) 0 end).
Proof.
  intros Npos Hc. split; [reflexivity|]. split; [|split].
  - replace (length c) with (Datatypes.S (length c - 1)) by lia. apply clamp_last, Npos.
  - intros i Hi. apply (chain_step 0 (clamp c) i); [|rewrite clamp_length; exact Hi].
    apply (clamp_chain c 0 0); [exact Hc | lra | lra].
  - intros i x Hi Hx. change (nth i c 0 < x <-> nth i (clamp c) 0 < x). rewrite clamp_nth by lia.
    replace (i =? length c - 1)%nat with false by (symmetry; apply Nat.eqb_neq; lia).
    unfold Rmin. destruct (Rle_dec (nth i c 0) 1); split; lra.
Qed.

(* ---- c within delta of exact cumulative weights C: so is clamp c ---- *)
Lemma clamp_close (c : list R) (C : nat -> R) (delta : R) i :
  (i < length c)%nat -> C i <= 1 -> C (length c - 1)%nat = 1 ->
  Rabs (nth i c 0 - C i) <= delta -> Rabs (nth i (clamp c) 0 - C i) <= delta.
Proof.
  intros Hi HC1 HCl Hd. rewrite clamp_nth by exact Hi.
  destruct (Nat.eqb_spec i (length c - 1)) as [->|Hne].
  - rewrite HCl. rewrite Rminus_diag_eq by reflexivity. rewrite Rabs_R0.
    eapply Rle_trans; [apply Rabs_pos | exact Hd].
  - unfold Rmin. destruct (Rle_dec (nth i c 0) 1) as [L|L]; [exact Hd|].
    apply Rnot_le_lt in L. apply Rabs_le_both in Hd.
    apply Rabs_le_both. lra.
Qed.

