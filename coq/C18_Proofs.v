(* C18_Proofs.v — lemmas about the C18 model (quaternion utilities) at the
   Coq-reals instance ROps of C19_ROps: norms; logarithm and exponential through their unfolding equations
   (q_to_rv_R, rv_to_q_R), the round trip and its bound; Hamilton algebra; the invariances of the outer-product
   sum; the eigen contract and the eigen-gap of a symmetric sigma set (sym_gap).
   lra, not ring, throughout: these are polynomial identities in the components, and ring's reflexive proof of
   them is slow to check. *)
Require Import ZArith Reals Lra Lia List Permutation.
Require Import BFL.Ops BFL.ListFacts BFL.C19_ROps BFL.C18_Model.
Import ListNotations.
Local Open Scope R_scope.

Notation Q := (quat ROps).
Notation V := (vec3 ROps).
Notation mkQR := (@mkQ ROps).
Notation mkVR := (@mkV ROps).

(* the code's 1e-4 *)
Definition cut : R := 1 / 10000.
Lemma cut_pos : 0 < cut. Proof. unfold cut. lra. Qed.
Lemma two_R : two ROps = 2.
Proof. unfold two, s2. simpl. lra. Qed.

Definition ss (v : V) : R := vx v * vx v + vy v * vy v + vz v * vz v.
Definition n3 (v : V) : R := sqrt (ss v).
Definition qnorm2 (q : Q) : R := qw q * qw q + qx q * qx q + qy q * qy q + qz q * qz q.
Definition qneg (q : Q) : Q := mkQR (- qw q) (- qx q) (- qy q) (- qz q).
Definition vneg (v : V) : V := mkVR (- vx v) (- vy v) (- vz v).
Definition vsub (a b : V) : V := mkVR (vx a - vx b) (vy a - vy b) (vz a - vz b).
Definition vdist (a b : V) : R := n3 (vsub a b).
Definition V0 : V := mkVR 0 0 0.
Definition Q1 : Q := mkQR 1 0 0 0.
(* (c * v) / n *)
Definition vsd (c : R) (v : V) (n : R) : V := mkVR (c * vx v / n) (c * vy v / n) (c * vz v / n).

Lemma ss_nonneg v : 0 <= ss v.
Proof. unfold ss. nra. Qed.
Lemma n3_nonneg v : 0 <= n3 v.
Proof. apply sqrt_pos. Qed.
Lemma n3_sq v : n3 v * n3 v = ss v.
Proof. apply sqrt_sqrt, ss_nonneg. Qed.
Lemma n3_axis x : 0 <= x -> n3 (mkVR x 0 0) = x.
Proof. intros H. unfold n3, ss. simpl. replace (x * x + 0 * 0 + 0 * 0) with (x * x) by lra. now apply sqrt_square. Qed.
Lemma n3_V0 : n3 V0 = 0.
Proof. exact (n3_axis 0 (Rle_refl 0)). Qed.
Lemma n3_vneg v : n3 (vneg v) = n3 v.
Proof. unfold n3, ss. simpl. f_equal. lra. Qed.
Lemma vdist_V0 r : vdist V0 r = n3 r.
Proof. unfold vdist, n3, ss, vsub. simpl. f_equal. lra. Qed.
Lemma vdist_refl r : vdist r r = 0.
Proof. unfold vdist. replace (vsub r r) with V0 by (unfold vsub, V0; f_equal; lra). exact n3_V0. Qed.

(* norm of (c v) / |v| is |c| *)
Lemma n3_vsd c v : 0 < n3 v -> n3 (vsd c v (n3 v)) = Rabs c.
Proof.
  intros Hn. pose proof (n3_sq v) as Hs. unfold n3 at 1. unfold ss, vsd. simpl.
  replace (c * vx v / n3 v * (c * vx v / n3 v) + c * vy v / n3 v * (c * vy v / n3 v) + c * vz v / n3 v * (c * vz v / n3 v))
    with (c² * (ss v / (n3 v * n3 v))) by (unfold ss, Rsqr; field; lra).
  rewrite Hs. replace (ss v / ss v) with 1 by (field; rewrite <- Hs; nra).
  rewrite Rmult_1_r. apply sqrt_Rsqr_abs.
Qed.
Lemma vsd_inv s v n : s <> 0 -> n <> 0 -> vsd n (vsd s v n) s = v.
Proof. intros Hs Hn. destruct v as [x y z]. unfold vsd. simpl. f_equal; field; auto. Qed.
Lemma vsd_neg c v n : vsd c (vneg v) n = vsd (- c) v n.
Proof. unfold vsd, vneg, Rdiv. simpl. f_equal; lra. Qed.
Lemma vneg_vsd c v n : vneg (vsd c v n) = vsd (- c) v n.
Proof. unfold vsd, vneg, Rdiv. simpl. f_equal; lra. Qed.

Lemma quat_eq (p q : Q) : qw p = qw q -> qvec ROps p = qvec ROps q -> p = q.
Proof. destruct p, q. simpl. intros -> H. now injection H as -> -> ->. Qed.
Lemma qnorm2_split (q : Q) : qnorm2 q = qw q * qw q + n3 (qvec ROps q) * n3 (qvec ROps q).
Proof. rewrite n3_sq. unfold qnorm2, ss. simpl. lra. Qed.
Lemma qnorm2_nonneg (v : Q) : 0 <= qnorm2 v.
Proof. unfold qnorm2. nra. Qed.
Lemma unit_w_range (q : Q) : qnorm2 q = 1 -> -1 <= qw q <= 1.
Proof. unfold qnorm2. intros H. split; nra. Qed.
Lemma unit_vec_norm (q : Q) : qnorm2 q = 1 -> n3 (qvec ROps q) = sqrt (1 - (qw q)²).
Proof. intros H. unfold n3. f_equal. unfold ss, qnorm2, Rsqr in *. simpl. lra. Qed.

Lemma qvec_neg (q : Q) : qvec ROps (qneg q) = vneg (qvec ROps q).
Proof. reflexivity. Qed.
Lemma n3_qvec_neg (q : Q) : n3 (qvec ROps (qneg q)) = n3 (qvec ROps q).
Proof. exact (n3_vneg (qvec ROps q)). Qed.
Lemma qneg_involutive (q : Q) : qneg (qneg q) = q.
Proof. destruct q as [w x y z]. unfold qneg. simpl. f_equal; lra. Qed.
Lemma qnorm2_neg (q : Q) : qnorm2 (qneg q) = qnorm2 q.
Proof. unfold qnorm2, qneg. simpl. lra. Qed.

Definition qscale (k : R) (q : Q) : Q := mkQR (k * qw q) (k * qx q) (k * qy q) (k * qz q).
Lemma qnorm2_scale k (v : Q) : qnorm2 (qscale k v) = k * k * qnorm2 v.
Proof. unfold qnorm2, qscale. simpl. lra. Qed.
Lemma qscale_0 (v : Q) : qscale 0 v = mkQR 0 0 0 0.
Proof. unfold qscale. f_equal; lra. Qed.
Lemma qscale_scale k l (v : Q) : qscale k (qscale l v) = qscale (k * l) v.
Proof. unfold qscale. simpl. f_equal; lra. Qed.
Lemma qscale_nonzero k (v : Q) : qnorm2 (qscale k v) <> 0 -> k <> 0.
Proof. intros H ->. apply H. rewrite qscale_0. unfold qnorm2. simpl. lra. Qed.
Lemma unit_scale_pm (v : Q) k : qnorm2 v = 1 -> qnorm2 (qscale k v) = 1 -> qscale k v = v \/ qscale k v = qneg v.
Proof.
  intros Hv Hk. rewrite qnorm2_scale, Hv in Hk.
  assert (H0 : (k - 1) * (k + 1) = 0) by lra. apply Rmult_integral in H0.
  destruct v as [a b c d]. unfold qscale, qneg. simpl.
  destruct H0 as [H0|H0]; [left; replace k with 1 by lra | right; replace k with (-1) by lra]; f_equal; lra.
Qed.

Definition qdot (a b : Q) : R := qw a * qw b + qx a * qx b + qy a * qy b + qz a * qz b.
Lemma qdot_self (q : Q) : qdot q q = qnorm2 q.
Proof. reflexivity. Qed.
Lemma qdot_scale_r (c : Q) k (v : Q) : qdot c (qscale k v) = k * qdot c v.
Proof. unfold qdot, qscale. simpl. lra. Qed.
(* Cauchy-Schwarz in R^4 through Lagrange's identity *)
Lemma cs4 (p x : Q) : qdot p x * qdot p x <= qnorm2 p * qnorm2 x.
Proof.
  destruct p as [a b c d]. destruct x as [e f g h]. unfold qdot, qnorm2. simpl.
  assert (E : (a * a + b * b + c * c + d * d) * (e * e + f * f + g * g + h * h) - (a * e + b * f + c * g + d * h) * (a * e + b * f + c * g + d * h)
              = (a * f - b * e)² + (a * g - c * e)² + (a * h - d * e)² + (b * g - c * f)² + (b * h - d * f)² + (c * h - d * g)²)
    by (unfold Rsqr; lra).
  pose proof (Rle_0_sqr (a * f - b * e)). pose proof (Rle_0_sqr (a * g - c * e)). pose proof (Rle_0_sqr (a * h - d * e)).
  pose proof (Rle_0_sqr (b * g - c * f)). pose proof (Rle_0_sqr (b * h - d * f)). pose proof (Rle_0_sqr (c * h - d * g)). lra.
Qed.

Definition qsubs (u : Q) (al : R) (c : Q) : Q :=
  mkQR (qw u - al * qw c) (qx u - al * qx c) (qy u - al * qy c) (qz u - al * qz c).
Lemma qdot_qsubs q u al c : qdot q (qsubs u al c) = qdot q u - al * qdot q c.
Proof. unfold qdot, qsubs. simpl. lra. Qed.
Lemma qnorm2_qsubs (u : Q) al (c : Q) :
  qnorm2 (qsubs u al c) = qnorm2 u - 2 * al * qdot c u + al * al * qnorm2 c.
Proof. unfold qnorm2, qsubs, qdot. simpl. lra. Qed.
Lemma sumsq4_zero p q r s : p * p + q * q + r * r + s * s = 0 -> p = 0 /\ q = 0 /\ r = 0 /\ s = 0.
Proof. intros H. repeat split; nra. Qed.
Lemma qnorm2_zero (v : Q) : qnorm2 v = 0 -> v = mkQR 0 0 0 0.
Proof.
  unfold qnorm2. intros H. apply sumsq4_zero in H. destruct H as [H0 [H1 [H2 H3]]].
  destruct v as [a b c d]. simpl in *. now subst.
Qed.
Lemma qsubs_zero (u : Q) al (c : Q) : qnorm2 (qsubs u al c) = 0 -> u = qscale al c.
Proof.
  unfold qnorm2, qsubs. simpl. intros H. apply sumsq4_zero in H. destruct H as [H0 [H1 [H2 H3]]].
  destruct u as [a b c' d]. unfold qscale. simpl in *. f_equal; lra.
Qed.
(* u is a multiple of the unit quaternion c exactly when u - (c . u) c vanishes *)
Lemma parallel_dec (c u : Q) : qnorm2 c = 1 -> (exists k, u = qscale k c) \/ (forall k, u <> qscale k c).
Proof.
  intros Hc. destruct (Req_dec (qnorm2 (qsubs u (qdot c u) c)) 0) as [E|E].
  - left. exists (qdot c u). now apply qsubs_zero.
  - right. intros k ->. apply E. rewrite qdot_scale_r, qdot_self, Hc, Rmult_1_r.
    unfold qnorm2, qsubs, qscale. simpl. lra.
Qed.

Lemma q_to_rv_R (q : Q) : q_to_rv ROps q =
  if Rltb cut (n3 (qvec ROps q)) then
    if Rltb (qw q) 0 then vsd (- 2 * acos (- qw q)) (qvec ROps q) (n3 (qvec ROps q))
    else vsd (2 * acos (qw q)) (qvec ROps q) (n3 (qvec ROps q))
  else V0.
Proof. unfold q_to_rv. rewrite two_R. reflexivity. Qed.
Lemma q_to_rv_zone (q : Q) : n3 (qvec ROps q) <= cut -> q_to_rv ROps q = V0.
Proof. intros H. now rewrite q_to_rv_R, (proj2 (Rltb_false _ _) H). Qed.
Lemma q_to_rv_pos (q : Q) : cut < n3 (qvec ROps q) -> 0 <= qw q ->
  q_to_rv ROps q = vsd (2 * acos (qw q)) (qvec ROps q) (n3 (qvec ROps q)).
Proof. intros H Hw. now rewrite q_to_rv_R, (proj2 (Rltb_true _ _) H), (proj2 (Rltb_false _ _) Hw). Qed.
Lemma q_to_rv_neg (q : Q) : cut < n3 (qvec ROps q) -> qw q < 0 ->
  q_to_rv ROps q = vsd (- 2 * acos (- qw q)) (qvec ROps q) (n3 (qvec ROps q)).
Proof. intros H Hw. now rewrite q_to_rv_R, (proj2 (Rltb_true _ _) H), (proj2 (Rltb_true _ _) Hw). Qed.
(* the branch for a negative real part is the other branch at -q *)
Lemma q_to_rv_qneg (q : Q) : qw q < 0 -> q_to_rv ROps (qneg q) = q_to_rv ROps q.
Proof.
  intros Hn. rewrite !q_to_rv_R, n3_qvec_neg, qvec_neg. cbn [qw qneg].
  rewrite (proj2 (Rltb_true _ _) Hn), (proj2 (Rltb_false (- qw q) 0)) by lra.
  destruct (Rltb cut (n3 (qvec ROps q))); [|reflexivity]. rewrite vsd_neg. f_equal. lra.
Qed.
Lemma double_cover (q : Q) : qw q <> 0 -> q_to_rv ROps (qneg q) = q_to_rv ROps q.
Proof.
  intros Hw. destruct (Rlt_dec (qw q) 0) as [Hn|Hp]; [now apply q_to_rv_qneg|].
  rewrite <- (qneg_involutive q) at 2. symmetry. apply q_to_rv_qneg. simpl. lra.
Qed.
Lemma acos_le_PI2 w : 0 <= w <= 1 -> acos w <= PI / 2.
Proof.
  intros Hw. pose proof (acos_bound w) as [A1 A2]. pose proof PI_RGT_0.
  destruct (Rle_dec (acos w) (PI / 2)) as [|Hgt]; [assumption|]. exfalso.
  assert (cos (acos w) < 0) by (apply cos_lt_0; lra). rewrite cos_acos in H0 by lra. lra.
Qed.

Lemma rv_to_q_R (r : V) : rv_to_q ROps r =
  if Rltb cut (n3 r)
  then mkQR (cos (n3 r / 2)) (sin (n3 r / 2) * vx r / n3 r) (sin (n3 r / 2) * vy r / n3 r) (sin (n3 r / 2) * vz r / n3 r)
  else Q1.
Proof. unfold rv_to_q. rewrite two_R. reflexivity. Qed.
Lemma rv_to_q_zone (r : V) : n3 r <= cut -> rv_to_q ROps r = Q1.
Proof. intros H. now rewrite rv_to_q_R, (proj2 (Rltb_false _ _) H). Qed.
Lemma exp_V0 : rv_to_q ROps V0 = Q1.
Proof. apply rv_to_q_zone. rewrite n3_V0. exact (Rlt_le _ _ cut_pos). Qed.
Lemma log_Q1 : q_to_rv ROps Q1 = V0.
Proof. apply q_to_rv_zone. change (qvec ROps Q1) with V0. rewrite n3_V0. exact (Rlt_le _ _ cut_pos). Qed.
Lemma rv_to_q_big (r : V) : cut < n3 r ->
  rv_to_q ROps r = mkQR (cos (n3 r / 2)) (sin (n3 r / 2) * vx r / n3 r) (sin (n3 r / 2) * vy r / n3 r) (sin (n3 r / 2) * vz r / n3 r).
Proof. intros H. now rewrite rv_to_q_R, (proj2 (Rltb_true _ _) H). Qed.
Lemma qw_exp r : cut < n3 r -> qw (rv_to_q ROps r) = cos (n3 r / 2).
Proof. intros H. now rewrite rv_to_q_big. Qed.
Lemma qvec_exp r : cut < n3 r -> qvec ROps (rv_to_q ROps r) = vsd (sin (n3 r / 2)) r (n3 r).
Proof. intros H. now rewrite rv_to_q_big. Qed.
(* vector norm of exp r is |sin(|r|/2)| *)
Lemma n3_exp_vec_abs r : cut < n3 r -> n3 (qvec ROps (rv_to_q ROps r)) = Rabs (sin (n3 r / 2)).
Proof. intros H. pose proof cut_pos. rewrite qvec_exp by assumption. apply n3_vsd. lra. Qed.
Lemma n3_exp_vec r : cut < n3 r -> n3 r <= 2 * PI ->
  n3 (qvec ROps (rv_to_q ROps r)) = sin (n3 r / 2).
Proof.
  intros H Hpi. pose proof cut_pos. rewrite n3_exp_vec_abs by assumption. apply Rabs_pos_eq, sin_ge_0; lra.
Qed.
Lemma exp_unit r : qnorm2 (rv_to_q ROps r) = 1.
Proof.
  destruct (Rlt_dec cut (n3 r)) as [H|H].
  - rewrite qnorm2_split, n3_exp_vec_abs, rv_to_q_big by assumption. simpl.
    fold (Rsqr (Rabs (sin (n3 r / 2)))). rewrite <- Rsqr_abs.
    pose proof (sin2_cos2 (n3 r / 2)) as E. unfold Rsqr in *. lra.
  - rewrite rv_to_q_zone by lra. unfold qnorm2. simpl. lra.
Qed.

Lemma half_gt_cut x : 0 <= x -> cut < sin x -> cut < x.
Proof.
  intros Hx Hs. destruct (Req_dec x 0) as [->|Hne]; [rewrite sin_0 in Hs; pose proof cut_pos; lra|].
  pose proof (sin_lt_x x). lra.
Qed.
Lemma norm_gt_cut r : cut < sin (n3 r / 2) -> cut < n3 r.
Proof.
  intros Hs. pose proof cut_pos. pose proof (n3_nonneg r). assert (cut < n3 r / 2) by (apply half_gt_cut; lra). lra.
Qed.
Lemma log_exp r : cut < sin (n3 r / 2) -> n3 r <= PI -> q_to_rv ROps (rv_to_q ROps r) = r.
Proof.
  intros Hs Hpi. pose proof cut_pos as Hc. pose proof (n3_nonneg r) as Hn0. pose proof PI_RGT_0 as Hp.
  pose proof (norm_gt_cut r Hs) as Hn.
  assert (Hv : n3 (qvec ROps (rv_to_q ROps r)) = sin (n3 r / 2)) by (apply n3_exp_vec; lra).
  rewrite q_to_rv_pos; [|lra|rewrite qw_exp by assumption; apply cos_ge_0; lra].
  rewrite Hv, qw_exp, qvec_exp, acos_cos by (assumption || lra).
  replace (2 * (n3 r / 2)) with (n3 r) by lra. apply vsd_inv; lra.
Qed.
Lemma log_exp_zone r : sin (n3 r / 2) <= cut -> n3 r <= 2 * PI -> q_to_rv ROps (rv_to_q ROps r) = V0.
Proof.
  intros Hs Hpi. pose proof cut_pos. destruct (Rlt_dec cut (n3 r)) as [H1|H1].
  - apply q_to_rv_zone. rewrite n3_exp_vec by lra. exact Hs.
  - rewrite rv_to_q_zone by lra. exact log_Q1.
Qed.

Lemma cut_range : -1 <= cut <= 1. Proof. unfold cut. lra. Qed.
Lemma x_lt_asin x : 0 < x <= 1 -> x < asin x.
Proof.
  intros Hx. pose proof (asin_bound x) as [A1 A2]. pose proof PI_RGT_0.
  assert (Hs : sin (asin x) = x) by (apply sin_asin; lra).
  assert (0 < asin x) by (apply sin_increasing_0; try lra; rewrite sin_0, Hs; lra).
  pose proof (sin_lt_x (asin x)). lra.
Qed.
Lemma cut_lt_asin : cut < asin cut.
Proof. apply x_lt_asin. unfold cut. lra. Qed.
Lemma asin_cut_pos : 0 < asin cut.
Proof. pose proof cut_lt_asin. pose proof cut_pos. lra. Qed.
(* inside the cut-off zone |r| <= 2 asin(1e-4) *)
Lemma zone_norm_bound r : n3 r <= PI -> sin (n3 r / 2) <= cut -> n3 r <= 2 * asin cut.
Proof.
  intros Hpi Hs. pose proof (n3_nonneg r). pose proof PI_RGT_0. pose proof (asin_bound cut) as [A1 A2].
  assert (n3 r / 2 <= asin cut); [|lra]. apply sin_incr_0; try lra. now rewrite sin_asin by apply cut_range.
Qed.
(* the exact dichotomy, and the error bound for every |r| <= PI *)
Lemma log_exp_cases r : n3 r <= PI ->
  (cut < sin (n3 r / 2) /\ q_to_rv ROps (rv_to_q ROps r) = r) \/
  (sin (n3 r / 2) <= cut /\ n3 r <= 2 * asin cut /\ q_to_rv ROps (rv_to_q ROps r) = V0).
Proof.
  intros Hpi. pose proof PI_RGT_0. destruct (Rlt_dec cut (sin (n3 r / 2))) as [H1|H1].
  - left. split; [assumption | now apply log_exp].
  - right. split; [lra|]. split; [apply zone_norm_bound; lra | apply log_exp_zone; lra].
Qed.
Lemma log_exp_error_bound r : n3 r <= PI -> vdist (q_to_rv ROps (rv_to_q ROps r)) r <= 2 * asin cut.
Proof.
  intros Hpi. destruct (log_exp_cases r Hpi) as [[_ E]|[_ [Hb E]]]; rewrite E.
  - rewrite vdist_refl. pose proof asin_cut_pos. lra.
  - now rewrite vdist_V0.
Qed.

(* the first alternating-series bound of the standard library: numeric bounds on sin are then checked on a
   cubic in small rationals *)
Lemma sin_ge_cubic a : 0 <= a <= PI -> a - a ^ 3 / 6 <= sin a.
Proof.
  intros Ha. destruct (sin_bound a 0) as [L _]; [lra | lra |].
  unfold sin_approx, sin_term in L. simpl in L. lra.
Qed.
Lemma example_log_exp_premises : let r := mkVR 1 0 0 in cut < sin (n3 r / 2) /\ n3 r <= PI.
Proof.
  simpl. rewrite n3_axis by lra. pose proof PI2_1 as Hp. unfold PI2 in Hp. pose proof PI_RGT_0. split; [|lra].
  pose proof (sin_ge_cubic (1 / 2)) as L. unfold cut. lra.
Qed.

Lemma qmul_R (a b : Q) : qmul ROps a b =
  mkQR (qw a * qw b - qx a * qx b - qy a * qy b - qz a * qz b)
       (qw a * qx b + qx a * qw b + qy a * qz b - qz a * qy b)
       (qw a * qy b + qy a * qw b + qz a * qx b - qx a * qz b)
       (qw a * qz b + qz a * qw b + qx a * qy b - qy a * qx b).
Proof. reflexivity. Qed.
Lemma qconj_R (q : Q) : qconj ROps q = mkQR (qw q) (- qx q) (- qy q) (- qz q).
Proof. reflexivity. Qed.
Lemma qnorm2_mul a b : qnorm2 (qmul ROps a b) = qnorm2 a * qnorm2 b.
Proof. rewrite qmul_R. unfold qnorm2. simpl. lra. Qed.
Lemma qmul_assoc a b c : qmul ROps (qmul ROps a b) c = qmul ROps a (qmul ROps b c).
Proof. rewrite !qmul_R. simpl. f_equal; lra. Qed.
Lemma qmul_conj_r q : qmul ROps q (qconj ROps q) = mkQR (qnorm2 q) 0 0 0.
Proof. rewrite qmul_R, qconj_R. unfold qnorm2. simpl. f_equal; lra. Qed.
Lemma qmul_cancel_r e q : qnorm2 q = 1 -> qmul ROps (qmul ROps e q) (qconj ROps q) = e.
Proof.
  intros H. rewrite qmul_assoc, qmul_conj_r, H. destruct e as [w x y z]. rewrite qmul_R. simpl. f_equal; lra.
Qed.
Lemma qmul_neg_l a b : qmul ROps (qneg a) b = qneg (qmul ROps a b).
Proof. rewrite !qmul_R. unfold qneg. simpl. f_equal; lra. Qed.
Lemma qmul_Q1_r (a : Q) : qmul ROps a Q1 = a.
Proof. destruct a. rewrite qmul_R. unfold Q1. simpl. f_equal; lra. Qed.

Lemma sum_unit q r : qnorm2 q = 1 -> qnorm2 (qsum_one ROps q r) = 1.
Proof. intros H. unfold qsum_one. rewrite qnorm2_mul, exp_unit, H. lra. Qed.
Lemma left_convention_diff (e q : Q) : qnorm2 q = 1 -> qdiff_one ROps (qmul ROps e q) q = q_to_rv ROps e.
Proof. intros H. unfold qdiff_one. now rewrite qmul_cancel_r. Qed.
Lemma diff_sum_one q r : qnorm2 q = 1 ->
  qdiff_one ROps (qsum_one ROps q r) q = q_to_rv ROps (rv_to_q ROps r).
Proof. exact (left_convention_diff (rv_to_q ROps r) q). Qed.
Lemma diff_sum_round_trip q r : qnorm2 q = 1 -> cut < sin (n3 r / 2) -> n3 r <= PI ->
  qdiff_one ROps (qsum_one ROps q r) q = r.
Proof. intros H H1 H2. rewrite diff_sum_one by assumption. now apply log_exp. Qed.
Lemma diff_sum_error_bound q r : qnorm2 q = 1 -> n3 r <= PI ->
  vdist (qdiff_one ROps (qsum_one ROps q r) q) r <= 2 * asin cut.
Proof. intros H H1. rewrite diff_sum_one by assumption. now apply log_exp_error_bound. Qed.

Notation M4 := (mat4 ROps).
(* sum_k w_k q_k[i] q_k[j] *)
Fixpoint osum (l : list (R * Q)) (i j : nat) : R :=
  match l with
  | [] => 0
  | wq :: l' => fst wq * qcomp ROps (snd wq) i * qcomp ROps (snd wq) j + osum l' i j
  end.
Lemma outer_fold l (M0 : M4) i j : fold_left (outer_acc ROps) l M0 i j = M0 i j + osum l i j.
Proof.
  revert M0. induction l as [|wq l IH]; intros M0; simpl; [lra|].
  rewrite IH. unfold outer_acc, add, mul. simpl. lra.
Qed.
Lemma outer_sum_R w qs i j : outer_sum ROps w qs i j = osum (combine w qs) i j.
Proof. unfold outer_sum. rewrite outer_fold. simpl. lra. Qed.
Lemma osum_sym l i j : osum l i j = osum l j i.
Proof. induction l; simpl; [reflexivity|]. rewrite IHl. lra. Qed.
Lemma mat4_rows_ext (A B : M4) : (forall i j, A i j = B i j) -> mat4_rows ROps A = mat4_rows ROps B.
Proof. intros H. apply map_ext. intros i. apply map_ext. intros j. apply H. Qed.
Lemma qmean_ext eig w qs w' qs' :
  (forall i j, osum (combine w' qs') i j = osum (combine w qs) i j) ->
  qmean ROps eig w' qs' = qmean ROps eig w qs.
Proof.
  intros H. unfold qmean. f_equal. apply mat4_rows_ext. intros i j. now rewrite !outer_sum_R.
Qed.

(* sign flips of any subset of the inputs *)
Fixpoint flip (bs : list bool) (qs : list Q) : list Q :=
  match bs, qs with
  | b :: bs', q :: qs' => (if b then qneg q else q) :: flip bs' qs'
  | _, _ => qs
  end.
Lemma qcomp_neg q i : qcomp ROps (qneg q) i = - qcomp ROps q i.
Proof. destruct i as [|[|[|i]]]; reflexivity. Qed.
Lemma osum_flip bs w qs i j : osum (combine w (flip bs qs)) i j = osum (combine w qs) i j.
Proof.
  revert w qs. induction bs as [|b bs IH]; intros w qs; [destruct qs; reflexivity|].
  destruct qs as [|q qs]; [reflexivity|]. destruct w as [|x w]; [reflexivity|].
  simpl. rewrite IH. destruct b; [rewrite !qcomp_neg|]; lra.
Qed.
Lemma osum_perm l l' i j : Permutation l l' -> osum l' i j = osum l i j.
Proof. induction 1; simpl; try lra. Qed.

Definition mv (A : M4) (v : Q) (i : nat) : R := A i 0%nat * qw v + A i 1%nat * qx v + A i 2%nat * qy v + A i 3%nat * qz v.
Definition is_eigvec (A : M4) (v : Q) (lam : R) : Prop :=
  mv A v 0 = lam * qw v /\ mv A v 1 = lam * qx v /\ mv A v 2 = lam * qy v /\ mv A v 3 = lam * qz v.
(* v is a unit eigenvector for the largest eigenvalue of A *)
Definition max_eig_contract (A : M4) (v : Q) : Prop :=
  qnorm2 v = 1 /\ exists lam, is_eigvec A v lam /\
    forall u mu, qnorm2 u <> 0 -> is_eigvec A u mu -> mu <= lam.
Lemma mean_unit eig w qs :
  max_eig_contract (outer_sum ROps w qs) (qmean ROps eig w qs) -> qnorm2 (qmean ROps eig w qs) = 1.
Proof. intros [H _]. exact H. Qed.
(* a unit eigenvector c whose eigenvalue strictly dominates every eigen-direction off its line: whatever meets
   the contract is c or its opposite *)
Lemma dominant_line (A : M4) (c v : Q) lamc : qnorm2 c = 1 -> is_eigvec A c lamc ->
  (forall u mu, is_eigvec A u mu -> (forall k, u <> qscale k c) -> mu < lamc) ->
  max_eig_contract A v -> v = c \/ v = qneg c.
Proof.
  intros Hq Hc Hgap [Hv [lam [Hev Hmax]]].
  assert (Hle : lamc <= lam) by (apply (Hmax c); [rewrite Hq; lra | exact Hc]).
  destruct (parallel_dec c v Hq) as [[k ->]|Hn]; [now apply unit_scale_pm|].
  specialize (Hgap v lam Hev Hn). lra.
Qed.

Lemma mv_ext (A B : M4) v i : (forall j, (j < 4)%nat -> A i j = B i j) -> mv A v i = mv B v i.
Proof. intros H. unfold mv. now rewrite !H by lia. Qed.
(* eigen relations read only the 4 x 4 block *)
Lemma is_eigvec_ext4 (A B : M4) v lam :
  (forall i j, (i < 4)%nat -> (j < 4)%nat -> A i j = B i j) -> is_eigvec A v lam -> is_eigvec B v lam.
Proof. intros E. unfold is_eigvec. rewrite <- !(mv_ext A B v) by (intros; apply E; lia). auto. Qed.
Lemma is_eigvec_comp (A : M4) v lam : (forall i, mv A v i = lam * qcomp ROps v i) -> is_eigvec A v lam.
Proof. intros H. repeat split; apply H. Qed.

(* M v = sum_k w_k (q_k . v) q_k *)
Fixpoint osum_v (l : list (R * Q)) (v : Q) (i : nat) : R :=
  match l with
  | [] => 0
  | wq :: l' => fst wq * qdot (snd wq) v * qcomp ROps (snd wq) i + osum_v l' v i
  end.
Lemma mv_osum l v i : mv (osum l) v i = osum_v l v i.
Proof.
  unfold mv. induction l as [|[x q] l IH]; simpl; [lra|]. rewrite <- IH. unfold qdot. simpl. lra.
Qed.
Lemma mv_outer_sum (w : list R) (qs : list Q) v i : mv (outer_sum ROps w qs) v i = osum_v (combine w qs) v i.
Proof. rewrite (mv_ext _ (osum (combine w qs))) by (intros; apply outer_sum_R). apply mv_osum. Qed.
Lemma osum_v_app l l' v i : osum_v (l ++ l') v i = osum_v l v i + osum_v l' v i.
Proof. induction l; simpl; [lra|]. rewrite IHl. lra. Qed.

(* u^T M v for M = sum_k w_k q_k q_k^T *)
Fixpoint bil (l : list (R * Q)) (u v : Q) : R :=
  match l with
  | [] => 0
  | wq :: l' => fst wq * qdot (snd wq) u * qdot (snd wq) v + bil l' u v
  end.
Lemma bil_sym l u v : bil l u v = bil l v u.
Proof. induction l; simpl; [reflexivity|]. rewrite IHl. lra. Qed.
Lemma bil_app l l' u v : bil (l ++ l') u v = bil l u v + bil l' u v.
Proof. induction l; simpl; [lra|]. rewrite IHl. lra. Qed.
Lemma dot_osum_v l u (v : Q) :
  qw v * osum_v l u 0 + qx v * osum_v l u 1 + qy v * osum_v l u 2 + qz v * osum_v l u 3 = bil l u v.
Proof. induction l as [|[x q] l IH]; simpl; [lra|]. rewrite <- IH. unfold qdot. simpl. lra. Qed.
Lemma bil_qsubs l u al c :
  bil l (qsubs u al c) (qsubs u al c) = bil l u u - 2 * al * bil l u c + al * al * bil l c c.
Proof. induction l as [|[x q] l IH]; simpl; [lra|]. rewrite IH, !qdot_qsubs. lra. Qed.
(* an eigen-equation M u = mu u read through the bilinear form: v^T M u = mu (u . v) *)
Lemma bil_eigvec (w : list R) (qs : list Q) (u v : Q) mu : is_eigvec (outer_sum ROps w qs) u mu -> bil (combine w qs) u v = mu * qdot u v.
Proof.
  intros [E0 [E1 [E2 E3]]]. rewrite !mv_outer_sum in E0, E1, E2, E3.
  rewrite <- dot_osum_v, E0, E1, E2, E3. unfold qdot. lra.
Qed.
(* the matrix is symmetric: eigenvectors for different eigenvalues are orthogonal *)
Lemma eig_sym (w : list R) (qs : list Q) (u c : Q) mu lam :
  is_eigvec (outer_sum ROps w qs) u mu -> is_eigvec (outer_sum ROps w qs) c lam -> lam * qdot c u = mu * qdot c u.
Proof.
  intros Hu Hc. rewrite <- (bil_eigvec w qs c u lam Hc), bil_sym, (bil_eigvec w qs u c mu Hu). unfold qdot. lra.
Qed.
(* u an eigenvector, c a unit eigenvector of the same (symmetric) matrix: the part x = u - (c . u) c of u
   orthogonal to c has x^T M x = mu |x|^2, because (c . u) is zero or the two eigenvalues agree *)
Lemma eig_orth_part (w : list R) (qs : list Q) (u c : Q) mu lamc :
  qnorm2 c = 1 -> is_eigvec (outer_sum ROps w qs) u mu -> is_eigvec (outer_sum ROps w qs) c lamc ->
  qdot c (qsubs u (qdot c u) c) = 0 /\
  bil (combine w qs) (qsubs u (qdot c u) c) (qsubs u (qdot c u) c) = mu * qnorm2 (qsubs u (qdot c u) c).
Proof.
  intros Hc Hu Hcc. pose proof (eig_sym w qs u c mu lamc Hu Hcc) as Hsym.
  split.
  - rewrite qdot_qsubs, qdot_self, Hc. lra.
  - rewrite bil_qsubs, qnorm2_qsubs, (bil_eigvec w qs u u mu Hu), (bil_eigvec w qs u c mu Hu), (bil_eigvec w qs c c lamc Hcc).
    rewrite !qdot_self.
    replace (qdot u c) with (qdot c u) by (unfold qdot; lra). rewrite Hc.
    generalize (qdot c u) Hsym. intros al Hs.
    replace (al * al * (lamc * 1)) with (al * (lamc * al)) by lra. rewrite Hs. lra.
Qed.

(* all inputs are +-q *)
Definition all_pm (q : Q) (qs : list Q) : Prop := Forall (fun p => p = q \/ p = qneg q) qs.
Fixpoint wtot (w : list R) (qs : list Q) : R :=
  match w, qs with
  | x :: w', _ :: qs' => x + wtot w' qs'
  | _, _ => 0
  end.

(* the accumulated matrix is then W q q^T *)
Lemma outer_sum_all_pm q w qs i j : all_pm q qs ->
  outer_sum ROps w qs i j = wtot w qs * qcomp ROps q i * qcomp ROps q j.
Proof.
  intros H. rewrite outer_sum_R. revert w. induction H as [|p qs Hp Hq IH]; intros [|x w]; simpl; try lra.
  rewrite IH. destruct Hp as [->| ->]; [lra|]. rewrite !qcomp_neg. lra.
Qed.

(* inputs placed symmetrically around a centre: qc, a_j * qc, conj(a_j) * qc with equal weights
   (the sigma-point layout: exp(d_j / 2) and exp(-d_j / 2) = conj(exp(d_j / 2))) *)
Definition sym_quats (qc : Q) (al : list Q) : list Q :=
  qc :: map (fun a => qmul ROps a qc) al ++ map (fun a => qmul ROps (qconj ROps a) qc) al.
Definition sym_weights (w0 : R) (ws : list R) : list R := w0 :: ws ++ ws.
Fixpoint sym_coef (ws : list R) (al : list Q) : R :=
  match ws, al with
  | x :: ws', a :: al' => x * (qw a * qw a) + sym_coef ws' al'
  | _, _ => 0
  end.
Lemma sym_quats_Q1 al : sym_quats Q1 al = Q1 :: al ++ map (qconj ROps) al.
Proof.
  unfold sym_quats. rewrite (map_ext _ (fun a => a)) by (intros; apply qmul_Q1_r).
  rewrite (map_ext (fun a => qmul ROps (qconj ROps a) Q1) (qconj ROps)) by (intros; apply qmul_Q1_r).
  now rewrite map_id.
Qed.
(* a pair a qc, conj(a) qc: both have the component Re(a) |qc|^2 along qc, and they add up to 2 Re(a) qc *)
Lemma qdot_mul_self (a c : Q) : qdot (qmul ROps a c) c = qw a * qnorm2 c.
Proof. rewrite qmul_R. unfold qdot, qnorm2. simpl. lra. Qed.
Lemma qcomp_mul_conj (a c : Q) i :
  qcomp ROps (qmul ROps a c) i + qcomp ROps (qmul ROps (qconj ROps a) c) i = 2 * qw a * qcomp ROps c i.
Proof. rewrite !qmul_R, qconj_R. destruct i as [|[|[|i]]]; simpl; lra. Qed.
Lemma sym_pairs ws al (qc : Q) i :
  osum_v (combine ws (map (fun a => qmul ROps a qc) al)) qc i +
  osum_v (combine ws (map (fun a => qmul ROps (qconj ROps a) qc) al)) qc i =
  2 * sym_coef ws al * qnorm2 qc * qcomp ROps qc i.
Proof.
  revert al. induction ws as [|x ws IH]; intros [|a al]; cbn [map combine osum_v sym_coef fst snd]; try lra.
  rewrite !qdot_mul_self. change (qw (qconj ROps a)) with (qw a).
  pose proof (f_equal (Rmult (x * qw a * qnorm2 qc)) (qcomp_mul_conj a qc i)) as Hi. specialize (IH al). lra.
Qed.
Lemma sym_centre_eigvec (qc : Q) w0 ws al : length ws = length al ->
  is_eigvec (outer_sum ROps (sym_weights w0 ws) (sym_quats qc al)) qc (qnorm2 qc * (w0 + 2 * sym_coef ws al)).
Proof.
  intros Hlen. apply is_eigvec_comp. intros i. rewrite mv_outer_sum. unfold sym_weights, sym_quats. simpl.
  rewrite combine_app by now rewrite map_length. rewrite osum_v_app, sym_pairs.
  unfold qdot, qnorm2. lra.
Qed.
Lemma sym_centre_unit_eigvec (qc : Q) w0 ws al : qnorm2 qc = 1 -> length ws = length al ->
  is_eigvec (outer_sum ROps (sym_weights w0 ws) (sym_quats qc al)) qc (w0 + 2 * sym_coef ws al).
Proof. intros Hq Hlen. pose proof (sym_centre_eigvec qc w0 ws al Hlen) as Hc. now rewrite Hq, Rmult_1_l in Hc. Qed.
(* dominance under an explicit eigen-gap premise: every eigen-direction other than the centre's has a
   strictly smaller eigenvalue *)
Lemma mean_symmetric_partial eig (qc : Q) w0 ws al :
  qnorm2 qc = 1 -> length ws = length al ->
  let A := outer_sum ROps (sym_weights w0 ws) (sym_quats qc al) in
  let m := qmean ROps eig (sym_weights w0 ws) (sym_quats qc al) in
  max_eig_contract A m ->
  (forall u mu, is_eigvec A u mu -> (forall k, u <> qscale k qc) -> mu < w0 + 2 * sym_coef ws al) ->
  m = qc \/ m = qneg qc.
Proof.
  intros Hq Hlen A m Hm Hgap.
  exact (dominant_line A qc m _ Hq (sym_centre_unit_eigvec qc w0 ws al Hq Hlen) Hgap Hm).
Qed.

(* one symmetric pair, seen from a direction x orthogonal to the centre *)
Lemma pair_bound (a qc x : Q) : qdot qc x = 0 -> qnorm2 qc = 1 ->
  qdot (qmul ROps a qc) x * qdot (qmul ROps a qc) x +
  qdot (qmul ROps (qconj ROps a) qc) x * qdot (qmul ROps (qconj ROps a) qc) x
  <= 2 * (qnorm2 a - qw a * qw a) * qnorm2 x.
Proof.
  intros Ho Hq. set (p := qmul ROps (mkQR 0 (qx a) (qy a) (qz a)) qc).
  assert (E1 : qdot (qmul ROps a qc) x = qw a * qdot qc x + qdot p x)
    by (unfold p; rewrite !qmul_R; unfold qdot; simpl; lra).
  assert (E2 : qdot (qmul ROps (qconj ROps a) qc) x = qw a * qdot qc x - qdot p x)
    by (unfold p; rewrite !qmul_R, qconj_R; unfold qdot; simpl; lra).
  assert (Ep : qnorm2 p = (qnorm2 a - qw a * qw a) * qnorm2 qc)
    by (unfold p; rewrite qmul_R; unfold qnorm2; simpl; lra).
  rewrite E1, E2, Ho. pose proof (cs4 p x) as Hcs. rewrite Ep, Hq in Hcs. lra.
Qed.
Fixpoint vcoef (ws : list R) (al : list Q) : R :=
  match ws, al with
  | x :: ws', a :: al' => x * (qnorm2 a - qw a * qw a) + vcoef ws' al'
  | _, _ => 0
  end.
Lemma sym_rayleigh_bound ws al (qc x : Q) : qdot qc x = 0 -> qnorm2 qc = 1 -> Forall (fun w => 0 < w) ws ->
  bil (combine ws (map (fun a => qmul ROps a qc) al)) x x +
  bil (combine ws (map (fun a => qmul ROps (qconj ROps a) qc) al)) x x <= 2 * vcoef ws al * qnorm2 x.
Proof.
  intros Ho Hq Hw. revert al. induction Hw as [|w ws Hw0 Hws IH]; intros [|a al]; simpl; try lra.
  specialize (IH al). pose proof (pair_bound a qc x Ho Hq) as Hp.
  apply (Rmult_le_compat_l w) in Hp; [|lra]. lra.
Qed.

(* a unit offset turning by less than a quarter turn: Re(a)^2 = cos^2(angle/2) > 1/2 *)
Definition tight (a : Q) : Prop := qnorm2 a = 1 /\ 1 / 2 < qw a * qw a.
Lemma vcoef_le_sym_coef ws al : Forall (fun w => 0 < w) ws -> Forall tight al -> vcoef ws al <= sym_coef ws al.
Proof.
  intros Hw. revert al. induction Hw as [|w ws Hw0 Hws IH]; intros [|a al] Ha; simpl; try lra.
  inversion Ha as [|a' al' [Hn Ht] Hal]; subst. specialize (IH al Hal). rewrite Hn. nra.
Qed.
Lemma vcoef_lt_sym_coef ws al : Forall (fun w => 0 < w) ws -> Forall tight al -> ws <> [] -> al <> [] ->
  vcoef ws al < sym_coef ws al.
Proof.
  intros Hw Ha Hne1 Hne2. destruct ws as [|w ws]; [contradiction|]. destruct al as [|a al]; [contradiction|].
  simpl. inversion Hw; subst. inversion Ha as [|a' al' [Hn Ht] Hal]; subst.
  pose proof (vcoef_le_sym_coef ws al H2 Hal). rewrite Hn. nra.
Qed.
(* the eigen-gap from an explicit margin, whatever the sign of the central weight: on the complement of the
   centre the Rayleigh quotient only sees the vector parts of the offsets (the central term w0 (qc . x)^2 vanishes) *)
Lemma sym_gap_resultant (qc : Q) w0 ws al :
  qnorm2 qc = 1 -> length ws = length al -> Forall (fun w => 0 < w) ws ->
  2 * vcoef ws al < w0 + 2 * sym_coef ws al ->
  forall u mu, is_eigvec (outer_sum ROps (sym_weights w0 ws) (sym_quats qc al)) u mu ->
               (forall k, u <> qscale k qc) -> mu < w0 + 2 * sym_coef ws al.
Proof.
  intros Hq Hlen Hws Hprem u mu Hu Hnp.
  pose proof (sym_centre_unit_eigvec qc w0 ws al Hq Hlen) as Hc.
  destruct (eig_orth_part _ _ u qc mu _ Hq Hu Hc) as [Hox Bxx].
  set (x := qsubs u (qdot qc u) qc) in *.
  assert (Hb : bil (combine (sym_weights w0 ws) (sym_quats qc al)) x x <= 2 * vcoef ws al * qnorm2 x).
  { unfold sym_weights, sym_quats. simpl. rewrite combine_app by now rewrite map_length.
    rewrite bil_app, Hox. pose proof (sym_rayleigh_bound ws al qc x Hox Hq Hws). lra. }
  assert (Hxpos : 0 < qnorm2 x).
  { destruct (Req_dec (qnorm2 x) 0) as [E|E].
    - exfalso. apply (Hnp (qdot qc u)). now apply qsubs_zero.
    - pose proof (qnorm2_nonneg x). lra. }
  assert (Hmu : mu <= 2 * vcoef ws al) by (apply (Rmult_le_reg_r (qnorm2 x)); [assumption | lra]).
  lra.
Qed.
(* non-negative central weight, offsets closer than a quarter turn: the margin holds *)
Lemma sym_gap (qc : Q) w0 ws al :
  qnorm2 qc = 1 -> length ws = length al -> 0 <= w0 -> Forall (fun w => 0 < w) ws -> Forall tight al ->
  (0 < w0 \/ al <> []) ->
  forall u mu, is_eigvec (outer_sum ROps (sym_weights w0 ws) (sym_quats qc al)) u mu ->
               (forall k, u <> qscale k qc) -> mu < w0 + 2 * sym_coef ws al.
Proof.
  intros Hq Hlen Hw0 Hws Hal Hne. apply sym_gap_resultant; try assumption.
  pose proof (vcoef_le_sym_coef ws al Hws Hal) as Hle. destruct Hne as [Hp|Hp]; [lra|].
  assert (ws <> []) by (intros ->; destruct al; [contradiction | discriminate]).
  pose proof (vcoef_lt_sym_coef ws al Hws Hal H Hp). lra.
Qed.
