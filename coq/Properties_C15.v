(* Properties_C15.v — property C15: the Gaussian density utilities agree with
   their definition and with each other; log-sum-exp.  The theorems rest on
   C15_RProofs (log_sum_exp, over Coq's reals: the four standard real-number
   axioms) and on C15_Proofs (densities, over any realFieldType with ln/exp/pi
   uninterpreted: no axioms). *)
Require Import ZArith QArith Reals List.
Require Import BFL.Ops BFL.ListOps BFL.Density BFL.C15_Model.
Require Import BFL.C19_ROps BFL.C15_ROps BFL.C15_RProofs.

(* World B: utils::log_sum_exp (utils.h:71-77), the model function lse *)
Section C15_lse.
Import ListNotations.
Local Open Scope R_scope.
Variables (x0 : R) (l : list R).       (* the data: a non-empty vector x0 :: l *)

(* log_sum_exp(x) = ln (sum_i exp x_i) *)
Theorem C15_lse_spec : lse (Sc:=ROps) x0 l = ln (sumR (map exp (x0 :: l))).
Proof. exact (lse_spec x0 l). Qed.

(* adding a constant to every entry adds it to the result *)
Theorem C15_lse_shift (c : R) :
  lse (Sc:=ROps) (x0 + c) (map (fun a => a + c) l) = lse (Sc:=ROps) x0 l + c.
Proof. exact (lse_shift x0 l c). Qed.

(* the value subtracted (data.maxCoeff()) is an entry and dominates every entry *)
Theorem C15_lse_max_is_entry :
  In (smaxl ROps x0 l) (x0 :: l) /\ forall a, In a (x0 :: l) -> a <= smaxl ROps x0 l.
Proof. exact (smaxl_R_spec x0 l). Qed.

(* no overflow, whatever the magnitude of the entries: every argument of exp is
   <= 0, one of them is 0, so the argument of ln lies in [1, n] *)
Theorem C15_lse_no_overflow :
  let sh := lse_shifted (Sc:=ROps) x0 l in
  (forall e, In e sh -> e <= 0) /\ In 0 sh /\
  1 <= sumR (map exp sh) <= INR (length (x0 :: l)) /\
  lse (Sc:=ROps) x0 l = smaxl ROps x0 l + ln (sumR (map exp sh)).
Proof.
  intros sh. destruct (lse_shifted_R_spec x0 l) as [H1 H2].
  split; [exact H1|]. split; [exact H2|]. split.
  - replace (length (x0 :: l)) with (length sh) by apply map_length.
    exact (sum_exp_nonpos_bounds sh H1 H2).
  - rewrite lse_R_unfold. unfold sh, lse_shifted. rewrite map_map. reflexivity.
Qed.
End C15_lse.

(* entries -inf (NInf) beside at least one finite entry: the same model function at
   the extended instance EOps returns the finite value ln (sum over the finite
   entries of exp x_i); "= Fin _" excludes +inf and NaN (Bad is absorbing), and
   every argument of exp is -inf or a real <= 0 *)
Theorem C15_lse_neginf (e0 : ext) (el : list ext) :
  no_bad (e0 :: el) -> fins (e0 :: el) <> nil ->
  lse (Sc:=EOps) e0 el = Fin (ln (sumR (map exp (fins (e0 :: el))))) /\
  forall e, In e (lse_shifted (Sc:=EOps) e0 el) ->
            e = NInf \/ exists r, e = Fin r /\ (r <= 0)%R.
Proof.
  intros Hnb Hne. destruct (fins (e0 :: el)) as [|x t] eqn:Hf; [congruence|]. split.
  - rewrite (lse_E_fins _ _ _ _ Hnb Hf). f_equal. apply lse_spec.
  - unfold lse_shifted. rewrite (smaxl_E_fins _ _ _ _ Hnb Hf).
    destruct (smaxl_R_spec x t) as [_ Hle]. intros e He.
    apply in_map_iff in He. destruct He as [a [<- Ha]].
    destruct a as [|y|]; [left; reflexivity | right | exfalso; exact (Hnb Bad Ha eq_refl)].
    exists (y - smaxl ROps x t)%R. split; [reflexivity|].
    assert (Hy : In y (x :: t)) by (rewrite <- Hf; exact (fins_in _ _ Ha)).
    exact (Rle_minus _ _ (Hle y Hy)).
Qed.

(* shift law with -inf entries present (finite shift c; -inf + c = -inf) *)
Theorem C15_lse_neginf_shift (e0 : ext) (el : list ext) (c : R) :
  no_bad (e0 :: el) -> fins (e0 :: el) <> nil ->
  lse (Sc:=EOps) (e_add e0 (Fin c)) (map (fun a => e_add a (Fin c)) el)
  = e_add (lse (Sc:=EOps) e0 el) (Fin c).
Proof.
  intros Hnb Hne. destruct (fins (e0 :: el)) as [|x t] eqn:Hf; [congruence|].
  pose proof (no_bad_shift c _ Hnb) as Hnb'. pose proof (fins_shift c (e0 :: el)) as Hf'.
  rewrite Hf in Hf'. simpl map in Hnb', Hf'.
  rewrite (lse_E_fins _ _ _ _ Hnb Hf), (lse_E_fins _ _ _ _ Hnb' Hf'), lse_shift.
  reflexivity.
Qed.

(* the premise "at least one finite entry" cannot be dropped: all -inf gives NaN *)
Theorem C15_lse_all_neginf_is_nan (el : list ext) :
  (forall a, In a el -> a = NInf) -> lse (Sc:=EOps) NInf el = Bad.
Proof.
  intros H. unfold lse, ssum. rewrite (emax_all_ninf el H). simpl.
  rewrite efold_bad. reflexivity.
Qed.

Example C15_lse_premises_satisfiable :
  no_bad (NInf :: Fin 1 :: NInf :: Fin (-10000) :: nil) /\
  fins (NInf :: Fin 1 :: NInf :: Fin (-10000) :: nil) = (1 :: (-10000) :: nil)%R.
Proof. split; [intros a [<-|[<-|[<-|[<-|[]]]]]; discriminate | reflexivity]. Qed.

(* World A: the density utilities (utils.h:296-450) *)
From mathcomp Require Import ssreflect ssrfun ssrbool eqtype ssrnat seq choice fintype bigop order ssralg ssrnum zmodp matrix mxalgebra div.
Require Import BFL.MxOps BFL.LinAlg BFL.C15_Proofs.
Import GRing.Theory.
Local Open Scope ring_scope.

Section C15_algebra.
Variable F : realFieldType.
Variables (d k : nat) (R : 'M[F]_d) (U : 'M[F]_(d,k)) (V : 'M[F]_(k,d)).
Hypothesis uR : R \in unitmx.

(* matrix determinant lemma, general U : d x k, V : k x d *)
Theorem C15_det_lemma : \det (U *m V + R) = \det R * \det (1%:M + V *m invmx R *m U).
Proof. exact: det_lemma. Qed.

Hypothesis uS : U *m V + R \in unitmx.

(* derived: the k x k matrix the code inverts is invertible *)
Theorem C15_capacitance_invertible : 1%:M + V *m invmx R *m U \in unitmx.
Proof. exact: capacitance_unit. Qed.

(* Woodbury identity, as a quadratic form *)
Theorem C15_woodbury (x : 'cV[F]_d) :
  x^T *m invmx (U *m V + R) *m x =
  x^T *m invmx R *m (1%:M - U *m invmx (1%:M + V *m invmx R *m U) *m (V *m invmx R)) *m x.
Proof. exact: woodbury_quadform. Qed.
End C15_algebra.

Section C15_density.
Variable F : realFieldType.
Variable tr : Transc F.
Variable sq : forall n, 'M[F]_n -> 'M[F]_n.
Variable eg : forall n, 'M[F]_n -> 'M[F]_(n,1).
Let O := MxMat tr sq eg.

(* num_blocks nb, block_size bs > 0, input size d = nb * bs, k columns of U, batch b *)
Variables (bs nb k b : nat).
Hypothesis bs0 : (0 < bs)%N.
Notation d := (nb * bs)%N.
Variables (input : M O d b) (mean : M O d 1) (U : M O d k) (V : M O k d).

(* block t of R as the code reads it (C15_Proofs.blk): R itself when R.cols() = block_size,
   else R.block(0, bs*t, bs, bs) *)
Notation blk R := (blk (tr:=tr) (sq:=sq) (eg:=eg) R).

(* what the assembled block-diagonal matrix is, entry by entry *)
Theorem C15_blockdiag_entries rc (R : M O bs rc) (i j : 'I_d) :
  (blockdiag (O:=O) d R : 'M[F]_d) i j =
  if (i %/ bs == j %/ bs)%N then mx_get (blk R (i %/ bs)%N) (i %% bs)%N (j %% bs)%N else 0.
Proof. by rewrite (blockdiag_BD (tr:=tr) (sq:=sq) (eg:=eg) nb bs0 R) mxE. Qed.

(* its inverse is assembled from the code's inv_R (same side-by-side layout) *)
Theorem C15_blockdiag_inverse rc (R : M O bs rc) :
  (forall t, (t < nb)%N -> blk R t \in unitmx) ->
  (blockdiag (O:=O) d R : 'M[F]_d) \in unitmx /\
  invmx (blockdiag (O:=O) d R : 'M[F]_d) = blockdiag (O:=O) d (uvr_inv_R (O:=O) d nb R).
Proof.
move=> uB; split; first exact: (Rd_unit bs0 uB).
rewrite (Rd_inv bs0 uB) (blockdiag_BD (tr:=tr) (sq:=sq) (eg:=eg) nb bs0 (uvr_inv_R (O:=O) d nb R)).
apply: BD_ext => t tn; rewrite blk_per_block // /uvr_R_block.
by rewrite (inv_R_slice (tr:=tr) (sq:=sq) (eg:=eg) bs0 R tn).
Qed.

(* its determinant is the code's det_R (pow for a shared block, running product otherwise) *)
Theorem C15_blockdiag_det rc (R : M O bs rc) :
  \det (blockdiag (O:=O) d R : 'M[F]_d) = uvr_det_R (O:=O) nb R.
Proof. exact: Rd_det. Qed.

(* det_S of the factorised form is det (U V + blockdiag R) *)
Theorem C15_uvr_det rc (R : M O bs rc) :
  (forall t, (t < nb)%N -> blk R t \in unitmx) ->
  uvr_det_S (O:=O) U V R = \det (assembled_S (O:=O) U V R : 'M[F]_d).
Proof. move=> uB; exact: (uvr_det_S_eq bs0 U V uB). Qed.

(* the factorised log-density equals the direct one on the assembled covariance,
   per evaluation point, for any width rc of R *)
Theorem C15_uvr_eq_direct rc (R : M O bs rc) :
  (forall t, (t < nb)%N -> blk R t \in unitmx) ->
  (assembled_S (O:=O) U V R : 'M[F]_d) \in unitmx ->
  forall i, (i < b)%N ->
    List.nth i (log_density_uvr (O:=O) input mean U V R) 0 =
    log_density (O:=O) (mcol (O:=O) i input) mean (assembled_S (O:=O) U V R).
Proof. move=> uB uS i ib; exact: (uvr_eq_direct bs0 input mean uB uS ib). Qed.

(* R = all diagonal blocks side by side (bs x nb*bs) *)
Theorem C15_uvr_eq_direct_per_block (R : M O bs d) :
  (forall t, (t < nb)%N -> (uvr_R_block (O:=O) R t : 'M[F]_bs) \in unitmx) ->
  (assembled_S (O:=O) U V R : 'M[F]_d) \in unitmx ->
  forall i, (i < b)%N ->
    List.nth i (log_density_uvr (O:=O) input mean U V R) 0 =
    log_density (O:=O) (mcol (O:=O) i input) mean (assembled_S (O:=O) U V R).
Proof.
move=> uB uS i ib; apply: (uvr_eq_direct bs0 input mean _ uS ib) => t tn.
by rewrite blk_per_block //; exact: uB.
Qed.

(* R = one block shared by all diagonal positions (bs x bs) *)
Theorem C15_uvr_eq_direct_shared (R : M O bs bs) :
  (R : 'M[F]_bs) \in unitmx ->
  (assembled_S (O:=O) U V R : 'M[F]_d) \in unitmx ->
  forall i, (i < b)%N ->
    List.nth i (log_density_uvr (O:=O) input mean U V R) 0 =
    log_density (O:=O) (mcol (O:=O) i input) mean (assembled_S (O:=O) U V R).
Proof.
move=> uR uS i ib; apply: (uvr_eq_direct bs0 input mean _ uS ib) => t tn.
by rewrite blk_shared.
Qed.

(* the common use, V = U^T with symmetric positive definite blocks (any encoding):
   the assembled covariance is SPD and every premise above is derived *)
Theorem C15_sym_factor_assembled_spd rc (R : M O bs rc) :
  (forall t, (t < nb)%N -> spd (blk R t)) ->
  spd (assembled_S (O:=O) U (mtr (m:=d) (n:=k) U) R : 'M[F]_d).
Proof. exact: assembled_sym_factor_spd. Qed.

Theorem C15_uvr_eq_direct_sym_factor rc (R : M O bs rc) :
  (forall t, (t < nb)%N -> spd (blk R t)) ->
  forall i, (i < b)%N ->
    List.nth i (log_density_uvr (O:=O) input mean U (mtr (m:=d) (n:=k) U) R) 0 =
    log_density (O:=O) (mcol (O:=O) i input) mean (assembled_S (O:=O) U (mtr (m:=d) (n:=k) U) R).
Proof.
move=> sB i ib; apply: (uvr_eq_direct bs0) => // [t tn|].
- exact: spd_unit (sB t tn).
- exact: spd_unit (assembled_sym_factor_spd bs0 U sB).
Qed.

(* the k x k matrix the factorised form inverts is invertible (derived) *)
Theorem C15_uvr_capacitance_invertible rc (R : M O bs rc) :
  (forall t, (t < nb)%N -> blk R t \in unitmx) ->
  (assembled_S (O:=O) U V R : 'M[F]_d) \in unitmx ->
  (uvr_I_V_inv_R_U (O:=O) (uvr_V_inv_R (O:=O) V (uvr_inv_R (O:=O) d nb R)) U : 'M[F]_k) \in unitmx.
Proof. move=> uB uS; exact: (uvr_capacitance_unit bs0 uB uS). Qed.

(* the arguments of ln are positive, derived from positive definiteness (ln itself is
   uninterpreted here; in the float/real reading it is applied inside its domain):
   direct form, factorised form, det_R, and the V = U^T case with no premise on S *)
Theorem C15_direct_logdet_guard (cov : M O d d) : spd (cov : 'M[F]_d) -> 0 < (mdet cov : F).
Proof. exact: spd_det_gt0. Qed.

Theorem C15_uvr_logdet_guard rc (R : M O bs rc) :
  (forall t, (t < nb)%N -> blk R t \in unitmx) ->
  spd (assembled_S (O:=O) U V R : 'M[F]_d) -> 0 < (uvr_det_S (O:=O) U V R : F).
Proof. by move=> uB sS; rewrite (uvr_det_S_eq bs0 U V uB); exact: spd_det_gt0. Qed.

Theorem C15_uvr_det_R_guard rc (R : M O bs rc) :
  (forall t, (t < nb)%N -> spd (blk R t)) -> 0 < (uvr_det_R (O:=O) nb R : F).
Proof using bs0. (* 0 < bs stands among the premises of the statement; this proof does not need it *)
by move=> sB; rewrite det_R_eq -BD_det; apply: spd_det_gt0; exact: BD_spd.
Qed.

Theorem C15_uvr_logdet_guard_sym_factor rc (R : M O bs rc) :
  (forall t, (t < nb)%N -> spd (blk R t)) ->
  0 < (uvr_det_S (O:=O) U (mtr (m:=d) (n:=k) U) R : F).
Proof.
move=> sB; rewrite (uvr_det_S_eq bs0 U _ (fun t tn => spd_unit (sB t tn))).
exact: spd_det_gt0 (assembled_sym_factor_spd bs0 U sB).
Qed.

(* the clause as worded: the factorised variants return the same values as the direct
   ones for the assembled S -- densities per evaluation point, log-densities as whole lists *)
Theorem C15_density_uvr_eq_direct rc (R : M O bs rc) :
  (forall t, (t < nb)%N -> blk R t \in unitmx) ->
  (assembled_S (O:=O) U V R : 'M[F]_d) \in unitmx ->
  forall i, (i < b)%N ->
    List.nth i (density_uvr (O:=O) input mean U V R) (t_exp tr 0) =
    List.nth i (density_mat (O:=O) input mean (assembled_S (O:=O) U V R)) (t_exp tr 0).
Proof. by move=> uB uS i _; rewrite /density_uvr (log_density_uvr_eq_mat bs0 input mean uB uS). Qed.

Theorem C15_log_density_uvr_eq_direct_batch rc (R : M O bs rc) :
  (forall t, (t < nb)%N -> blk R t \in unitmx) ->
  (assembled_S (O:=O) U V R : 'M[F]_d) \in unitmx ->
  log_density_uvr (O:=O) input mean U V R =
  log_density_mat (O:=O) input mean (assembled_S (O:=O) U V R).
Proof. move=> uB uS; exact: (log_density_uvr_eq_mat bs0 input mean uB uS). Qed.

(* densities are the exponentials of the log-densities, entry by entry, one per evaluation point *)
Theorem C15_density_uvr_exp rc (R : M O bs rc) i :
  List.nth i (density_uvr (O:=O) input mean U V R) (t_exp tr 0) =
  t_exp tr (List.nth i (log_density_uvr (O:=O) input mean U V R) 0).
Proof. exact: density_uvr_exp. Qed.

Theorem C15_density_exp (cov : M O d d) i :
  List.nth i (density_mat (O:=O) input mean cov) (t_exp tr 0) =
  t_exp tr (List.nth i (log_density_mat (O:=O) input mean cov) 0).
Proof. exact: density_mat_exp. Qed.

Theorem C15_batch_lengths rc (R : M O bs rc) (cov : M O d d) :
  length (log_density_uvr (O:=O) input mean U V R) = b /\
  length (log_density_mat (O:=O) input mean cov) = b /\
  length (density_uvr (O:=O) input mean U V R) = b /\
  length (density_mat (O:=O) input mean cov) = b.
Proof.
by rewrite log_density_uvr_length log_density_mat_length density_uvr_length density_mat_length.
Qed.

(* the direct log-density is -1/2 (d ln 2pi + ln det S + delta^T S^-1 delta), column by column *)
Theorem C15_logdensity_def (cov : M O d d) i (lt : (i < b)%N) :
  let delta := col (Ordinal lt) (input : 'M[F]_(d,b)) - (mean : 'cV[F]_d) in
  List.nth i (log_density_mat (O:=O) input mean cov) 0 =
  - 2%:R^-1 * (d%:R * t_ln tr (2%:R * t_pi tr) + t_ln tr (\det (cov : 'M[F]_d))
               + (delta^T *m invmx (cov : 'M[F]_d) *m delta) 0 0).
Proof. exact: log_density_mat_def. Qed.

(* non-vacuity: identity blocks with U = V = 0 satisfy the premises in every shape *)
Example C15_premises_satisfiable :
  ((1%:M : 'M[F]_bs) \in unitmx) /\
  ((assembled_S (O:=O) (0 : 'M[F]_(d,k)) (0 : 'M[F]_(k,d)) (1%:M : 'M[F]_bs) : 'M[F]_d) \in unitmx).
Proof. by rewrite assembled_01 // !unitmx1. Qed.

End C15_density.

(* The EXECUTED model is the theorem-level model (C15_Transport.v): the list instance
   that is extracted and run (ListOps.v: lists of rows, Gauss-Jordan inverse and
   determinant), over the scalars of any realFieldType, returns on well-formed inputs
   (repr: m rows of n entries, read as the MathComp matrix) exactly the values of the
   MathComp instance the theorems above are about.  Every matrix the factorised form
   inverts -- each diagonal block of R, I + V R^-1 U -- and the assembled S of the direct
   form is proved invertible from the positive-definiteness premises; nothing about the
   Gauss-Jordan routine is assumed (ListGauss.v).                                      *)
Require Import BFL.ListOpsCorrect BFL.C02_Transport BFL.C15_Transport.

Section C15_executed.
Variable F : realFieldType.
Variable tr : Transc F.
Variable sq : forall n, 'M[F]_n -> 'M[F]_n.
Variable eg : forall n, 'M[F]_n -> 'M[F]_(n,1).
Let OL := ListMat (FOps tr) (fun _ X => X) (fun _ X => X).    (* = C15_Extract.c15_O (FOps tr) *)
Let OM := MxMat tr sq eg.
Notation repr m n l A := (@C02_Transport.repr F m n l A) (only parsing).
Variables (bs nb k b : nat).
Hypothesis bs0 : (0 < bs)%N.
Notation d := (nb * bs)%N.
Variables (li : lmxF F) (input : 'M[F]_(d,b)) (lm : lmxF F) (mean : 'cV[F]_d).
Variables (lU : lmxF F) (U : 'M[F]_(d,k)) (lV : lmxF F) (V : 'M[F]_(k,d)).
Hypothesis ri : repr d b li input.
Hypothesis rm : repr d 1 lm mean.
Hypothesis rU : repr d k lU U.
Hypothesis rV : repr k d lV V.
Notation blk R := (blk (tr:=tr) (sq:=sq) (eg:=eg) R).

(* factorised log-density and density, any width rc of R: whole result lists *)
Theorem C15_executed_uvr_is_theorem_model rc lR (R : 'M[F]_(bs,rc)) :
  repr bs rc lR R ->
  (forall t, (t < nb)%N -> spd (blk (R : M OM bs rc) t)) ->
  spd (assembled_S (O:=OM) U V (R : M OM bs rc) : 'M[F]_d) ->
  @log_density_uvr OL d b k bs rc li lm lU lV lR = @log_density_uvr OM d b k bs rc input mean U V R /\
  @density_uvr OL d b k bs rc li lm lU lV lR = @density_uvr OM d b k bs rc input mean U V R.
Proof. move=> rR sB sS; exact: (uvr_executed_is_model bs0 ri rm rU rV rR sB sS). Qed.

(* R in full: all diagonal blocks side by side (bs x nb*bs) *)
Theorem C15_executed_uvr_full_R_is_theorem_model lR (R : 'M[F]_(bs,d)) :
  repr bs d lR R ->
  (forall t, (t < nb)%N -> spd (uvr_R_block (O:=OM) (R : M OM bs d) t : 'M[F]_bs)) ->
  spd (assembled_S (O:=OM) U V (R : M OM bs d) : 'M[F]_d) ->
  @log_density_uvr OL d b k bs d li lm lU lV lR = @log_density_uvr OM d b k bs d input mean U V R /\
  @density_uvr OL d b k bs d li lm lU lV lR = @density_uvr OM d b k bs d input mean U V R.
Proof. move=> rR sB sS; exact: (uvr_executed_is_model_full_R bs0 ri rm rU rV rR sB sS). Qed.

(* R as one block shared by all diagonal positions (bs x bs) *)
Theorem C15_executed_uvr_shared_R_is_theorem_model lR (R : 'M[F]_bs) :
  repr bs bs lR R -> spd R ->
  spd (assembled_S (O:=OM) U V (R : M OM bs bs) : 'M[F]_d) ->
  @log_density_uvr OL d b k bs bs li lm lU lV lR = @log_density_uvr OM d b k bs bs input mean U V R /\
  @density_uvr OL d b k bs bs li lm lU lV lR = @density_uvr OM d b k bs bs input mean U V R.
Proof. move=> rR sR sS; exact: (uvr_executed_is_model_shared_R bs0 ri rm rU rV rR sR sS). Qed.

(* V = U^T: positive definite blocks are the only premise (S is then SPD, derived) *)
Theorem C15_executed_uvr_sym_factor_is_theorem_model rc lR (R : 'M[F]_(bs,rc)) :
  repr bs rc lR R ->
  (forall t, (t < nb)%N -> spd (blk (R : M OM bs rc) t)) ->
  @log_density_uvr OL d b k bs rc li lm lU (@mtr OL d k lU) lR
  = @log_density_uvr OM d b k bs rc input mean U (@mtr OM d k U) R /\
  @density_uvr OL d b k bs rc li lm lU (@mtr OL d k lU) lR
  = @density_uvr OM d b k bs rc input mean U (@mtr OM d k U) R.
Proof. move=> rR sB; exact: (uvr_executed_is_model_sym_factor bs0 ri rm rU rR sB). Qed.

(* end to end: the executed factorised log-density, and the executed direct one applied to the
   executed assembly of S, are the theorem-level direct log-density of S = U V + blockdiag(R)
   (C15_logdensity_def: -1/2 (d ln 2pi + ln det S + delta^T S^-1 delta)), per evaluation point *)
Theorem C15_executed_uvr_is_direct_definition rc lR (R : 'M[F]_(bs,rc)) i :
  repr bs rc lR R ->
  (forall t, (t < nb)%N -> spd (blk (R : M OM bs rc) t)) ->
  spd (assembled_S (O:=OM) U V (R : M OM bs rc) : 'M[F]_d) ->
  (i < b)%N ->
  List.nth i (@log_density_uvr OL d b k bs rc li lm lU lV lR) 0 =
  @log_density OM d (@mcol OM d b i input) mean (@assembled_S OM d k bs rc U V R) /\
  List.nth i (@log_density_mat OL d b li lm (@assembled_S OL d k bs rc lU lV lR)) 0 =
  @log_density OM d (@mcol OM d b i input) mean (@assembled_S OM d k bs rc U V R).
Proof. move=> rR sB sS ib; exact: (uvr_executed_is_direct_definition bs0 ri rm rU rV rR sB sS ib). Qed.

(* the direct forms on a batch, any SPD covariance *)
Theorem C15_executed_direct_is_theorem_model lc (cov : 'M[F]_d) :
  repr d d lc cov -> spd cov ->
  @log_density_mat OL d b li lm lc = @log_density_mat OM d b input mean cov /\
  @density_mat OL d b li lm lc = @density_mat OM d b input mean cov.
Proof. move=> rc sc; exact: (direct_executed_is_model tr sq eg ri rm rc sc). Qed.

End C15_executed.

(* non-vacuity of the premises above, in every shape: identity block, U = V = 0 *)
Example C15_executed_premises_satisfiable (F : realFieldType) (tr : Transc F)
        (sq : forall n, 'M[F]_n -> 'M[F]_n) (eg : forall n, 'M[F]_n -> 'M[F]_(n,1)) bs nb k (bs0 : (0 < bs)%N) :
  let OL := ListMat (FOps tr) (fun _ X => X) (fun _ X => X) in
  let OM := MxMat tr sq eg in
  [/\ @C02_Transport.repr F bs bs (@mid OL bs) (1%:M : 'M[F]_bs),
      @C02_Transport.repr F (nb * bs) k (@mzero OL (nb * bs) k) (0 : 'M[F]_(nb * bs, k)),
      spd (1%:M : 'M[F]_bs) &
      spd (@assembled_S OM (nb * bs) k bs bs (0 : 'M[F]_(nb * bs, k)) (0 : 'M[F]_(k, nb * bs)) (1%:M : 'M[F]_bs) : 'M[F]_(nb * bs))].
Proof. exact: uvr_transport_premises_satisfiable. Qed.

(* the executable instance of the same model over exact rationals (ln, exp are
   the identity there, pi = 3: only congruence matters): factorised = direct on
   the assembled S, with two different 2x2 blocks, V <> U^T, a batch of two points *)
Definition QM := ListMat QOps (fun _ A => A) (fun _ A => A).
Fixpoint qlist_eqb (a b : list Q) : bool :=
  match a, b with
  | nil, nil => true
  | x :: a', y :: b' => Qeq_bool x y && qlist_eqb a' b'
  | _, _ => false
  end.

Example C15_concrete_per_block_Q :
  let input := [:: [:: 1#1; 0#1]; [:: 2#1; -1#1]; [:: 0#1; 3#1]; [:: -1#2; 1#1]]%Q in
  let mean := [:: [:: 1#2]; [:: 1#1]; [:: 0#1]; [:: -1#1]]%Q in
  let Um := [:: [:: 1#1]; [:: 2#1]; [:: 0#1]; [:: -1#1]]%Q in
  let Vm := [:: [:: 1#1; 1#2; 0#1; 1#3]]%Q in
  let Rm := [:: [:: 2#1; 1#1; 3#1; 0#1]; [:: 1#1; 3#1; 0#1; 5#1]]%Q in
  let S := @assembled_S QM 4 1 2 4 Um Vm Rm in
  qmx_eqb S [:: [:: 3#1; 3#2; 0#1; 1#3]; [:: 3#1; 4#1; 0#1; 2#3];
                [:: 0#1; 0#1; 3#1; 0#1]; [:: -1#1; -1#2; 0#1; 14#3]]%Q
  && qlist_eqb (@log_density_uvr QM 4 2 1 2 4 input mean Um Vm Rm)
               (@log_density_mat QM 4 2 input mean S) = true.
Proof. vm_compute. reflexivity. Qed.

(* shared encoding: one 2x2 block for three diagonal positions, k = 2 *)
Example C15_concrete_shared_Q :
  let input := [:: [:: 1#1]; [:: 0#1]; [:: 2#1]; [:: -1#1]; [:: 1#3]; [:: 0#1]]%Q in
  let mean := [:: [:: 0#1]; [:: 1#1]; [:: 1#1]; [:: 0#1]; [:: 0#1]; [:: 2#1]]%Q in
  let Um := [:: [:: 1#1; 0#1]; [:: 0#1; 1#1]; [:: 1#1; 1#1]; [:: 0#1; 0#1]; [:: 2#1; 0#1]; [:: 0#1; -1#1]]%Q in
  let Vm := [:: [:: 1#1; 0#1; 1#1; 0#1; 2#1; 0#1]; [:: 0#1; 1#1; 1#1; 0#1; 0#1; -1#1]]%Q in
  let Rm := [:: [:: 2#1; 1#1]; [:: 1#1; 1#1]]%Q in
  let S := @assembled_S QM 6 2 2 2 Um Vm Rm in
  qlist_eqb (@log_density_uvr QM 6 1 2 2 2 input mean Um Vm Rm)
            (@log_density_mat QM 6 1 input mean S) = true.
Proof. vm_compute. reflexivity. Qed.

(* the executable inverse / determinant of the list instance (Gauss-Jordan with partial
   pivoting, ListOps.linv / ldet -- what the correspondence check runs in doubles) against
   exact rational results, sizes 1..6, with zero leading entries so that rows are swapped *)
Example C15_gauss_jordan_exact_Q :
  let A1 := [:: [:: -1#1]]%Q in
  let A2 := [:: [:: 0#1; -2#1]; [:: -4#1; -1#1]]%Q in
  let A3 := [:: [:: 0#1; 1#3; 1#2]; [:: 1#1; 0#1; -1#2]; [:: 1#1; 0#1; -1#3]]%Q in
  let A4 := [:: [:: 0#1; -1#1; 1#3; 1#3]; [:: 2#1; 0#1; -1#1; 4#1]; [:: -2#1; 4#3; -2#1; -1#1]; [:: -4#1; 3#2; 2#1; -1#1]]%Q in
  let A5 := [:: [:: 0#1; 0#1; -1#1; 2#3; 1#3]; [:: -3#2; 0#1; -1#1; 2#3; -2#1]; [:: -3#2; -3#1; 3#1; 0#1; 1#1]; [:: 3#1; 4#1; 3#1; 3#1; 3#2]; [:: -3#1; -2#1; 2#3; 1#1; 0#1]]%Q in
  let A6 := [:: [:: 0#1; 2#3; -2#1; 2#1; -1#1; -1#3]; [:: 2#1; 0#1; 1#3; 1#1; 1#1; 1#1]; [:: -2#1; 1#1; -1#1; -3#2; 1#3; 4#3]; [:: -1#1; -4#1; -2#3; -2#1; 2#1; 1#3]; [:: -1#1; 4#3; -1#1; 1#1; -2#1; 1#1]; [:: 0#1; -2#1; 3#1; -3#1; 0#1; -1#1]]%Q in
  let ok n A D := qmx_eqb (lmul QOps n n n A (linv QOps n A)) (lid QOps n)
                  && qmx_eqb (lmul QOps n n n (linv QOps n A) A) (lid QOps n)
                  && Qeq_bool (ldet QOps n A) D in
  ok 1%N A1 (-1#1)%Q && ok 2%N A2 (-8#1)%Q && ok 3%N A3 (-1#18)%Q && ok 4%N A4 (-376#9)%Q
  && ok 5%N A5 (-2419#36)%Q && ok 6%N A6 (2299#27)%Q = true.
Proof.
(* [ok] mentions linv n A twice: bind it, so that it is evaluated once per matrix *)
move=> A1 A2 A3 A4 A5 A6 ok.
pose ok1 n A D := let W := linv QOps n A in
  qmx_eqb (lmul QOps n n n A W) (lid QOps n) && qmx_eqb (lmul QOps n n n W A) (lid QOps n)
  && Qeq_bool (ldet QOps n A) D.
change ok with ok1.
vm_compute. reflexivity.
Qed.

Print Assumptions C15_lse_spec.
Print Assumptions C15_lse_shift.
Print Assumptions C15_lse_max_is_entry.
Print Assumptions C15_lse_no_overflow.
Print Assumptions C15_lse_neginf.
Print Assumptions C15_lse_neginf_shift.
Print Assumptions C15_lse_all_neginf_is_nan.
Print Assumptions C15_det_lemma.
Print Assumptions C15_capacitance_invertible.
Print Assumptions C15_woodbury.
Print Assumptions C15_blockdiag_entries.
Print Assumptions C15_blockdiag_inverse.
Print Assumptions C15_blockdiag_det.
Print Assumptions C15_uvr_det.
Print Assumptions C15_uvr_eq_direct.
Print Assumptions C15_uvr_eq_direct_per_block.
Print Assumptions C15_uvr_eq_direct_shared.
Print Assumptions C15_sym_factor_assembled_spd.
Print Assumptions C15_uvr_eq_direct_sym_factor.
Print Assumptions C15_uvr_capacitance_invertible.
Print Assumptions C15_direct_logdet_guard.
Print Assumptions C15_uvr_logdet_guard.
Print Assumptions C15_uvr_det_R_guard.
Print Assumptions C15_uvr_logdet_guard_sym_factor.
Print Assumptions C15_density_uvr_eq_direct.
Print Assumptions C15_log_density_uvr_eq_direct_batch.
Print Assumptions C15_density_uvr_exp.
Print Assumptions C15_density_exp.
Print Assumptions C15_batch_lengths.
Print Assumptions C15_logdensity_def.
Print Assumptions C15_executed_uvr_is_theorem_model.
Print Assumptions C15_executed_uvr_full_R_is_theorem_model.
Print Assumptions C15_executed_uvr_shared_R_is_theorem_model.
Print Assumptions C15_executed_uvr_sym_factor_is_theorem_model.
Print Assumptions C15_executed_uvr_is_direct_definition.
Print Assumptions C15_executed_direct_is_theorem_model.
