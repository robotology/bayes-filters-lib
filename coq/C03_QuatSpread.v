(* C03_QuatSpread.v — the upper half of the smallness premises of C03_quat_affine_exact (quat_comp_ok) stated on the
   covariance alone: the trace bound (ss_blk_le) from which C03_quat_spread_from_covariance (Properties_C03_Real.v) proves the two implications below.  For the t-th rotation block let tr_t(P) = P_oo + P_(o+1)(o+1) + P_(o+2)(o+2), o = lin + 3 t.
   Whatever factor A with A A^T = P the oracle returns:
     c tr_t(P) < PI^2   implies  every rotation-vector block sqrt(c) A_[t],k is strictly within a half turn
     tr_t(P) < 2        implies  the positive weighted resultant w0 + 2 wi sum_k cos |sqrt(c) A_[t],k| > 0
                                 (also for a negative central weight; 1 - cos x <= x^2 / 2)
   What cannot be derived from the covariance is the LOWER bound of the code's exp / log pair: a block that is
   neither zero nor outside the 1e-4 cut-off zone is read back as zero (C18: bound 2 asin 1e-4), so the
   premise "zero or cut < sin(|block| / 2)" stays on the factor (rot_blocks_readable).
   Axioms: the four standard axioms of Coq's Reals. *)
Require Import ZArith Reals Lra Lia List Bool Arith.
Require Import BFL.Ops BFL.C03_Model BFL.C19_ROps BFL.C18_Model BFL.C18_Proofs BFL.C03_Real.
Require Import BFL.C03_RFun BFL.C03_Euler BFL.C03_Spread BFL.C03_QuatAlg BFL.C03_Quat.
Import ListNotations.
Local Open Scope R_scope.

Section QuatSpread.
Variables sq : nat -> fmx -> fmx.
Variables lin circ dc : nat.
Variables (c : R) (P : fmx).
Hypothesis rows : (lin + circ * 3 <= dc)%nat.
Hypothesis c_pos : 0 < c.
Hypothesis HF : factor_ok sq dc P.
Let A := sq dc P.
Let s := sqrt c.

Definition rot_trace (t : nat) : R :=
  P (lin + t * 3)%nat (lin + t * 3)%nat + P (lin + t * 3 + 1)%nat (lin + t * 3 + 1)%nat + P (lin + t * 3 + 2)%nat (lin + t * 3 + 2)%nat.

(* the part of the smallness that stays on the factor: every block is zero or outside the cut-off zone *)
Definition rot_blocks_readable : Prop :=
  forall t k, (t < circ)%nat -> (k < dc)%nat ->
    blk lin (fun j => s * A j k) t = V0 \/ cut < sin (n3 (blk lin (fun j => s * A j k) t) / 2).

Lemma ss_blk t k : ss (blk lin (fun j => s * A j k) t) =
  c * (A (lin + t * 3)%nat k * A (lin + t * 3)%nat k + A (lin + t * 3 + 1)%nat k * A (lin + t * 3 + 1)%nat k
       + A (lin + t * 3 + 2)%nat k * A (lin + t * 3 + 2)%nat k).
Proof.
  assert (Hs : s * s = c) by (unfold s; apply sqrt_sqrt; lra).
  unfold ss, blk. simpl. rewrite <- Hs. lra.
Qed.

Lemma sum_ss_blk t : (t < circ)%nat -> rsum dc (fun k => ss (blk lin (fun j => s * A j k) t)) = c * rot_trace t.
Proof.
  intros Ht. rewrite (rsum_ext dc _ (fun k => c * (A (lin + t * 3)%nat k * A (lin + t * 3)%nat k)
                                        + (c * (A (lin + t * 3 + 1)%nat k * A (lin + t * 3 + 1)%nat k)
                                        + c * (A (lin + t * 3 + 2)%nat k * A (lin + t * 3 + 2)%nat k)))).
  2:{ intros k _. rewrite ss_blk. lra. }
  rewrite !rsum_plus, !rsum_scal. unfold rot_trace.
  rewrite <- (HF (lin + t * 3)%nat (lin + t * 3)%nat), <- (HF (lin + t * 3 + 1)%nat (lin + t * 3 + 1)%nat),
          <- (HF (lin + t * 3 + 2)%nat (lin + t * 3 + 2)%nat) by lia.
  fold A. lra.
Qed.

Lemma ss_blk_le t k : (t < circ)%nat -> (k < dc)%nat -> ss (blk lin (fun j => s * A j k) t) <= c * rot_trace t.
Proof.
  intros Ht Hk. rewrite <- (sum_ss_blk t Ht).
  apply (rsum_term_le dc (fun k => ss (blk lin (fun j => s * A j k) t))); [intros; apply ss_nonneg | exact Hk].
Qed.

End QuatSpread.
