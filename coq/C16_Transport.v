(* C16_Transport.v — every model function of C16_Model.v that is extracted and run
   (C16_Extract.v: F and Q of the white-noise-acceleration model, its noise sample, motion and
   transition density, the spec-level density of the violation search, the LTI / LinearModel
   constructors with the 0/1 selector, the simulated trajectory with its serving cursor, the
   linear sensor over it with its descriptions, the grid initialiser), executed at the LIST
   instance  OL = ListMat (FOps tr) sqL egL  over the scalars of an arbitrary realFieldType and
   for ARBITRARY list-level oracles, computes a representation of what the same Gallina term
   computes at the MathComp instance  OM = MxMat tr sq eg  the C16 theorems are about.
   Premises, all per call:
     * the square-root oracles correspond ON THE MATRIX ACTUALLY FACTORED (Q of the model, R of
       the sensor) — UT_Transport.oracle_counterpart_exists shows this excludes no list oracle;
     * the transition density inverts Q by Gauss-Jordan (ListGauss.v): Q is PROVED invertible
       for T, q > 0 (C16_Proofs.wna_Q_unit), for a general covariance it is a premise.
   Built on C02_Transport.v's repr_* lemmas and rbuild / rget, UT_Transport.v and C01_Transport.v's density
   transport.  Only rounding separates the executed model from the theorem model.  The statements about
   the entry points themselves, and the questions about their axioms, are C16_executed_* in Properties_C16.v. *)
Require Import ZArith List Bool Arith.
Require Import BFL.Ops BFL.ListFacts BFL.ListOps BFL.Density BFL.C16_Model BFL.C16_ProofsSM BFL.C16_Extract.
From mathcomp Require Import ssreflect ssrfun ssrbool eqtype ssrnat seq choice fintype bigop order ssralg ssrnum zmodp matrix mxalgebra.
Require Import BFL.MxOps BFL.LinAlg BFL.ListOpsCorrect BFL.ListGauss BFL.C02_Transport BFL.C01_Transport
               BFL.UT_Transport BFL.C16_Proofs.
Set Implicit Arguments.
Unset Strict Implicit.
Unset Printing Implicit Defensive.
Import GRing.Theory Num.Theory.
Local Open Scope ring_scope.

(* relations between results of the two instances *)
Section Rel.
Variables (A B : Type) (R : A -> B -> Prop).
Definition orel (a : option A) (b : option B) : Prop :=
  match a, b with
  | Some x, Some y => R x y
  | None, None => True
  | _, _ => False
  end.
Definition srel (E : Type) (a : E + A) (b : E + B) : Prop :=
  match a, b with
  | inr x, inr y => R x y
  | inl e1, inl e2 => e1 = e2
  | _, _ => False
  end.
Lemma orel_nth_error l1 l2 k : List.Forall2 R l1 l2 -> orel (List.nth_error l1 k) (List.nth_error l2 k).
Proof. by move=> r; elim: r k => [|x y l1' l2' rxy _ IH] [|k] //=. Qed.
End Rel.

Section T.
Variable F : realFieldType.
Variable tr : Transc F.
Variable sq : forall n, 'M[F]_n -> 'M[F]_n.
Variable eg : forall n, 'M[F]_n -> 'M[F]_(n,1).
Variables sqL egL : nat -> lmxF F -> lmxF F.
Let S := FOps tr.
Let OL := ListMat S sqL egL.
Let OM := MxMat tr sq eg.
Notation repr m n l A := (@C02_Transport.repr F m n l A) (only parsing).
Local Notation rb := (rbuild tr sq eg sqL egL).
Local Notation rg := (rget tr sq eg sqL egL).
Local Notation rmul := (repr_mul tr sqL egL).
Local Notation radd := (repr_add tr sqL egL).
Local Notation rsub := (repr_msub tr sqL egL).
Local Notation rscale := (@repr_mscale F tr sqL egL).
Local Notation rzero := (repr_mzero tr sqL egL).
Local Notation rhcat := (repr_mhcat tr sqL egL).
Local Notation rvcat := (repr_mvcat tr sqL egL).
Local Notation rcol := (r_col tr sq eg sqL egL).

Lemma mof_lists_repr m n (ll : list (list F)) :
  repr m n (mof_lists OL m n ll) (mof_lists OM m n ll : 'M[F]_(m,n)).
Proof. exact: rb. Qed.

Lemma fill_colmajor_repr rows num (zs : list F) :
  repr rows num (fill_colmajor (O:=OL) rows num zs) (fill_colmajor (O:=OM) rows num zs : 'M[F]_(rows,num)).
Proof. exact: rb. Qed.

Lemma mset_repr r c lA (A : 'M[F]_(r,c)) i j (v : F) : repr r c lA A ->
  repr r c (mset (O:=OL) (r:=r) (c:=c) lA i j v) (mset (O:=OM) A i j v : 'M[F]_(r,c)).
Proof. by move=> rA; apply: rb => a b _ _; rewrite (rg rA). Qed.

Lemma set_col_repr r c lA (A : 'M[F]_(r,c)) k (v : nat -> F) : repr r c lA A ->
  repr r c (set_col (O:=OL) (r:=r) (c:=c) lA k v) (set_col (O:=OM) A k v : 'M[F]_(r,c)).
Proof. by move=> rA; apply: rb => a b _ _; rewrite (rg rA). Qed.

Lemma blocks_repr d lB (B : 'M[F]_2) : repr 2 2 lB B ->
  repr (dim_n d) (dim_n d) (blocks (O:=OL) d lB) (blocks (O:=OM) d B : 'M[F]_(dim_n d)).
Proof.
move=> rB; have rZ : repr 2 2 (Z2 OL) (Z2 OM : 'M[F]_2) by exact: rzero.
case: d => //.
- exact: (rvcat (rhcat rB rZ) (rhcat rZ rB)).
- exact: (rvcat (rhcat rB (rhcat rZ rZ)) (rvcat (rhcat rZ (rhcat rB rZ)) (rhcat rZ (rhcat rZ rB)))).
Qed.

Theorem wna_F_repr d (Ts : F) :
  repr (dim_n d) (dim_n d) (wna_F (O:=OL) d Ts) (wna_F (O:=OM) d Ts : 'M[F]_(dim_n d)).
Proof. by apply: blocks_repr; exact: mof_lists_repr. Qed.

Theorem wna_Q_repr d (Ts q : F) :
  repr (dim_n d) (dim_n d) (wna_Q (O:=OL) d Ts q) (wna_Q (O:=OM) d Ts q : 'M[F]_(dim_n d)).
Proof. by rewrite /wna_Q; apply: rscale; apply: blocks_repr; exact: mof_lists_repr. Qed.

(* the oracles correspond on the covariance actually factored *)
Definition sq_corr_Q d (Ts q : F) : Prop :=
  repr (dim_n d) (dim_n d) (sqL (dim_n d) (wna_Q (O:=OL) d Ts q))
                           (sq (wna_Q (O:=OM) d Ts q : 'M[F]_(dim_n d))).

Theorem wna_sqrtQ_repr d (Ts q : F) : sq_corr_Q d Ts q ->
  repr (dim_n d) (dim_n d) (wna_sqrtQ (O:=OL) d Ts q) (wna_sqrtQ (O:=OM) d Ts q : 'M[F]_(dim_n d)).
Proof. by []. Qed.

Theorem noise_sample_repr d lL (L : 'M[F]_d) num (zs : list F) : repr d d lL L ->
  repr d num (noise_sample (O:=OL) (d:=d) lL num zs).1 ((noise_sample (O:=OM) L num zs).1 : 'M[F]_(d,num))
  /\ (noise_sample (O:=OL) (d:=d) lL num zs).2 = (noise_sample (O:=OM) L num zs).2.
Proof. by move=> rL; split=> //=; apply: rmul => //; exact: fill_colmajor_repr. Qed.

Theorem additive_motion_repr d c lF (Fm : 'M[F]_d) lL (L : 'M[F]_d) lX (X : 'M[F]_(d,c)) (zs : list F) :
  repr d d lF Fm -> repr d d lL L -> repr d c lX X ->
  repr d c (additive_motion (O:=OL) (d:=d) (c:=c) lF lL lX zs).1
           ((additive_motion (O:=OM) Fm L X zs).1 : 'M[F]_(d,c))
  /\ (additive_motion (O:=OL) (d:=d) (c:=c) lF lL lX zs).2 = (additive_motion (O:=OM) Fm L X zs).2.
Proof.
move=> rF rL rX; rewrite /additive_motion /noise_sample /=; split=> //.
by apply: radd; apply: rmul => //; exact: fill_colmajor_repr.
Qed.

Theorem wna_noise_sample_repr d (Ts q : F) num zs : sq_corr_Q d Ts q ->
  repr (dim_n d) num (wna_noise_sample (O:=OL) d Ts q num zs).1
                     ((wna_noise_sample (O:=OM) d Ts q num zs).1 : 'M[F]_(dim_n d,num))
  /\ (wna_noise_sample (O:=OL) d Ts q num zs).2 = (wna_noise_sample (O:=OM) d Ts q num zs).2.
Proof. by move=> c; apply: noise_sample_repr; exact: wna_sqrtQ_repr. Qed.

Theorem wna_motion_repr d (Ts q : F) c lX (X : 'M[F]_(dim_n d,c)) zs : sq_corr_Q d Ts q ->
  repr (dim_n d) c lX X ->
  repr (dim_n d) c (wna_motion (O:=OL) d Ts q (c:=c) lX zs).1
                   ((wna_motion (O:=OM) d Ts q X zs).1 : 'M[F]_(dim_n d,c))
  /\ (wna_motion (O:=OL) d Ts q (c:=c) lX zs).2 = (wna_motion (O:=OM) d Ts q X zs).2.
Proof.
by move=> cq rX; exact: (additive_motion_repr zs (wna_F_repr d Ts) (wna_sqrtQ_repr cq) rX).
Qed.

Lemma density_any_oracle d lx (x : 'cV[F]_d) lmu (mu : 'cV[F]_d) lc (cov : 'M[F]_d) :
  repr d 1 lx x -> repr d 1 lmu mu -> repr d d lc cov -> cov \in unitmx ->
  density (O:=OL) (d:=d) lx lmu lc = density (O:=OM) x mu cov.
Proof. exact: (density_transport tr sq eg). Qed.

Theorem transition_probability_transport d c lF (Fm : 'M[F]_d) lQ (Q : 'M[F]_d)
        lp (prev : 'M[F]_(d,c)) lc (cur : 'M[F]_(d,c)) :
  repr d d lF Fm -> repr d d lQ Q -> repr d c lp prev -> repr d c lc cur -> Q \in unitmx ->
  transition_probability (O:=OL) (d:=d) (c:=c) lF lQ lp lc = transition_probability (O:=OM) Fm Q prev cur.
Proof.
move=> rF rQ rp rc uQ; rewrite /transition_probability.
apply: List.map_ext => j; apply: density_any_oracle => //; last exact: rzero.
by apply: rcol; apply: rsub => //; apply: rmul.
Qed.

Theorem wna_transition_probability_transport d (Ts q : F) c lp (prev : 'M[F]_(dim_n d,c)) lc (cur : 'M[F]_(dim_n d,c)) :
  0 < Ts -> 0 < q -> repr (dim_n d) c lp prev -> repr (dim_n d) c lc cur ->
  wna_transition_probability (O:=OL) d Ts q (c:=c) lp lc = wna_transition_probability (O:=OM) d Ts q prev cur.
Proof.
move=> T0 q0 rp rc; apply: transition_probability_transport => //.
- exact: wna_F_repr.
- exact: wna_Q_repr.
- exact: wna_Q_unit.
Qed.

(* the spec-level density of the violation search: N(cur_j; F prev_j, Q) pair by pair *)
Definition spec_tp (O : MatOps) (d : Dim) (Ts q : T (sc O)) (c : nat) (prev cur : M O (dim_n d) c) : list (T (sc O)) :=
  List.map (fun j => density (O:=O) (mcol (O:=O) j cur) (mmul (wna_F (O:=O) d Ts) (mcol (O:=O) j prev)) (wna_Q (O:=O) d Ts q))
           (List.seq 0 c).
Arguments spec_tp : clear implicits.

Theorem spec_tp_transport d (Ts q : F) c lp (prev : 'M[F]_(dim_n d,c)) lc (cur : 'M[F]_(dim_n d,c)) :
  0 < Ts -> 0 < q -> repr (dim_n d) c lp prev -> repr (dim_n d) c lc cur ->
  spec_tp OL d Ts q c lp lc = spec_tp OM d Ts q c prev cur.
Proof.
move=> T0 q0 rp rc; apply: List.map_ext => j; apply: density_any_oracle.
- exact: rcol.
- by apply: rmul; [exact: wna_F_repr | exact: rcol].
- exact: wna_Q_repr.
- exact: wna_Q_unit.
Qed.

Definition rel_pair m1 n1 m2 n2 (l : lmxF F * lmxF F) (A : 'M[F]_(m1,n1) * 'M[F]_(m2,n2)) : Prop :=
  repr m1 n1 l.1 A.1 /\ repr m2 n2 l.2 A.2.

Theorem lti_state_ctor_transport fr fc qr qc lF (Fm : 'M[F]_(fr,fc)) lQ (Q : 'M[F]_(qr,qc)) :
  repr fr fc lF Fm -> repr qr qc lQ Q ->
  srel (@rel_pair fr fc qr qc) (lti_state_ctor (O:=OL) (fr:=fr) (fc:=fc) (qr:=qr) (qc:=qc) lF lQ)
                               (lti_state_ctor (O:=OM) Fm Q).
Proof.
move=> rF rQ; rewrite /lti_state_ctor.
case: (is_empty fr fc) => //; case: (is_empty qr qc) => //.
by case: (negb (Nat.eqb fr fc)) => //; case: (negb (Nat.eqb qr qc)) => //; case: (negb (Nat.eqb fr qr)).
Qed.

Theorem lti_meas_ctor_transport hr hc rr rc lH (H : 'M[F]_(hr,hc)) lR (R : 'M[F]_(rr,rc)) :
  repr hr hc lH H -> repr rr rc lR R ->
  srel (@rel_pair hr hc rr rc) (lti_meas_ctor (O:=OL) (hr:=hr) (hc:=hc) (rr:=rr) (rc:=rc) lH lR)
                               (lti_meas_ctor (O:=OM) H R).
Proof.
move=> rH rR; rewrite /lti_meas_ctor.
case: (is_empty hr hc) => //; case: (is_empty rr rc) => //.
by case: (negb (Nat.eqb rr rc)) => //; case: (negb (Nat.eqb hr rr)).
Qed.

Lemma lm_fill_transport m n idxs : forall i lH (H : 'M[F]_(m,n)), repr m n lH H ->
  srel (fun l (A : 'M[F]_(m,n)) => repr m n l A)
       (lm_fill (O:=OL) (m:=m) (n:=n) i idxs lH) (lm_fill (O:=OM) i idxs H).
Proof.
elim: idxs => [|ci rest IH] i lH H rH //=.
by case: (Nat.ltb ci n) => //; apply: IH; exact: mset_repr.
Qed.

Definition rel_lm m n rr rc (l : lmxF F * lmxF F * lmxF F) (A : 'M[F]_(m,n) * 'M[F]_(rr,rc) * 'M[F]_rr) : Prop :=
  [/\ repr m n l.1.1 A.1.1, repr rr rc l.1.2 A.1.2 & repr rr rr l.2 A.2].

(* the oracles correspond on the matrix LinearModel's constructor factors *)
Definition sq_corr_R rr rc lR (R : 'M[F]_(rr,rc)) : Prop :=
  repr rr rr (sqL rr (@mbuild OL rr rr (fun i j => @mget OL rr rc lR i j)))
             (sq (@mbuild OM rr rr (fun i j => @mget OM rr rc R i j) : 'M[F]_rr)).

Theorem linear_model_ctor_transport n idxs rr rc lR (R : 'M[F]_(rr,rc)) :
  repr rr rc lR R -> sq_corr_R lR R ->
  srel (@rel_lm (length idxs) n rr rc) (linear_model_ctor (O:=OL) n idxs (rr:=rr) (rc:=rc) lR)
                                       (linear_model_ctor (O:=OM) n idxs R).
Proof.
move=> rR cR; rewrite /linear_model_ctor /lti_meas_ctor.
case: (is_empty (length idxs) n) => //; case: (is_empty rr rc) => //.
case: (negb (Nat.eqb rr rc)) => //; case: (negb (Nat.eqb (length idxs) rr)) => //.
have := lm_fill_transport idxs 0%N (rzero (length idxs) n).
by case: (lm_fill _ _ _) => [e1|lH]; case: (lm_fill _ _ _) => [e2|H].
Qed.

Section Sim.
Variable d : nat.
Variable motL : lmxF F -> list F -> lmxF F * list F.
Variable motM : 'cV[F]_d -> list F -> 'cV[F]_d * list F.
(* the motion functions correspond: representations to representations, same draws left *)
Hypothesis mot_corr : forall l (x : 'cV[F]_d) zs, repr d 1 l x ->
  repr d 1 (motL l zs).1 (motM x zs).1 /\ (motL l zs).2 = (motM x zs).2.

Notation rcols := (List.Forall2 (fun l (x : 'cV[F]_d) => repr d 1 l x)).
Notation rdata := (orel (fun l (x : 'cV[F]_d) => repr d 1 l x)).

Lemma sim_columns_transport k : forall l (x : 'cV[F]_d) zs, repr d 1 l x ->
  rcols (sim_columns (O:=OL) (d:=d) motL k l zs) (sim_columns (O:=OM) motM k x zs).
Proof.
elim: k => [|k IH] l x zs rx /=; first exact: List.Forall2_nil.
have [r1 e] := mot_corr zs rx.
case EL: (motL l zs) r1 e => [l' zl]; case EM: (motM x zs) => [x' zm] /= r1 e; rewrite e.
by apply: List.Forall2_cons => //; exact: IH.
Qed.

Definition rel_sim (sl : sim_state (O:=OL) d) (sm : sim_state (O:=OM) d) : Prop :=
  [/\ rcols (sim_target sl) (sim_target sm), sim_time sl = sim_time sm,
      sim_cur sl = sim_cur sm & rdata (sim_data sl) (sim_data sm)].

Theorem sim_ctor_transport l (x0 : 'cV[F]_d) len zs : repr d 1 l x0 ->
  srel rel_sim (sim_ctor (O:=OL) (d:=d) motL l len zs) (sim_ctor (O:=OM) motM x0 len zs).
Proof.
move=> rx; case: len => [|k] //=; split=> //=.
by apply: List.Forall2_cons => //; exact: sim_columns_transport.
Qed.

Lemma sim_step_transport sl sm op : rel_sim sl sm ->
  rel_sim (sim_step (O:=OL) sl op).1 (sim_step (O:=OM) sm op).1
  /\ (sim_step (O:=OL) sl op).2 = (sim_step (O:=OM) sm op).2.
Proof.
case: sl => tl nl cl dl; case: sm => tm nm cm dm [/= rt -> -> rd].
case: op => /=; last by split.
- case: (Nat.leb nm cm) => /=; first by split.
  by split=> //; split=> //=; exact: orel_nth_error.
- by split.
Qed.

(* the return value and getData() after every call, and the final state *)
Definition rel_out (o : bool * option (lmxF F)) (p : bool * option 'cV[F]_d) : Prop :=
  o.1 = p.1 /\ rdata o.2 p.2.

Theorem sim_run_transport ops : forall sl sm, rel_sim sl sm ->
  List.Forall2 rel_out (sim_run (O:=OL) sl ops).1 (sim_run (O:=OM) sm ops).1
  /\ rel_sim (sim_run (O:=OL) sl ops).2 (sim_run (O:=OM) sm ops).2.
Proof.
elim: ops => [|op rest IH] sl sm rs; first by split=> //; exact: List.Forall2_nil.
have [rs' eb] := sim_step_transport op rs; have [ro rf] := IH _ _ rs'.
rewrite !sim_run_cons; split=> //; apply: List.Forall2_cons => //; split=> //.
by case: rs'.
Qed.

Variable m : nat.
Notation rmeas := (orel (fun l (y : 'cV[F]_m) => repr m 1 l y)).

Definition rel_sens (sl : sens_state (O:=OL) d m) (sm : sens_state (O:=OM) d m) : Prop :=
  [/\ rel_sim (sens_sim sl) (sens_sim sm), sens_zs sl = sens_zs sm & rmeas (sens_meas sl) (sens_meas sm)].

Lemma sensor_step_transport lH (H : 'M[F]_(m,d)) lLR (LR : 'M[F]_m) sl sm op :
  repr m d lH H -> repr m m lLR LR -> rel_sens sl sm ->
  rel_sens (sensor_step (O:=OL) (d:=d) (m:=m) lH lLR sl op).1 (sensor_step (O:=OM) H LR sm op).1
  /\ (sensor_step (O:=OL) (d:=d) (m:=m) lH lLR sl op).2 = (sensor_step (O:=OM) H LR sm op).2.
Proof.
move=> rH rL [rs ez rm].
case: op; rewrite /sensor_step /sensor_freeze.
- have [] := sim_step_transport SimBuffer rs.
  case: (sim_step (sens_sim sl) SimBuffer) => sl' bl; case: (sim_step (sens_sim sm) SimBuffer) => sm' bm /= rs' <-.
  case: bl; last by split.
  have [_ _ _] := rs'; case: (sim_data sl') (sim_data sm') => [xl|] [xm|] //= rx.
  rewrite -ez; split=> //; split=> //.
  by apply: radd; apply: rmul => //; exact: fill_colmajor_repr.
- by have [rs' _] := sim_step_transport SimReset rs; split.
- by split.
Qed.

Theorem sensor_run_transport lH (H : 'M[F]_(m,d)) lLR (LR : 'M[F]_m) ops : repr m d lH H -> repr m m lLR LR ->
  forall sl sm, rel_sens sl sm ->
  List.Forall2 (fun (o : bool * option (lmxF F)) (p : bool * option 'cV[F]_m) => o.1 = p.1 /\ rmeas o.2 p.2)
               (sensor_run (O:=OL) (d:=d) (m:=m) lH lLR sl ops).1 (sensor_run (O:=OM) H LR sm ops).1
  /\ rel_sens (sensor_run (O:=OL) (d:=d) (m:=m) lH lLR sl ops).2 (sensor_run (O:=OM) H LR sm ops).2.
Proof.
move=> rH rL; elim: ops => [|op rest IH] sl sm rs; first by split=> //; exact: List.Forall2_nil.
have [rs' eb] := sensor_step_transport op rH rL rs; have [ro rf] := IH _ _ rs'.
rewrite !sensor_run_cons; split=> //; apply: List.Forall2_cons => //; split=> //.
by case: rs'.
Qed.
End Sim.

Lemma argmax_from_ext (f g : nat -> F) : (forall j, f j = g j) -> forall k j best bv,
  argmax_from (O:=OL) f j k best bv = argmax_from (O:=OM) g j k best bv.
Proof. by move=> E; elim=> [|k IH] j best bv //=; rewrite E; case: ifP => _; exact: IH. Qed.

Lemma row_argmax_abs_transport m n lH (H : 'M[F]_(m,n)) i : repr m n lH H ->
  row_argmax_abs (O:=OL) (m:=m) (n:=n) lH i = row_argmax_abs (O:=OM) H i.
Proof.
case: n lH H => [|k] lH H rH //; rewrite /row_argmax_abs (rg rH).
by apply: argmax_from_ext => j; rewrite (rg rH).
Qed.

Theorem sensor_descriptions_transport m n lH (H : 'M[F]_(m,n)) sd nr : repr m n lH H ->
  sensor_descriptions (O:=OL) (m:=m) (n:=n) lH sd nr = sensor_descriptions (O:=OM) H sd nr.
Proof.
move=> rH; rewrite /sensor_descriptions.
rewrite (@fold_left_ext_in _ _ _
  (fun acc i => if Nat.ltb (row_argmax_abs (O:=OM) H i) (desc_linear_size (desc_add_noise sd nr))
                then (Datatypes.S (fst acc), snd acc) else (fst acc, Datatypes.S (snd acc)))) //.
by move=> acc i _; rewrite (row_argmax_abs_transport i rH).
Qed.

Definition rel_grid r np (l : lmxF F * lmxF F) (A : 'M[F]_(r,np) * 'cV[F]_np) : Prop :=
  repr r np l.1 A.1 /\ repr np 1 l.2 A.2.

Theorem grid_initialize_rows_transport (xinf xsup yinf ysup : F) nx ny r np lst (st : 'M[F]_(r,np)) lw (w : 'cV[F]_np) :
  repr r np lst st ->
  orel (@rel_grid r np)
       (grid_initialize_rows (O:=OL) xinf xsup yinf ysup nx ny (r:=r) (np:=np) lst lw)
       (grid_initialize_rows (O:=OM) xinf xsup yinf ysup nx ny st w).
Proof.
move=> rs; rewrite /grid_initialize_rows.
case: (negb (Nat.eqb np _)) => //; case: (negb (Nat.eqb r 4)) => //=; split=> /=; last exact: repr_mconst.
elim: (grid_pairs nx ny) lst st rs => [|p ps IH] lst st rs //=.
by apply: IH; exact: set_col_repr.
Qed.

End T.

(* non-vacuity of the oracle premises: with the identity as square-root oracle at both levels
   (UT_Transport.id_sqL / id_sq) the correspondence premises hold for every Dim, T, q and every
   represented R; and for ANY list-level oracle that keeps well-formedness a matrix-level
   counterpart exists (UT_Transport.oracle_counterpart_exists) *)
Lemma sq_corr_Q_id (F : realFieldType) (tr : Transc F) eg egL d (Ts q : F) :
  @sq_corr_Q F tr (@id_sq F) eg (@id_sqL F) egL d Ts q.
Proof. exact: (wna_Q_repr tr (@id_sq F) eg (@id_sqL F) egL). Qed.

Lemma sq_corr_R_id (F : realFieldType) (tr : Transc F) eg egL rr rc lR (R : 'M[F]_(rr,rc)) :
  @C02_Transport.repr F rr rc lR R -> @sq_corr_R F tr (@id_sq F) eg (@id_sqL F) egL rr rc lR R.
Proof. by move=> rR; apply: (rbuild tr (@id_sq F) eg (@id_sqL F) egL) => i j _ _; rewrite (rget tr (@id_sq F) eg (@id_sqL F) egL rR). Qed.
