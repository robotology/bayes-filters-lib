(* C02_TransportEntry.v — the extracted entry points c02_run, c02_spec, c02_seq of
   the C02 model (C02_Entry.v; c02_propagate: repr_aff_exo here, with
   C02_Transport.lin_propagate_transport, in Properties_C02.v), run on lists with
   the scalars of an arbitrary realFieldType, computes a representation of what
   the same model function computes at the MathComp instance, the instance the
   C02 theorems are about: all branches of LinearStateModel::propagate with the
   harness' affine exogenous model u(X) = B X + c 1^T, the three skip flags,
   the descriptors of the returned object, whole sequences of calls on one
   object with per-call matrices / flags / dimensions, and the spec function
   of the violation search.  A skipped call is moreover insensitive to the
   output object it is handed (no well-formedness needed for it).  Built on
   ListOpsCorrect.v, C02_Transport.v and C02_Proofs.gaussian_predictE; axiom-free. *)
Require Import ZArith List Bool.
Require Import BFL.Ops BFL.ListOps BFL.C02_Model BFL.C02_Entry.
From mathcomp Require Import ssreflect ssrfun ssrbool eqtype ssrnat seq choice fintype bigop order ssralg ssrnum zmodp matrix mxalgebra.
Require Import BFL.MxOps BFL.ListOpsCorrect BFL.C02_Proofs BFL.C02_Transport.
Set Implicit Arguments.
Unset Strict Implicit.
Unset Printing Implicit Defensive.
Import GRing.Theory.
Local Open Scope ring_scope.

(* a skipped call returns the belief it was given, for ANY scalars and ANY output object *)
Lemma c02_run_skipped (S : SOps) n k (lF lQ : lmx S) e sp ss se (prev old : rawmix S) :
  sp || ss -> c02_run S n k lF lQ e sp ss se prev old = prev.
Proof.
by move=> sk; rewrite /c02_run gaussian_predictE sk; case: prev => [[[pm pc] pw] pl].
Qed.

Section E.
Variable F : realFieldType.
Variable tr : Transc F.
Variable sq : forall n, 'M[F]_n -> 'M[F]_n.
Variable eg : forall n, 'M[F]_n -> 'M[F]_(n,1).
Let S := FOps tr.
Let OL := c02_O S.
Let OM := MxMat tr sq eg.
Notation repr m n l A := (@C02_Transport.repr F m n l A) (only parsing).

(* a raw mixture (lists + descriptors) represents a mixture of the theorem model *)
Definition repr_raw n k (r : rawmix S) (g : gmix OM n k) : Prop :=
  @repr_gmix F tr sq eg n k (c02_mix S n k r) g.

(* the parameters of the affine exogenous model, attached or not *)
Definition repr_aff n (le : option (lmxF F * lmxF F)) (me : option ('M[F]_n * 'cV[F]_n)) : Prop :=
  match le, me with
  | None, None => True
  | Some lBc, Some Bc => repr n n lBc.1 Bc.1 /\ repr n 1 lBc.2 Bc.2
  | _, _ => False
  end.

Lemma repr_affine n k lB (B : 'M[F]_n) lc (c : 'cV[F]_n) lX (X : 'M[F]_(n,k)) :
  repr n n lB B -> repr n 1 lc c -> repr n k lX X ->
  repr n k (@affine_exo OL n k lB lc lX) (@affine_exo OM n k B c X : 'M[F]_(n,k)).
Proof.
move=> rB rc rX; apply: (repr_add tr); apply: (repr_mul tr) => //.
exact: (repr_mconst tr sq eg).
Qed.

Lemma repr_aff_exo n k le me :
  repr_aff le me -> @repr_exo F n k (c02_exo S n k le) (@affine_exo_opt OM n k me).
Proof.
case: le me => [[lB lc]|] [[B c]|] //= [rB rc] l A rA.
exact: repr_affine.
Qed.

(* c02_run: GaussianPrediction::predict, any flags *)
Theorem c02_run_transport n k lF (Fm : 'M[F]_n) lQ (Q : 'M[F]_n) le me sp ss se
        (rprev rold : rawmix S) (prevm oldm : gmix OM n k) :
  repr n n lF Fm -> repr n n lQ Q -> repr_aff le me ->
  repr_raw rprev prevm -> repr_raw rold oldm ->
  repr_raw (c02_run S n k lF lQ le sp ss se rprev rold)
           (@gaussian_predict OM n k Fm Q (affine_exo_opt (O:=OM) me) sp ss se prevm oldm).
Proof.
move=> rF rQ rE rP rO; rewrite /repr_raw /c02_run.
have -> : forall g : gmix OL n k, c02_mix S n k (c02_unmix S n k g) = g by case.
exact: (kf_predict_transport sp ss se rF rQ (repr_aff_exo k rE) rP rO).
Qed.

(* a skipped call: the output object need not represent anything (default-constructed, of
   another component count, dimension or layout) *)
Theorem c02_run_skipped_transport n k (lF lQ : lmxF F) (Fm Q : 'M[F]_n) le me sp ss se
        (rprev rold : rawmix S) (prevm oldm : gmix OM n k) :
  sp || ss -> repr_raw rprev prevm ->
  repr_raw (c02_run S n k lF lQ le sp ss se rprev rold)
           (@gaussian_predict OM n k Fm Q me sp ss se prevm oldm).
Proof.
by move=> sk rP; rewrite c02_run_skipped // gaussian_predictE sk.
Qed.

(* c02_spec: the component-by-component spec *)
Lemma repr_mcol n k l (A : 'M[F]_(n,k)) (i : nat) :
  repr n k l A -> repr n 1 (@mcol OL n k i l) (@mcol OM n k i A : 'cV[F]_n).
Proof. exact: rbuild_get. Qed.

Definition repr_comp n (lp : lmxF F * lmxF F) (mp : 'cV[F]_n * 'M[F]_n) : Prop :=
  repr n 1 lp.1 mp.1 /\ repr n n lp.2 mp.2.

Theorem c02_spec_transport n k lF (Fm : 'M[F]_n) lQ (Q : 'M[F]_n) le me lmeans (means : 'M[F]_(n,k)) lcovs (covs : list 'M[F]_n) :
  repr n n lF Fm -> repr n n lQ Q -> repr_aff le me -> repr n k lmeans means -> repr_covs lcovs covs ->
  List.Forall2 (@repr_comp n) (c02_spec S n k lF lQ le lmeans lcovs) (@kf_spec OM n k Fm Q me means covs).
Proof.
move=> rF rQ rE rM rC; rewrite /c02_spec /kf_spec (F2_length rC).
apply: F2_map; apply: F2_impl (F2_combine_eq _ rC) => -[i lP] [_ P] /= [<- rP].
split=> /=; last exact: repr_cov_step.
have rx := repr_mcol i rM.
apply: (repr_add tr idL idL); first exact: (repr_mul tr idL idL).
case: le me rE => [[lB lc]|] [[B c]|] //= => [[rB rc]|_]; last exact: (repr_mzero tr idL idL).
by apply: (repr_add tr idL idL) => //; exact: (repr_mul tr idL idL).
Qed.

(* c02_seq: one object, several calls *)
Definition repr_call (rc : c02_call S) (cm : kf_call OM) : Prop :=
  [/\ rc_n rc = kc_n cm, rc_k rc = kc_k cm,
      repr (kc_n cm) (kc_n cm) (rc_F rc) (kc_F cm : 'M[F]_(kc_n cm)) /\
      repr (kc_n cm) (kc_n cm) (rc_Q rc) (kc_Q cm : 'M[F]_(kc_n cm)),
      (exists2 me, repr_aff (rc_exo rc) me & kc_exo cm = affine_exo_opt (O:=OM) me) &
      [/\ rc_sp rc = kc_sp cm, rc_ss rc = kc_ss cm & rc_se rc = kc_se cm] /\
      (repr_raw (rc_prev rc) (kc_prev cm) /\
       (kc_sp cm || kc_ss cm \/ repr_raw (rc_old rc) (kc_old cm)))].

Definition repr_ret (r : rawmix S) (m : kf_ret OM) : Prop := repr_raw r (kr_mix m).

Lemma c02_call_transport rc cm :
  repr_call rc cm -> repr_ret (c02_unpack S (kf_call_run (c02_pack S rc))) (kf_call_run cm).
Proof.
case: rc => rn rk lF lQ le sp ss se rp ro; case: cm => n k Fm Q um sp' ss' se' pm om /=.
case=> /= en ek [rF rQ] [me rE eU] [[esp ess ese] [rP rO]]; subst rn rk sp ss se um.
rewrite /repr_ret /c02_unpack /kf_call_run /c02_pack /=.
case: rO => [sk|rO]; first exact: c02_run_skipped_transport.
exact: c02_run_transport.
Qed.

Theorem c02_seq_transport (rcs : list (c02_call S)) (cms : list (kf_call OM)) :
  List.Forall2 repr_call rcs cms ->
  List.Forall2 repr_ret (c02_seq S rcs) (kf_predict_seq cms).
Proof.
move=> r; rewrite /c02_seq /kf_predict_seq !List.map_map; apply: F2_map.
by apply: F2_impl r => rc cm; exact: c02_call_transport.
Qed.

End E.

Print Assumptions c02_run_transport.
Print Assumptions c02_seq_transport.
Print Assumptions c02_spec_transport.
