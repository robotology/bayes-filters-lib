(* Properties_C19.v — property C19: directional statistics respect the circle.
   The lemmas about wrap, the row sums wsumf and atan2 are in C19_Proofs and C19_ROps.  The model
   functions (wrap, dir_add, dir_sub, dir_mean, mean_row, resultant of
   C19_Model) are the ones extracted and run against the library; here they are
   read at the Coq-reals instance ROps (C19_ROps), where atan2 is defined from
   atan by quadrant.  Matrices are lists of rows; all statements hold for every
   shape.  in_range x := -PI < x <= PI;  cong2pi x y := exists k:Z, y = x + 2 k PI. *)
Require Import ZArith Reals Lra Lia List.
Require Import BFL.Ops BFL.ListFacts BFL.C19_ROps BFL.C19_Model BFL.C19_Proofs.
Import ListNotations.
Local Open Scope R_scope.

Theorem C19_range x : - PI < wrap ROps x <= PI.
Proof. exact (wrap_range x). Qed.

Theorem C19_congruent x : exists k : Z, wrap ROps x = x + 2 * IZR k * PI.
Proof. exact (wrap_congruent x). Qed.

Theorem C19_shift_invariant x (k : Z) : wrap ROps (x + 2 * IZR k * PI) = wrap ROps x.
Proof. exact (wrap_shift x k). Qed.

(* values already in (-PI, PI] are returned unchanged; the half turn is +PI *)
Theorem C19_wrap_fixes_range x : - PI < x <= PI -> wrap ROps x = x.
Proof. exact (wrap_id x). Qed.

Theorem C19_boundary_convention : wrap ROps PI = PI /\ wrap ROps (- PI) = PI.
Proof. exact (conj wrap_PI wrap_mPI). Qed.

Theorem C19_add_range a b : Forall (Forall in_range) (dir_add ROps a b).
Proof. rewrite dir_add_R. apply Forall_map_all. intros r. apply Forall_map_all, wrap_range. Qed.

Theorem C19_add_congruent_to_sum a b :
  Forall2 (Forall2 cong2pi) (plain_add a b) (dir_add ROps a b).
Proof. rewrite dir_add_R. apply mmap_wrap_congruent. Qed.

Theorem C19_add_entry a b i j :
  (i < length a)%nat -> (i < length b)%nat -> (j < length (nth i a []))%nat ->
  nth j (nth i (dir_add ROps a b) []) 0 = wrap ROps (nth j (nth i a []) 0 + nth i b 0).
Proof.
  intros Ha Hb Hj. rewrite dir_add_R.
  rewrite nth_mmap, plain_add_row by assumption.
  rewrite (nth_map_in _ _ _ _ 0) by now rewrite map_length.
  f_equal. now rewrite (nth_map_in _ _ _ _ 0).
Qed.

Theorem C19_add_shape a b :
  length (dir_add ROps a b) = Nat.min (length a) (length b) /\
  forall i, (i < Nat.min (length a) (length b))%nat ->
    length (nth i (dir_add ROps a b) []) = length (nth i a []).
Proof.
  unfold dir_add. rewrite map_length, combine_length. split; [reflexivity|].
  revert b. induction a as [|r a IH]; intros [|y b] i Hi; simpl in *; try lia.
  destruct i; [now rewrite map_length | apply IH; lia].
Qed.

(* unaffected by adding multiples of 2 PI to any entry of any argument *)
Theorem C19_add_shift_invariant a a' b b' :
  Forall2 (Forall2 cong2pi) a a' -> Forall2 cong2pi b b' -> dir_add ROps a' b' = dir_add ROps a b.
Proof.
  intros Ha Hb. rewrite !dir_add_R. apply (map_eq_Forall2 (Forall2 cong2pi)); [|now apply plain_add_cong].
  apply (map_eq_Forall2 cong2pi). exact wrap_cong.
Qed.

Theorem C19_sub_is_add_of_opposite a b : dir_sub ROps a b = dir_add ROps a (map Ropp b).
Proof. reflexivity. Qed.

Theorem C19_sub_range a b : Forall (Forall in_range) (dir_sub ROps a b).
Proof. apply C19_add_range. Qed.

Theorem C19_sub_congruent_to_difference a b :
  Forall2 (Forall2 cong2pi) (plain_sub a b) (dir_sub ROps a b).
Proof. rewrite dir_sub_R. apply mmap_wrap_congruent. Qed.

Theorem C19_sub_shift_invariant a a' b b' :
  Forall2 (Forall2 cong2pi) a a' -> Forall2 cong2pi b b' -> dir_sub ROps a' b' = dir_sub ROps a b.
Proof.
  intros Ha Hb. unfold dir_sub. apply C19_add_shift_invariant; [assumption|].
  exact (Forall2_map_both cong2pi cong2pi Ropp Ropp cong2pi_opp b b' Hb).
Qed.

(* general branch (cols <> 1): entry i is the argument of the weighted resultant
   sum_k w_k (cos a_ik, sin a_ik) of row i *)
Theorem C19_mean_is_arg_of_resultant cols a w i : cols <> 1%nat -> (i < length a)%nat ->
  nth i (dir_mean ROps cols a w) 0 =
  atan2 (wsumf sin (nth i a []) w) (wsumf cos (nth i a []) w).
Proof.
  intros Hc Hi. rewrite mean_general, (nth_map_in _ _ _ _ []) by assumption. apply mean_row_R.
Qed.

(* the extracted spec-level function `resultant` is that pair of sums *)
Theorem C19_resultant_pinned row w : resultant ROps row w = (wsumf cos row w, wsumf sin row w).
Proof. exact (resultant_R row w). Qed.

Theorem C19_mean_length cols a w : length (dir_mean ROps cols a w) = length a.
Proof. exact (mean_length cols a w). Qed.

(* one-column branch, exactly as the code behaves: the column, wrapped, without looking at the weight *)
Theorem C19_mean_single_column a w : dir_mean ROps 1 a w = map (fun row => wrap ROps (nth 0 row 0)) a.
Proof. exact (mean_single_column a w). Qed.

Theorem C19_mean_shift cols a a' w : cols <> 1%nat -> Forall2 (Forall2 cong2pi) a a' ->
  dir_mean ROps cols a' w = dir_mean ROps cols a w.
Proof.
  intros Hc. rewrite !mean_general by assumption. apply (map_eq_Forall2 (Forall2 cong2pi)).
  intros r r'. apply mean_row_shift.
Qed.

(* the one-column branch is shift invariant as well *)
Theorem C19_mean_shift_single_column a a' w : Forall2 (Forall2 cong2pi) a a' ->
  dir_mean ROps 1 a' w = dir_mean ROps 1 a w.
Proof.
  rewrite !mean_single_column. apply (map_eq_Forall2 (Forall2 cong2pi)). intros r r' Hr.
  apply wrap_cong. destruct Hr; simpl; [apply cong2pi_refl | assumption].
Qed.

(* common rotation d of all samples of a row with non-zero resultant *)
Theorem C19_mean_rotation row w d :
  (wsumf cos row w <> 0 \/ wsumf sin row w <> 0) ->
  exists k : Z, mean_row ROps (map (fun x => x + d) row) w = mean_row ROps row w + d + 2 * IZR k * PI.
Proof. exact (mean_row_rotation row w d). Qed.

(* all n samples equal to a, total weight of the first n weights positive:
   the general branch returns wrap a (= a when a is in (-PI, PI]) *)
Theorem C19_mean_all_equal a n w : 0 < wtot n w -> mean_row ROps (repeat a n) w = wrap ROps a.
Proof. exact (mean_row_all_equal a n w). Qed.

(* the same on a whole matrix whose row i holds cols copies of a_i *)
Theorem C19_mean_all_equal_matrix cols (al : list R) w : cols <> 1%nat -> 0 < wtot cols w ->
  dir_mean ROps cols (map (fun a => repeat a cols) al) w = map (wrap ROps) al.
Proof.
  intros Hc Hw. rewrite mean_general by assumption. rewrite map_map. apply map_ext.
  intros a. now apply mean_row_all_equal.
Qed.

Theorem C19_mean_all_equal_in_range a n w : 0 < wtot n w -> - PI < a <= PI ->
  mean_row ROps (repeat a n) w = a.
Proof. intros H Ha. rewrite mean_row_all_equal by assumption. now apply wrap_id. Qed.

(* one column, positive weight: the result is the argument of the resultant, i.e. wrap a *)
Theorem C19_mean_all_equal_single_column (a w : R) : 0 < w -> dir_mean ROps 1 [[a]] [w] = [mean_row ROps [a] [w]].
Proof.
  intros H. rewrite mean_single_column. cbn [map nth]. f_equal. symmetry.
  apply (mean_row_all_equal a 1 [w]). simpl. lra.
Qed.

(* positive weights, samples within an arc shorter than a half turn *)
Theorem C19_mean_in_arc row w lo hi :
  row <> [] -> length w = length row ->
  Forall (fun x => 0 < x) w -> Forall (fun a => lo <= a <= hi) row -> hi - lo < PI ->
  exists k : Z, lo <= mean_row ROps row w + 2 * IZR k * PI <= hi.
Proof.
  intros Hrow Hlen Hw Hr Harc. pose proof PI_RGT_0 as Hpi.
  assert (Hwne : w <> []) by (intros ->; destruct row; [contradiction | discriminate]).
  assert (Hle : lo <= hi) by (destruct row as [|a row]; [contradiction|]; inversion Hr; subst; lra).
  (* every sample is on the inner side of both ends and within a quarter turn of the middle *)
  apply mean_row_arc; try assumption.
  - apply wsumf_pos; try assumption. eapply Forall_impl; [|exact Hr]. simpl. intros a Ha. apply cos_gt_0; lra.
  - apply wsumf_nonneg; [assumption|]. eapply Forall_impl; [|exact Hr]. simpl. intros a Ha. apply sin_ge_0; lra.
  - apply wsumf_nonneg; [assumption|]. eapply Forall_impl; [|exact Hr]. simpl. intros a Ha. apply sin_ge_0; lra.
Qed.

(* the same three clauses on whole matrices (general branch, cols <> 1) *)
Theorem C19_mean_rotation_matrix cols a w d : cols <> 1%nat -> Forall (row_nonzero w) a ->
  Forall2 cong2pi (map (fun m => m + d) (dir_mean ROps cols a w))
                  (dir_mean ROps cols (map (map (fun x => x + d)) a) w).
Proof.
  intros Hc H. rewrite !mean_general by assumption.
  induction H as [|row a Hr Ha IH]; simpl; constructor; [now apply mean_row_rotation | exact IH].
Qed.

(* arc_ok cols row (lo, hi): the row has cols entries, all in [lo, hi], hi - lo < PI *)
Theorem C19_mean_in_arc_matrix cols a w arcs : cols <> 1%nat -> length w = cols ->
  Forall (fun x => 0 < x) w -> Forall2 (arc_ok cols) a arcs ->
  Forall2 (fun m lh => exists k : Z, fst lh <= m + 2 * IZR k * PI <= snd lh) (dir_mean ROps cols a w) arcs.
Proof.
  intros Hc Hw Hpos H. rewrite mean_general by assumption.
  induction H as [|row lh a arcs [Hl [Hne [Hin Harc]]] Ha IH]; simpl; constructor; [|exact IH].
  apply C19_mean_in_arc; try assumption. congruence.
Qed.

(* a single column ignores its weight: a negative weight (outside the property's weight classes)
   turns the resultant by a half turn, the result does not move *)
Theorem C19_mean_single_column_weight_ignored_refuted :
  exists a w, w < 0 /\ ~ cong2pi (mean_row ROps [a] [w]) (nth 0 (dir_mean ROps 1 [[a]] [w]) 0).
Proof.
  pose proof PI_RGT_0 as Hp. exists 0, (-1). split; [lra|].
  rewrite mean_single_column. cbn [map nth]. replace (mean_row ROps _ _) with PI by (symmetry; exact mean_row_neg_weight).
  rewrite wrap_id by (unfold in_range; lra). apply not_cong_half_turn.
Qed.

Example C19_in_arc_premises_satisfiable :
  let row := [1; 2; 3/2] in let w := [1/4; 1/4; 1/2] in
  row <> [] /\ length w = length row /\ Forall (fun x => 0 < x) w /\
  Forall (fun a => 1 <= a <= 2) row /\ 2 - 1 < PI.
Proof.
  pose proof PI_RGT_0. pose proof PI2_3_2. simpl.
  repeat split; try discriminate; try (repeat constructor; lra).
Qed.

Example C19_wrap_concrete : wrap ROps (3 * PI) = PI /\ wrap ROps (PI / 2 + 2 * IZR (-5) * PI) = PI / 2.
Proof. exact wrap_concrete. Qed.

Print Assumptions C19_range.
Print Assumptions C19_congruent.
Print Assumptions C19_shift_invariant.
Print Assumptions C19_wrap_fixes_range.
Print Assumptions C19_boundary_convention.
Print Assumptions C19_add_range.
Print Assumptions C19_add_congruent_to_sum.
Print Assumptions C19_add_entry.
Print Assumptions C19_add_shape.
Print Assumptions C19_add_shift_invariant.
Print Assumptions C19_sub_is_add_of_opposite.
Print Assumptions C19_sub_range.
Print Assumptions C19_sub_congruent_to_difference.
Print Assumptions C19_sub_shift_invariant.
Print Assumptions C19_mean_is_arg_of_resultant.
Print Assumptions C19_resultant_pinned.
Print Assumptions C19_mean_length.
Print Assumptions C19_mean_single_column.
Print Assumptions C19_mean_shift.
Print Assumptions C19_mean_shift_single_column.
Print Assumptions C19_mean_rotation.
Print Assumptions C19_mean_all_equal.
Print Assumptions C19_mean_all_equal_matrix.
Print Assumptions C19_mean_all_equal_in_range.
Print Assumptions C19_mean_all_equal_single_column.
Print Assumptions C19_mean_in_arc.
Print Assumptions C19_mean_rotation_matrix.
Print Assumptions C19_mean_in_arc_matrix.
Print Assumptions C19_mean_single_column_weight_ignored_refuted.
