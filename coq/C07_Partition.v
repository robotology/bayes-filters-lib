(* C07_Partition.v — the partition made by ResamplingWithPrior::resample
   (ResamplingWithPrior.cpp:75-88: sort_indices, then the first num_prior
   positions of the sorted order are skipped), as a RELATION on sets of
   particles, so that exact ties at the split are covered:

     replaced_set  = the first  floor(ratio N) sorted indices   (never copied, replaced by prior draws)
     survivor_set  = the others                                  (tmp_particles, resampled)

   - partition_g: for every arithmetic whose <= is total and transitive (what
     std::sort needs of its comparison: doubles without NaN, the reals), the two
     sets have floor(ratio N) and N - floor(ratio N) members, together they are
     a duplicate-free enumeration of 0..N-1, and no replaced particle is heavier
     than a survivor;
   - forced_g: consequently a particle strictly heavier than some survivor is a
     survivor, one strictly lighter than some replaced particle is replaced;
   - admissible_forced: the same holds of EVERY admissible partition (any choice
     among exact ties): below the (k+1)-th smallest weight a particle is
     replaced, above it it survives — this is what the oracle of props/C07.py
     decides on the implementation's output.
   Nothing about the reals is needed except that Rleb is such an order (at the
   end); Properties_C07 states the results for the reals, and that every parent
   the model of ResamplingWithPrior::resample reports is a survivor. *)
Require Import Reals List Permutation Sorted Lia.
Require Import BFL.Ops BFL.C07_Model BFL.ListFacts BFL.C07_ROps BFL.C07_Proofs.
Import ListNotations.

(* the two sets, from the functions the model (and the extracted code) runs *)
Definition replaced_set (S : SOps) (ratio : T S) (lw : list (T S)) : list nat :=
  firstn (num_prior S (length lw) ratio) (sort_idx S (map (sexp S) lw)).
Definition survivor_set (S : SOps) (ratio : T S) (lw : list (T S)) : list nat :=
  skipn (num_prior S (length lw) ratio) (sort_idx S (map (sexp S) lw)).

(* weight of particle i as the library computes it: exp of its log-weight *)
Definition wt (S : SOps) (lw : list (T S)) (i : nat) : T S := sexp S (nth i lw (s0 S)).

Lemma NoDup_app_inv {A} (l1 l2 : list A) :
  NoDup (l1 ++ l2) -> NoDup l1 /\ NoDup l2 /\ forall x, In x l1 -> In x l2 -> False.
Proof.
  induction l1 as [|a l1 IH]; simpl; intro H; [repeat split; [constructor | exact H | intros x []]|].
  inversion H as [|? ? Hn Hd]; subst. destruct (IH Hd) as [N1 [N2 D]]. split; [|split; [exact N2|]].
  - constructor; [intro Hi; apply Hn, in_or_app; left; exact Hi | exact N1].
  - intros x [->|H1] H2; [apply Hn, in_or_app; right; exact H2 | exact (D x H1 H2)].
Qed.

Lemma StronglySorted_nth {A} (Rl : A -> A -> Prop) l d a b :
  StronglySorted Rl l -> (a < b < length l)%nat -> Rl (nth a l d) (nth b l d).
Proof.
  intro Hs. revert a b. induction Hs as [|h t Hs IH Hf]; intros a b H; [simpl in H; lia|].
  destruct b; [lia|]. destruct a.
  - simpl. rewrite Forall_forall in Hf. apply Hf. apply nth_In. simpl in H. lia.
  - simpl. apply IH. simpl in H. lia.
Qed.

Section PartitionGeneric.
Variable S : SOps.
Notation T := (T S).
Hypothesis le_total : forall a b : T, sleb S a b = true \/ sleb S b a = true.
Hypothesis le_trans : forall a b c : T, sleb S a b = true -> sleb S b c = true -> sleb S a c = true.

Definition kle (p q : T * nat) : Prop := sleb S (fst p) (fst q) = true.

Lemma le_refl_g a : sleb S a a = true.
Proof. destruct (le_total a a); assumption. Qed.

Lemma ins_sorted_g (x : T * nat) l : StronglySorted kle l -> StronglySorted kle (ins S x l).
Proof.
  induction l as [|h t IH]; intro Hs; simpl.
  - constructor; constructor.
  - pose proof (StronglySorted_inv Hs) as [Hs' Hf].
    destruct (sleb S (fst x) (fst h)) eqn:E.
    + constructor; auto. constructor; auto.
      eapply Forall_impl; [|exact Hf]. intros q Hq. unfold kle in *. eapply le_trans; eauto.
    + constructor; auto.
      apply (Permutation_Forall (Permutation_sym (ins_perm S x t))).
      constructor; auto. unfold kle. destruct (le_total (fst x) (fst h)) as [C|C]; [congruence | exact C].
Qed.

Lemma fold_ins_sorted_g (L : list (T * nat)) : StronglySorted kle (fold_right (ins S) [] L).
Proof. induction L as [|x L IH]; [constructor|]. apply ins_sorted_g, IH. Qed.

Lemma sort_pairs_sorted_g (keys : list T) : StronglySorted kle (sort_pairs S keys).
Proof. apply fold_ins_sorted_g. Qed.

(* the sorted indices are ordered by non-decreasing key *)
Lemma sort_idx_sorted_g (keys : list T) d a b : (a <= b < length keys)%nat ->
  sleb S (nth (nth a (sort_idx S keys) 0%nat) keys d) (nth (nth b (sort_idx S keys) 0%nat) keys d) = true.
Proof.
  intro H. destruct (Nat.eq_dec a b) as [->|Hne]; [apply le_refl_g|].
  set (prs := sort_pairs S keys).
  assert (Lp : length prs = length keys) by (rewrite <- (map_length snd); apply sort_idx_length).
  assert (K : forall c, (c < length keys)%nat ->
                nth (nth c (sort_idx S keys) 0%nat) keys d = fst (nth c prs (d, 0%nat))).
  { intros c Hc. unfold sort_idx. fold prs. rewrite (nth_map_in snd prs c 0%nat (d, 0%nat)) by lia.
    symmetry. apply (sort_pairs_In S keys d), nth_In. fold prs. lia. }
  rewrite !K by lia.
  exact (StronglySorted_nth kle prs (d, 0%nat) a b (sort_pairs_sorted_g keys) ltac:(lia)).
Qed.

Section OneInput.
Variables (ratio : T) (lw : list T).
Notation N := (length lw).
Notation k := (num_prior S N ratio).
Notation srt := (sort_idx S (map (sexp S) lw)).
Notation Rset := (replaced_set S ratio lw).
Notation Kset := (survivor_set S ratio lw).

Lemma srt_length : length srt = N.
Proof. rewrite sort_idx_length, map_length. reflexivity. Qed.

Lemma replaced_length : length Rset = k.
Proof. unfold replaced_set. rewrite firstn_length, srt_length. pose proof (num_prior_le S N ratio). lia. Qed.

Lemma survivor_length : length Kset = (N - k)%nat.
Proof. unfold survivor_set. rewrite skipn_length, srt_length. reflexivity. Qed.

Lemma sets_app : Rset ++ Kset = srt.
Proof. apply firstn_skipn. Qed.

Lemma sets_perm : Permutation (Rset ++ Kset) (seq 0 N).
Proof. rewrite sets_app. rewrite <- (map_length (sexp S) lw). apply sort_idx_perm. Qed.

Lemma sets_nodup : NoDup (Rset ++ Kset).
Proof. apply (Permutation_NoDup (Permutation_sym sets_perm)). apply seq_NoDup. Qed.

Lemma sets_disjoint i : In i Rset -> In i Kset -> False.
Proof. apply (NoDup_app_inv _ _ sets_nodup). Qed.

Lemma sets_cover i : (i < N)%nat -> In i Rset \/ In i Kset.
Proof. intro H. apply in_app_or, (perm_seq_In _ _ _ sets_perm), H. Qed.

(* along the sorted order the weights do not decrease *)
Lemma srt_le a b : (a <= b < N)%nat -> sleb S (wt S lw (nth a srt 0%nat)) (wt S lw (nth b srt 0%nat)) = true.
Proof.
  intro H. unfold wt. rewrite <- !(map_nth (sexp S)). apply sort_idx_sorted_g. rewrite map_length. exact H.
Qed.

(* positions: a replaced particle sits before the split, a survivor after it *)
Lemma replaced_pos r : In r Rset -> exists a, (a < k)%nat /\ nth a srt 0%nat = r.
Proof.
  intro H. destruct (In_nth _ _ 0%nat H) as [a [Ha E]]. rewrite replaced_length in Ha.
  exists a. split; [exact Ha|]. rewrite <- E. unfold replaced_set. rewrite <- (firstn_skipn k srt) at 1.
  rewrite app_nth1; [reflexivity|]. fold Rset. rewrite replaced_length. exact Ha.
Qed.

Lemma survivor_pos s : In s Kset -> exists b, (k <= b < N)%nat /\ nth b srt 0%nat = s.
Proof.
  intro H. destruct (In_nth _ _ 0%nat H) as [b [Hb E]]. rewrite survivor_length in Hb.
  exists (k + b)%nat. split; [lia|]. rewrite <- E. unfold survivor_set. symmetry. apply nth_skipn.
Qed.

Lemma survivor_at b : (k <= b < N)%nat -> In (nth b srt 0%nat) Kset.
Proof.
  intro H. replace b with (k + (b - k))%nat by lia. unfold survivor_set. rewrite <- nth_skipn.
  apply nth_In. rewrite skipn_length, srt_length. lia.
Qed.

(* no replaced particle is heavier than a survivor *)
Lemma cross_le r s : In r Rset -> In s Kset -> sleb S (wt S lw r) (wt S lw s) = true.
Proof.
  intros Hr Hs. destruct (replaced_pos r Hr) as [a [Ha <-]]. destruct (survivor_pos s Hs) as [b [Hb <-]].
  apply srt_le. lia.
Qed.

Theorem partition_g :
  length Rset = k /\ length Kset = (N - k)%nat /\
  Permutation (Rset ++ Kset) (seq 0 N) /\ NoDup (Rset ++ Kset) /\
  (forall r s, In r Rset -> In s Kset -> sleb S (wt S lw r) (wt S lw s) = true).
Proof.
  split; [apply replaced_length|]. split; [apply survivor_length|]. split; [apply sets_perm|].
  split; [apply sets_nodup|]. exact cross_le.
Qed.

(* strictly heavier than a survivor => survivor; strictly lighter than a replaced one => replaced *)
Theorem forced_g i : (i < N)%nat ->
  ((exists s, In s Kset /\ sleb S (wt S lw i) (wt S lw s) = false) -> In i Kset /\ ~ In i Rset) /\
  ((exists r, In r Rset /\ sleb S (wt S lw r) (wt S lw i) = false) -> In i Rset /\ ~ In i Kset).
Proof.
  intro Hi. split.
  - intros [s [Hs Hlt]]. assert (Hn : ~ In i Rset).
    { intro Hr. pose proof (cross_le i s Hr Hs). congruence. }
    split; auto. destruct (sets_cover i Hi); tauto.
  - intros [r [Hr Hlt]]. assert (Hn : ~ In i Kset).
    { intro Hs. pose proof (cross_le r i Hr Hs). congruence. }
    split; auto. destruct (sets_cover i Hi); tauto.
Qed.

(* ---- every admissible partition agrees with the model's outside the tie class at the split ---- *)

(* (R', K') is admissible: a duplicate-free split of 0..N-1 with k replaced particles, none heavier than a survivor *)
Definition admissible (R' K' : list nat) : Prop :=
  Permutation (R' ++ K') (seq 0 N) /\ length R' = k /\
  forall r s, In r R' -> In s K' -> sleb S (wt S lw r) (wt S lw s) = true.

Lemma model_admissible : admissible Rset Kset.
Proof. split; [apply sets_perm|]. split; [apply replaced_length | exact cross_le]. Qed.

(* thr = the (k+1)-th smallest weight = the weight of the lightest survivor of the model *)
Definition thr : T := wt S lw (nth k srt 0%nat).

Lemma thr_le_survivor s : In s Kset -> sleb S thr (wt S lw s) = true.
Proof.
  intro Hs. destruct (survivor_pos s Hs) as [b [Hb <-]]. apply srt_le. lia.
Qed.

(* for k = N nothing survives and thr is only the weight of the default index *)
Lemma replaced_le_thr r : (k < N)%nat -> In r Rset -> sleb S (wt S lw r) thr = true.
Proof.
  intros Hk Hr. destruct (replaced_pos r Hr) as [a [Ha <-]]. apply srt_le. lia.
Qed.

(* in the model's own partition, strictly lighter than thr means replaced, strictly heavier means surviving *)
Lemma light_replaced j : (j < N)%nat -> sleb S thr (wt S lw j) = false -> In j Rset.
Proof.
  intros Hj Hlt. destruct (sets_cover j Hj) as [|HK]; auto. pose proof (thr_le_survivor j HK). congruence.
Qed.

Lemma heavy_survives j : (k < N)%nat -> (j < N)%nat -> sleb S (wt S lw j) thr = false -> In j Kset.
Proof.
  intros Hk Hj Hlt. destruct (sets_cover j Hj) as [HR|]; auto. pose proof (replaced_le_thr j Hk HR). congruence.
Qed.

(* thr is the (k+1)-th smallest weight: at most k particles are strictly lighter, fewer than N - k strictly heavier
   (each of the latter is a survivor other than the one at the split) *)
Lemma light_count L : NoDup L ->
  (forall j, In j L -> (j < N)%nat /\ sleb S thr (wt S lw j) = false) -> (length L <= k)%nat.
Proof.
  intros Hnd HL. rewrite <- replaced_length. apply NoDup_incl_length; [exact Hnd|].
  intros j Hj. destruct (HL j Hj). apply light_replaced; assumption.
Qed.

Lemma heavy_count L : (k < N)%nat -> NoDup L ->
  (forall j, In j L -> (j < N)%nat /\ sleb S (wt S lw j) thr = false) -> (length L < N - k)%nat.
Proof.
  intros Hk Hnd HL. set (t := nth k srt 0%nat).
  assert (Ht : ~ In t L).
  { intro H. destruct (HL t H) as [_ E]. unfold thr in E. fold t in E. rewrite le_refl_g in E. discriminate. }
  rewrite <- survivor_length. change (length (t :: L) <= length Kset)%nat.
  apply NoDup_incl_length; [constructor; assumption|]. intros j [<-|Hj].
  - apply survivor_at. lia.
  - destruct (HL j Hj). apply heavy_survives; assumption.
Qed.

Theorem admissible_forced R' K' i : (k < N)%nat -> admissible R' K' -> (i < N)%nat ->
  (sleb S thr (wt S lw i) = false -> In i R' /\ ~ In i K') /\     (* strictly lighter than thr: replaced *)
  (sleb S (wt S lw i) thr = false -> In i K' /\ ~ In i R').       (* strictly heavier than thr: survives *)
Proof.
  intros Hk [Hperm [Hlen Hcross]] Hi.
  destruct (NoDup_app_inv R' K') as [NdR [NdK Hdisj]]; [apply (Permutation_NoDup (Permutation_sym Hperm)), seq_NoDup|].
  pose proof (fun j => perm_seq_In (R' ++ K') N j Hperm) as Hrng.
  assert (Hcov : In i R' \/ In i K') by apply in_app_or, Hrng, Hi.
  assert (HlenK : length K' = (N - k)%nat).
  { pose proof (Permutation_length Hperm) as L. rewrite app_length, seq_length in L. lia. }
  split; intro Hlt.
  - (* were i in K', all of R' would be no heavier than i: k + 1 particles strictly lighter than thr *)
    assert (HnK : ~ In i K').
    { intro HiK. assert (L : (length (i :: R') <= k)%nat); [|simpl in L; lia].
      apply light_count; [constructor; [intro HiR; exact (Hdisj i HiR HiK) | exact NdR] |].
      intros j [<-|Hj]; [split; assumption|]. split; [apply Hrng, in_or_app; auto|].
      destruct (sleb S thr (wt S lw j)) eqn:E; [|reflexivity].
      pose proof (le_trans _ _ _ E (Hcross j i Hj HiK)). congruence. }
    tauto.
  - (* were i in R', all of K' would be no lighter than i: N - k + 1 particles strictly heavier than thr *)
    assert (HnR : ~ In i R').
    { intro HiR. assert (L : (length (i :: K') < N - k)%nat); [|simpl in L; lia].
      apply heavy_count; [exact Hk | constructor; [intro HiK; exact (Hdisj i HiR HiK) | exact NdK] |].
      intros j [<-|Hj]; [split; assumption|]. split; [apply Hrng, in_or_app; auto|].
      destruct (sleb S (wt S lw j) thr) eqn:E; [|reflexivity].
      pose proof (le_trans _ _ _ (Hcross i j HiR Hj) E). congruence. }
    tauto.
Qed.

End OneInput.
End PartitionGeneric.

(* Rleb is such an order *)
Lemma Rleb_total e (a b : T (ROpsE e)) : sleb (ROpsE e) a b = true \/ sleb (ROpsE e) b a = true.
Proof.
  change (Rleb a b = true \/ Rleb b a = true). destruct (Rle_dec a b) as [H|H].
  - left. apply Rleb_true. exact H.
  - right. apply Rleb_true. apply Rnot_le_lt in H. apply Rlt_le. exact H.
Qed.

Lemma Rleb_trans e (a b c : T (ROpsE e)) :
  sleb (ROpsE e) a b = true -> sleb (ROpsE e) b c = true -> sleb (ROpsE e) a c = true.
Proof.
  change (Rleb a b = true -> Rleb b c = true -> Rleb a c = true). rewrite !Rleb_true. intros; eapply Rle_trans; eauto.
Qed.
