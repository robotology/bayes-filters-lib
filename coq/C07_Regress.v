(* C07_Regress.v — regression specification: the transcription of
   ResamplingWithPrior::resample BEFORE /repo commit d9796b9 (parents of the
   resampled part reported as positions in the weight-sorted order, offset by
   the number of prior particles), and the proof that it violates "each output
   is a copy of the parent it reports".  Not part of any property theorem; kept
   so that a reintroduction of the defect is recognised (the check reports it as
   C07:prior-parent-not-source). *)
Require Import Reals ZArith List Bool Lia Lra.
Require Import BFL.Ops BFL.C07_Model BFL.ListFacts BFL.C07_ROps BFL.C07_Proofs.
Import ListNotations.
Local Open Scope R_scope.

Definition resample_prior_old (S : SOps) {P : Type} (init : nat -> list P) (ratio : T S)
           (ps : list P) (lw : list (T S)) (u1 : T S) : pset S P * list Z :=
  let N := length ps in
  let np := num_prior S N ratio in
  let kept := skipn np (sort_idx S (map (sexp S) lw)) in
  let tmp_ps := match ps with [] => [] | d :: _ => map (fun i => nth i ps d) kept end in
  let tmp_lw := lse_normalise S (map (fun i => nth i lw (s0 S)) kept) in
  (fst (@resample_prior S P init ratio ps lw u1),
   (* res_parents_right.array() += num_prior_particles *)
   repeat (-1)%Z np ++ map (fun p => Z.of_nat (p + np)) (res_parents S tmp_lw u1)).

Lemma num_prior_zero N : (0 < N)%nat -> num_prior ROps N 0 = 0%nat.
Proof.
  intro HN. destruct (num_prior_spec exp N 0 HN ltac:(lra)) as [[H _] _].
  rewrite Rmult_0_r in H. change (num_prior (ROpsE exp) N 0) with (num_prior ROps N 0) in H.
  destruct (num_prior ROps N 0) as [|n]; auto. rewrite S_INR in H.
  pose proof (pos_INR n). lra.
Qed.

Lemma sort_two : sort_idx ROps (map (sexp ROps) [ln (3 / 4); ln (/ 4)]) = [1; 0]%nat.
Proof.
  change (sexp ROps) with exp. simpl map. rewrite !exp_ln by lra. unfold sort_idx, sort_pairs. simpl.
  unfold Rleb. destruct (Rle_dec (3 / 4) (/ 4)); [lra | reflexivity].
Qed.

Theorem C07p_old_parent_is_source_refuted :
  exists (lw : list R) (ratio u1 : R),
    0 <= ratio < 1 /\ sumR (map exp lw) = 1 /\ 0 < u1 /\ u1 * INR (length lw) < 1 /\
    let ps := [0; 1]%nat in
    let r := @resample_prior_old ROps nat (fun _ => []) ratio ps lw u1 in
    nth 0 (pparts (fst r)) 0%nat <> nth (Z.to_nat (nth 0 (snd r) 0%Z)) ps 0%nat.
Proof.
  exists [ln (3 / 4); ln (/ 4)], 0, (/ 4).
  split; [lra|]. split; [simpl; rewrite !exp_ln by lra; lra|]. split; [lra|]. split; [simpl; lra|].
  intros ps r.
  set (lw := [ln (3 / 4); ln (/ 4)]) in *.
  assert (Hnp : num_prior ROps (length ps) 0%R = 0%nat) by (apply num_prior_zero; simpl; lia).
  assert (Hlen : length lw = length ps) by reflexivity.
  assert (Npos : (0 < length ps)%nat) by (simpl; lia).
  assert (Hinit : length ((fun _ : nat => @nil nat) (num_prior ROps (length ps) 0%R)) = num_prior ROps (length ps) 0%R)
    by (rewrite Hnp; reflexivity).
  assert (H0 : (0 < length ps - num_prior ROps (length ps) 0%R)%nat) by (rewrite Hnp; simpl; lia).
  pose proof (prior_copy ROps (fun _ => []) 0%R ps lw (/ 4) Hlen Npos Hinit 0%nat 0%nat H0) as C.
  destruct (prior_parents_right ROps (fun _ => @nil nat) 0%R ps lw (/ 4) Hlen 0%nat H0) as [E _].
  pose proof (rpar_range ROps 0%R ps lw (/ 4) Hlen 0%nat H0) as Rr.
  set (rp0 := nth 0 (rpar ROps 0%R ps lw (/ 4)) 0%nat) in *.
  (* output 0 is ps[srt[rp0]] with srt = [1; 0], the old parent is the sorted position rp0 itself: 1 - rp0 <> rp0 *)
  rewrite E, Nat2Z.id in C. rewrite Hnp in C, Rr. unfold lw in C at 2. rewrite sort_two in C.
  rewrite !Nat.add_0_l in C.
  assert (G1 : nth 0 (pparts (fst r)) 0%nat = nth (nth rp0 [1; 0]%nat 0%nat) ps 0%nat) by exact C.
  assert (G2 : nth 0 (snd r) 0%Z = Z.of_nat (rp0 + 0)).
  { change (snd r) with (repeat (-1)%Z (num_prior ROps (length ps) 0%R)
                          ++ map (fun p => Z.of_nat (p + num_prior ROps (length ps) 0%R)) (rpar ROps 0%R ps lw (/ 4))).
    rewrite Hnp. change (repeat (-1)%Z 0) with (@nil Z). rewrite app_nil_l.
    assert (Lr : length (rpar ROps 0%R ps lw (/ 4)) = 2%nat).
    { rewrite (rpar_length ROps 0%R ps lw (/ 4) Hlen), Hnp. reflexivity. }
    apply (nth_map_in (fun p => Z.of_nat (p + 0))). rewrite Lr. lia. }
  rewrite G1, G2, Nat2Z.id. simpl in Rr.
  destruct rp0 as [|[|k]]; simpl; lia.
Qed.
