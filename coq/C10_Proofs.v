(* C10_Proofs.v — the lock-set / atomic / fork-join discipline checked by
   [race_freeb] is sound for the trace semantics of C10_Model, for EVERY table:
   in every execution of the table, every data race (conflicting, not both
   atomic, not ordered by happens-before) is between a pair of accesses that the
   checker reports; conversely every reported pair is a race of some execution
   (offenders_realisable), and [validb] decides [valid] soundly for the example
   traces.  Plain lists and strings; no axioms. *)
Require Import List String Bool Arith Lia.
Import ListNotations.
Require Import BFL.C10_Model.
Local Open Scope list_scope.

Lemma firstn_snoc {A} (l : list A) i x :
  nth_error l i = Some x -> firstn (S i) l = firstn i l ++ [x].
Proof.
  revert i; induction l as [|a l IH]; intros [|i] H; simpl in *; try discriminate.
  - inversion H; reflexivity.
  - f_equal. apply IH; assumption.
Qed.

Lemma nth_error_lt {A} (l : list A) i : i < List.length l -> exists x, nth_error l i = Some x.
Proof.
  intros H. destruct (nth_error l i) eqn:E; eauto.
  apply nth_error_None in E. lia.
Qed.

Lemma nth_error_some_lt {A} (l : list A) i x : nth_error l i = Some x -> i < List.length l.
Proof. intros H. apply nth_error_Some. rewrite H. discriminate. Qed.

Lemma filter_nil_all {A} (f : A -> bool) l : filter f l = [] -> forall x, In x l -> f x = false.
Proof.
  induction l as [|a l IH]; simpl; intros H x Hx; [contradiction|].
  destruct (f a) eqn:E; [discriminate|]. destruct Hx as [->|Hx]; auto.
Qed.

Lemma all_filter_nil {A} (f : A -> bool) l : (forall x, In x l -> f x = false) -> filter f l = [].
Proof.
  induction l as [|a l IH]; simpl; intros H; [reflexivity|].
  rewrite (H a (or_introl eq_refl)). apply IH. intros x Hx. apply H. right; assumption.
Qed.

Lemma filter_prod_l {A B} (f : A * B -> bool) (g : A -> bool) l l' :
  (forall a b, g a = false -> f (a, b) = false) ->
  filter f (list_prod l l') = filter f (list_prod (filter g l) l').
Proof.
  intros H. induction l as [|a l IH]; simpl; [reflexivity|].
  rewrite filter_app, IH. destruct (g a) eqn:G; simpl; [rewrite filter_app; reflexivity|].
  rewrite all_filter_nil; [reflexivity|].
  intros p Hp. apply in_map_iff in Hp. destruct Hp as (b & <- & _). apply H, G.
Qed.

Lemma state_at_S tr i s : nth_error tr i = Some s -> state_at tr (S i) = apply (state_at tr i) s.
Proof.
  intros H. unfold state_at. rewrite (firstn_snoc _ _ _ H), fold_left_app. reflexivity.
Qed.

Lemma state_at_mono (b : state -> bool) tr i j :
  (forall st s, b st = true -> b (apply st s) = true) -> i <= j -> j <= List.length tr ->
  b (state_at tr i) = true -> b (state_at tr j) = true.
Proof.
  intros M. induction 1 as [|m Hle IH]; intros Hl H; [assumption|].
  destruct (nth_error_lt tr m) as [s Hs]; [lia|].
  rewrite (state_at_S _ _ _ Hs). apply M, IH; [lia|assumption].
Qed.

(* The one induction behind fork_between, join_between, rel_between and acq_between: [b] is what
   each of them watches in the state (forked, joined, "t holds m"), and the step found is then
   analysed by cases in each. *)
Lemma change_between (b : state -> bool) tr i j : i <= j -> j <= List.length tr ->
  b (state_at tr i) = false -> b (state_at tr j) = true ->
  exists k s, i <= k /\ k < j /\ nth_error tr k = Some s /\
    b (state_at tr k) = false /\ b (apply (state_at tr k) s) = true.
Proof.
  induction 1 as [|m Hle IH]; intros Hl H0 H1; [congruence|].
  destruct (nth_error_lt tr m) as [s Hs]; [lia|].
  destruct (b (state_at tr m)) eqn:E.
  - destruct IH as (k & s' & ? & ? & ?); auto; [lia|]. exists k, s'; auto.
  - exists m, s. rewrite <- (state_at_S _ _ _ Hs). auto.
Qed.

Lemma apply_forked st s : forked st = true -> forked (apply st s) = true.
Proof. destruct s as [t []]; simpl; auto. Qed.

Lemma apply_joined st s : joined st = true -> joined (apply st s) = true.
Proof. destruct s as [t []]; simpl; auto. Qed.

Lemma fork_between tbl tr i j : valid tbl tr -> i <= j -> j <= List.length tr ->
  forked (state_at tr i) = false -> forked (state_at tr j) = true ->
  exists k, i <= k /\ k < j /\ nth_error tr k = Some (Ctl, EFork).
Proof.
  intros V Hij Hl H0 H1.
  destruct (change_between forked tr i j Hij Hl H0 H1) as (k & [t e] & Hik & Hkj & Hk & N & Y).
  exists k. repeat split; auto.
  destruct (V _ _ Hk) as [_ Hok]. unfold apply in Y. destruct e; simpl in *; try congruence.
  destruct Hok as [-> _]. assumption.
Qed.

Lemma join_between tbl tr i j : valid tbl tr -> i <= j -> j <= List.length tr ->
  joined (state_at tr i) = false -> joined (state_at tr j) = true ->
  exists k, i <= k /\ k < j /\ nth_error tr k = Some (Ctl, EJoin).
Proof.
  intros V Hij Hl H0 H1.
  destruct (change_between joined tr i j Hij Hl H0 H1) as (k & [t e] & Hik & Hkj & Hk & N & Y).
  exists k. repeat split; auto.
  destruct (V _ _ Hk) as [_ Hok]. unfold apply in Y. destruct e; simpl in *; try congruence.
  destruct Hok as [-> _]. assumption.
Qed.

Lemma thread_eqb_eq a b : thread_eqb a b = true <-> a = b.
Proof. destruct a, b; simpl; split; congruence. Qed.

Lemma othread_eqb_eq a b : othread_eqb a b = true <-> a = b.
Proof. destruct a as [[]|], b as [[]|]; simpl; split; congruence. Qed.

(* what a step does to "t holds m" *)
Lemma holds_apply st t' e m t :
  othread_eqb (owner (apply st (t', e)) m) (Some t) =
  match e with
  | EAcq m' => if String.eqb m m' then thread_eqb t' t else othread_eqb (owner st m) (Some t)
  | ERel m' => if String.eqb m m' then false else othread_eqb (owner st m) (Some t)
  | _ => othread_eqb (owner st m) (Some t)
  end.
Proof. destruct e as [m'|m'| | |]; simpl; unfold set_owner; try destruct (String.eqb m m'); reflexivity. Qed.

(* the first release after a point where t holds m is by t *)
Lemma rel_between tbl tr m t i j : valid tbl tr -> i <= j -> j <= List.length tr ->
  owner (state_at tr i) m = Some t -> owner (state_at tr j) m <> Some t ->
  exists k, i <= k /\ k < j /\ nth_error tr k = Some (t, ERel m).
Proof.
  intros V Hij Hl H0 H1.
  destruct (change_between (fun st => negb (othread_eqb (owner st m) (Some t))) tr i j Hij Hl)
    as (k & [t' e] & Hik & Hkj & Hk & N & Y).
  { apply negb_false_iff, othread_eqb_eq, H0. }
  { apply negb_true_iff, not_true_is_false. rewrite othread_eqb_eq. exact H1. }
  exists k. repeat split; auto.
  apply negb_false_iff in N. apply negb_true_iff in Y. rewrite holds_apply in Y.
  destruct (V _ _ Hk) as [_ Hok].
  destruct e as [m'|m'| | |]; simpl in Hok; try congruence; destruct (String.eqb_spec m m') as [<-|]; try congruence.
  - (* m is taken: but t holds it *) apply othread_eqb_eq in N. congruence.
  - (* m is released: by its owner *) apply othread_eqb_eq in N. assert (t' = t) as -> by congruence. exact Hk.
Qed.

(* if t does not hold m at a and holds it at j, it acquired it in between *)
Lemma acq_between tr m t a j : a <= j -> j <= List.length tr ->
  owner (state_at tr a) m <> Some t -> owner (state_at tr j) m = Some t ->
  exists l, a <= l /\ l < j /\ nth_error tr l = Some (t, EAcq m).
Proof.
  intros Haj Hl H0 H1.
  destruct (change_between (fun st => othread_eqb (owner st m) (Some t)) tr a j Haj Hl)
    as (k & [t' e] & Hak & Hkj & Hk & N & Y).
  { apply not_true_is_false. rewrite othread_eqb_eq. exact H0. }
  { apply othread_eqb_eq, H1. }
  exists k. repeat split; auto.
  rewrite holds_apply in Y.
  destruct e as [m'|m'| | |]; try congruence; destruct (String.eqb_spec m m') as [<-|]; try congruence.
  apply thread_eqb_eq in Y. subst t'. exact Hk.
Qed.

(* two accesses made under the same mutex by different threads are ordered *)
Lemma lock_hb tbl tr m i j t1 t2 o1 e2 : valid tbl tr -> i < j ->
  nth_error tr i = Some (t1, EAcc o1) -> nth_error tr j = Some (t2, e2) -> t1 <> t2 ->
  owner (state_at tr i) m = Some t1 -> owner (state_at tr j) m = Some t2 ->
  hb tr i j.
Proof.
  intros V Hij Hi Hj Hne O1 O2.
  pose proof (nth_error_some_lt _ _ _ Hj) as Hjl.
  destruct (rel_between tbl tr m t1 i j) as (k & Hik & Hkj & Hk); auto; try lia.
  { rewrite O2. congruence. }
  assert (i <> k) by (intros ->; rewrite Hi in Hk; discriminate).
  assert (Ok1 : owner (state_at tr (S k)) m <> Some t2).
  { rewrite (state_at_S _ _ _ Hk). unfold apply; simpl. unfold set_owner. rewrite String.eqb_refl. discriminate. }
  destruct (acq_between tr m t2 (S k) j) as (l & Hkl & Hlj & Hl); auto; try lia.
  apply hb_trans with k; [apply hb_po with t1 (EAcc o1) (ERel m); auto; lia|].
  apply hb_trans with l; [apply hb_lock with t1 t2 m; auto; lia|].
  apply hb_po with t2 (EAcq m) e2; auto.
Qed.

Lemma may_alias_sym v w : may_alias v w = may_alias w v.
Proof. destruct v, w; simpl; auto. apply String.eqb_sym. Qed.

Lemma conflicting_sym a b : conflicting a b = conflicting b a.
Proof. unfold conflicting. rewrite may_alias_sym, orb_comm. reflexivity. Qed.

Lemma both_atomic_sym a b : both_atomic a b = both_atomic b a.
Proof. unfold both_atomic. destruct (a_prot a), (a_prot b); reflexivity. Qed.

Lemma common_mutex_inv a b : common_mutex a b = true ->
  exists m, a_prot a = Mutex m /\ a_prot b = Mutex m.
Proof.
  unfold common_mutex. destruct (a_prot a) as [m| |], (a_prot b) as [n| |]; try discriminate.
  intros H. apply String.eqb_eq in H. subst n. eauto.
Qed.

Lemma in_ctl_occs tbl o : In o (ctl_occs tbl) <-> In o (occs tbl) /\ o_thread o = Ctl.
Proof. unfold ctl_occs. rewrite filter_In, thread_eqb_eq. tauto. Qed.

Lemma in_flt_occs tbl o : In o (flt_occs tbl) <-> In o (occs tbl) /\ o_thread o = Flt.
Proof. unfold flt_occs. rewrite filter_In, thread_eqb_eq. tauto. Qed.

Lemma in_race_freeb tbl c f : In (c, f) (race_freeb tbl) <->
  In c (occs tbl) /\ o_thread c = Ctl /\ In f (occs tbl) /\ o_thread f = Flt /\ pair_ok c f = false.
Proof.
  unfold race_freeb. rewrite filter_In, in_prod_iff, in_ctl_occs, in_flt_occs. simpl.
  rewrite negb_true_iff. tauto.
Qed.

(* Control accesses before the fork or after the join pass [pair_ok] against everything, so the
   offenders are among the pairs with a [Concurrent] control access.  On the tables of the sources
   this is a fifth of the pairs: evaluate the checker in this form. *)
Lemma race_freeb_conc tbl : race_freeb tbl =
  filter (fun p => negb (pair_ok (fst p) (snd p))) (list_prod (conc_ctl_occs tbl) (flt_occs tbl)).
Proof.
  apply filter_prod_l. intros c f H. unfold pair_ok. simpl.
  destruct (o_phase c); try discriminate H; simpl; rewrite orb_true_r; reflexivity.
Qed.

(* what [pair_ok] accepts of a conflicting pair is what [race_free] asks for *)
Lemma pair_ok_true c f : pair_ok c f = true -> conflicting (o_acc c) (o_acc f) = true ->
  both_atomic (o_acc c) (o_acc f) = true \/
  (exists m, a_prot (o_acc c) = Mutex m /\ a_prot (o_acc f) = Mutex m) \/
  o_phase c <> Concurrent.
Proof.
  unfold pair_ok. intros P Hconf. rewrite Hconf in P. simpl in P.
  rewrite !orb_true_iff in P. destruct P as [[P|P]|P]; auto using common_mutex_inv.
  right; right. intros E. rewrite E in P. discriminate.
Qed.

Lemma pair_ok_false c f : pair_ok c f = false ->
  conflicting (o_acc c) (o_acc f) = true /\ both_atomic (o_acc c) (o_acc f) = false /\
  common_mutex (o_acc c) (o_acc f) = false /\ o_phase c = Concurrent.
Proof.
  unfold pair_ok. rewrite !orb_false_iff, negb_false_iff. intros [[[A B] C] D].
  repeat split; auto. destruct (o_phase c); simpl in D; congruence.
Qed.

(* a pair the checker accepts is never a race of an execution: Ctl access first *)
Lemma ok_pair_hb_cf tbl tr i j c f : valid tbl tr -> i < j ->
  nth_error tr i = Some (Ctl, EAcc c) -> nth_error tr j = Some (Flt, EAcc f) ->
  conflicting (o_acc c) (o_acc f) = true -> both_atomic (o_acc c) (o_acc f) = false ->
  pair_ok c f = true -> hb tr i j.
Proof.
  intros V Hij Hi Hj Hconf Hat P.
  pose proof (V _ _ Hi) as [_ (_ & _ & Phi & Li)]. pose proof (V _ _ Hj) as [[Fj Jj] (_ & _ & _ & Lj)].
  simpl in *. pose proof (nth_error_some_lt _ _ _ Hj) as Hjl.
  destruct (pair_ok_true _ _ P Hconf) as [A|[(m & A & B)|Ph]]; [congruence| |].
  - eapply lock_hb with (m := m) (t1 := Ctl) (t2 := Flt); eauto; discriminate.
  - destruct (o_phase c); [|contradiction|]; simpl in Phi.
    + (* written before the fork: the fork lies between *)
      destruct (fork_between tbl tr i j) as (k & Hik & Hkj & Hk); auto; try lia.
      assert (i <> k) by (intros ->; rewrite Hi in Hk; discriminate).
      apply hb_trans with k; [apply hb_po with Ctl (EAcc c) EFork; auto; lia|].
      apply hb_fork with (EAcc f); auto.
    + (* after the join the filtering thread does not run any more *)
      rewrite (state_at_mono joined tr i j apply_joined) in Jj; auto; try lia; discriminate.
Qed.

(* ... Flt access first *)
Lemma ok_pair_hb_fc tbl tr i j c f : valid tbl tr -> i < j ->
  nth_error tr i = Some (Flt, EAcc f) -> nth_error tr j = Some (Ctl, EAcc c) ->
  conflicting (o_acc c) (o_acc f) = true -> both_atomic (o_acc c) (o_acc f) = false ->
  pair_ok c f = true -> hb tr i j.
Proof.
  intros V Hij Hi Hj Hconf Hat P.
  pose proof (V _ _ Hi) as [[Fi Ji] (_ & _ & _ & Li)]. pose proof (V _ _ Hj) as [_ (_ & _ & Phj & Lj)].
  simpl in *. pose proof (nth_error_some_lt _ _ _ Hj) as Hjl.
  destruct (pair_ok_true _ _ P Hconf) as [A|[(m & A & B)|Ph]]; [congruence| |].
  - eapply lock_hb with (m := m) (t1 := Flt) (t2 := Ctl); eauto; discriminate.
  - destruct (o_phase c); [|contradiction|]; simpl in Phj.
    + rewrite (state_at_mono forked tr i j apply_forked) in Phj; auto; try lia; discriminate.
    + destruct (join_between tbl tr i j) as (k & Hik & Hkj & Hk); auto; try lia.
      assert (i <> k) by (intros ->; rewrite Hi in Hk; discriminate).
      apply hb_trans with k; [apply hb_join with (EAcc f); auto; lia|].
      apply hb_po with Ctl EJoin (EAcc c); auto.
Qed.

(* MAIN THEOREM (all tables, all executions): every race of every execution is
   between a pair of table accesses that the checker reports. *)
Theorem races_confined tbl tr i j o1 o2 : valid tbl tr -> race tr i j o1 o2 ->
  exists c f, In (c, f) (race_freeb tbl) /\ ((o1 = c /\ o2 = f) \/ (o1 = f /\ o2 = c)).
Proof.
  intros V (t1 & t2 & Hij & Hi & Hj & Hne & Hconf & Hat & Hnhb).
  pose proof (V _ _ Hi) as [_ (In1 & T1 & _)]. pose proof (V _ _ Hj) as [_ (In2 & T2 & _)].
  simpl in *.
  destruct t1, t2; try congruence.
  - exists o1, o2. split; [|left; auto]. apply in_race_freeb. repeat split; auto.
    destruct (pair_ok o1 o2) eqn:P; auto. exfalso. apply Hnhb.
    exact (ok_pair_hb_cf tbl tr i j o1 o2 V Hij Hi Hj Hconf Hat P).
  - rewrite conflicting_sym in Hconf. rewrite both_atomic_sym in Hat.
    exists o2, o1. split; [|right; auto]. apply in_race_freeb. repeat split; auto.
    destruct (pair_ok o2 o1) eqn:P; auto. exfalso. apply Hnhb.
    exact (ok_pair_hb_fc tbl tr i j o2 o1 V Hij Hi Hj Hconf Hat P).
Qed.

Theorem race_freeb_sound tbl : race_freeb tbl = [] ->
  forall tr, valid tbl tr -> forall i j o1 o2, ~ race tr i j o1 o2.
Proof.
  intros H tr V i j o1 o2 R.
  destruct (races_confined _ _ _ _ _ _ V R) as (c & f & Hin & _).
  rewrite H in Hin. contradiction.
Qed.

Lemma mem_str_in s l : mem_str s l = true <-> In s l.
Proof.
  induction l as [|x l IH]; simpl; [split; [discriminate|contradiction]|].
  rewrite orb_true_iff, IH, String.eqb_eq. split; intros [H|H]; auto.
Qed.

Lemma dedup_in l : forall seen x, In x l -> In x seen \/ In x (dedup l seen).
Proof.
  induction l as [|a l IH]; simpl; intros seen x Hx; [contradiction|].
  destruct (mem_str a seen) eqn:E.
  - destruct Hx as [->|Hx]; [left; apply mem_str_in; assumption|]. apply IH; assumption.
  - destruct Hx as [->|Hx]; [|destruct (IH (a :: seen) x Hx) as [[->|H]|H]]; simpl; auto.
Qed.

Lemma in_racy_vars tbl c f : In (c, f) (race_freeb tbl) ->
  In (var_name (a_var (o_acc c))) (racy_vars tbl) /\ In (var_name (a_var (o_acc f))) (racy_vars tbl).
Proof.
  intros H.
  assert (S : forall x, In x (pair_vars (c, f)) -> In x (racy_vars tbl)).
  { intros x Hx. destruct (dedup_in (flat_map pair_vars (race_freeb tbl)) [] x) as [[]|D]; [|exact D].
    apply in_flat_map. exists (c, f). auto. }
  split; apply S; simpl; auto.
Qed.

Lemma racy_vars_nil tbl : racy_vars tbl = [] -> race_freeb tbl = [].
Proof.
  intros H. destruct (race_freeb tbl) as [|[c f] r] eqn:E; [reflexivity|].
  destruct (in_racy_vars tbl c f) as [Hc _]; [rewrite E; left; reflexivity|].
  rewrite H in Hc. contradiction.
Qed.

(* the racy variables of any execution are among [racy_vars tbl] *)
Theorem race_vars_confined tbl tr i j o1 o2 : valid tbl tr -> race tr i j o1 o2 ->
  In (var_name (a_var (o_acc o1))) (racy_vars tbl) /\ In (var_name (a_var (o_acc o2))) (racy_vars tbl).
Proof.
  intros V R. destruct (races_confined _ _ _ _ _ _ V R) as (c & f & Hin & Hcf).
  destruct (in_racy_vars _ _ _ Hin) as [Hc Hf].
  destruct Hcf as [[-> ->]|[-> ->]]; auto.
Qed.

Lemma hb_lt tr i j : hb tr i j -> i < j.
Proof. induction 1; lia. Qed.

Lemma hb_adjacent_acc tr i t1 t2 o1 o2 : hb tr i (S i) ->
  nth_error tr i = Some (t1, EAcc o1) -> nth_error tr (S i) = Some (t2, EAcc o2) -> t1 = t2.
Proof.
  intros H. remember (S i) as j eqn:Ej. revert Ej.
  induction H as [i j t e1 e2 _ A B|i j u1 u2 m _ A B|i j e _ A B|i j e _ A B|i j k H1 IH1 H2 IH2];
    intros Ej Hi Hj; subst.
  - rewrite A in Hi. rewrite B in Hj. congruence.
  - rewrite A in Hi. discriminate.
  - rewrite A in Hi. discriminate.
  - rewrite B in Hj. discriminate.
  - apply hb_lt in H1. apply hb_lt in H2. lia.
Qed.

Lemma adjacent_race tr i t1 t2 o1 o2 :
  nth_error tr i = Some (t1, EAcc o1) -> nth_error tr (S i) = Some (t2, EAcc o2) -> t1 <> t2 ->
  conflicting (o_acc o1) (o_acc o2) = true -> both_atomic (o_acc o1) (o_acc o2) = false ->
  race tr i (S i) o1 o2.
Proof.
  intros Hi Hj Hne Hconf Hat. exists t1, t2. repeat split; auto.
  intros Hhb. exact (Hne (hb_adjacent_acc _ _ _ _ _ _ Hhb Hi Hj)).
Qed.

Lemma rw_eqb_eq a b : rw_eqb a b = true -> a = b.
Proof. destruct a, b; simpl; congruence. Qed.
Lemma phase_eqb_eq a b : phase_eqb a b = true -> a = b.
Proof. destruct a, b; simpl; congruence. Qed.
Lemma var_eqb_eq a b : var_eqb a b = true -> a = b.
Proof. destruct a, b; simpl; try congruence. intros H; apply String.eqb_eq in H; congruence. Qed.
Lemma prot_eqb_eq a b : prot_eqb a b = true -> a = b.
Proof. destruct a, b; simpl; try congruence. intros H; apply String.eqb_eq in H; congruence. Qed.
Lemma access_eqb_eq a b : access_eqb a b = true -> a = b.
Proof.
  destruct a, b; unfold access_eqb; simpl. rewrite !andb_true_iff. intros [[[A B] C] D].
  apply var_eqb_eq in A. apply rw_eqb_eq in B. apply prot_eqb_eq in C. apply String.eqb_eq in D. congruence.
Qed.
Lemma occ_eqb_eq a b : occ_eqb a b = true -> a = b.
Proof.
  destruct a, b; unfold occ_eqb; simpl. rewrite !andb_true_iff. intros [[[A B] C] D].
  apply thread_eqb_eq in A. apply phase_eqb_eq in B. apply String.eqb_eq in C. apply access_eqb_eq in D. congruence.
Qed.

Lemma step_okb_sound tbl st s : step_okb tbl st s = true -> step_ok tbl st s.
Proof.
  destruct s as [t e]. unfold step_okb, step_ok. simpl. rewrite andb_true_iff. intros [En H]. split.
  - destruct t; simpl in *; auto. apply andb_true_iff in En. destruct En as [A B].
    apply negb_true_iff in B. auto.
  - destruct e as [m|m|o| |].
    + apply othread_eqb_eq, H.
    + apply othread_eqb_eq, H.
    + rewrite !andb_true_iff, thread_eqb_eq in H. destruct H as [[[A B] C] D].
      apply existsb_exists in A. destruct A as (o' & Hin & Heq). apply occ_eqb_eq in Heq. subst o'.
      repeat split; auto.
      * destruct t, (o_phase o); simpl in *; auto. apply negb_true_iff, C.
      * intros m Hm. rewrite Hm in D. apply othread_eqb_eq, D.
    + rewrite andb_true_iff, thread_eqb_eq, negb_true_iff in H. exact H.
    + rewrite !andb_true_iff, thread_eqb_eq, negb_true_iff in H. tauto.
Qed.

(* [valid], read step by step from a state *)
Fixpoint steps_ok (tbl : table) (st : state) (tr : trace) : Prop :=
  match tr with [] => True | s :: r => step_ok tbl st s /\ steps_ok tbl (apply st s) r end.

Lemma steps_ok_nth tbl tr : forall st, steps_ok tbl st tr ->
  forall i s, nth_error tr i = Some s -> step_ok tbl (fold_left apply (firstn i tr) st) s.
Proof.
  induction tr as [|a tr IH]; intros st H [|i] s Hs; try discriminate Hs; destruct H as [H1 H2]; simpl in *.
  - injection Hs as <-. exact H1.
  - exact (IH _ H2 _ _ Hs).
Qed.

Lemma steps_ok_valid tbl tr : steps_ok tbl init tr -> valid tbl tr.
Proof. intros H i s. exact (steps_ok_nth tbl tr init H i s). Qed.

Lemma validb_from_steps tbl tr : forall st, validb_from tbl st tr = true -> steps_ok tbl st tr.
Proof.
  induction tr as [|a tr IH]; simpl; intros st H; [exact I|].
  apply andb_true_iff in H. destruct H as [H1 H2]. split; [apply step_okb_sound, H1 | apply IH, H2].
Qed.

Theorem validb_sound tbl tr : validb tbl tr = true -> valid tbl tr.
Proof. intros H. apply steps_ok_valid, validb_from_steps, H. Qed.

(* every pair the checker reports is a race of some execution of the table: fork, each
   thread takes the mutex its access is listed with (they differ), then the two accesses *)
Definition acq (t : thread) (o : occ) : trace :=
  match a_prot (o_acc o) with Mutex m => [(t, EAcq m)] | _ => [] end.

Definition witness (c f : occ) : trace :=
  ((Ctl, EFork) :: acq Ctl c ++ acq Flt f) ++ [(Ctl, EAcc c); (Flt, EAcc f)].

Theorem offenders_realisable tbl c f : In (c, f) (race_freeb tbl) ->
  exists tr i, valid tbl tr /\ race tr i (S i) c f.
Proof.
  intros H. apply in_race_freeb in H. destruct H as (Hc & Tc & Hf & Tf & P).
  apply pair_ok_false in P. destruct P as (Hconf & Hat & Hcm & Hph).
  exists (witness c f), (S (List.length (acq Ctl c ++ acq Flt f))). split.
  - apply steps_ok_valid. unfold witness, acq, common_mutex in *.
    destruct (a_prot (o_acc c)) as [m1| |] eqn:Pc, (a_prot (o_acc f)) as [m2| |] eqn:Pf.
    (* the conditions of each step, one by one ([simpl] on the whole conjunction copies the state at
       every step); left are: the mutexes are free when taken, held at the accesses, and the phase *)
    all: repeat split; simpl; auto.
    all: unfold set_owner; rewrite ?Hph, ?Pc, ?Pf, ?(String.eqb_sym m2 m1), ?Hcm; auto.
    all: intros m [= <-]; rewrite ?String.eqb_refl, ?Hcm; reflexivity.
  - assert (N : forall (l : trace) a b, nth_error (l ++ [a; b]) (List.length l) = Some a /\
                             nth_error (l ++ [a; b]) (S (List.length l)) = Some b)
      by (induction l; simpl; auto).
    apply (adjacent_race _ _ Ctl Flt); auto; try discriminate; apply (N ((Ctl, EFork) :: acq Ctl c ++ acq Flt f)).
Qed.

Local Open Scope string_scope.

Definition ex_z_ctor := mkOcc Ctl PreFork "(construction)" (mkAcc (Named "z") Wr Plain "ctor").
Definition ex_x_set  := mkOcc Ctl Concurrent "set" (mkAcc (Named "x") Wr (Mutex "m") "set:1").
Definition ex_y_set  := mkOcc Ctl Concurrent "set" (mkAcc (Named "y") Wr Atomic "set:2").
Definition ex_x_body := mkOcc Flt Concurrent "body" (mkAcc (Named "x") Rd (Mutex "m") "body:1").
Definition ex_y_body := mkOcc Flt Concurrent "body" (mkAcc (Named "y") Rd Atomic "body:2").
Definition ex_z_body := mkOcc Flt Concurrent "body" (mkAcc (Named "z") Rd Plain "body:3").

(* x under a mutex on both sides, y atomic on both sides, z written only before the fork *)
Definition ex_tbl : table :=
  [ mkEntry "(construction)" Ctl PreFork [o_acc ex_z_ctor];
    mkEntry "set" Ctl Concurrent [o_acc ex_x_set; o_acc ex_y_set];
    mkEntry "body" Flt Concurrent [o_acc ex_x_body; o_acc ex_y_body; o_acc ex_z_body] ].

Definition ex_trace : trace :=
  [ (Ctl, EAcc ex_z_ctor); (Ctl, EFork);
    (Flt, EAcq "m"); (Flt, EAcc ex_x_body); (Flt, ERel "m");
    (Ctl, EAcq "m"); (Ctl, EAcc ex_x_set); (Ctl, EAcc ex_y_set); (Flt, EAcc ex_y_body); (Flt, EAcc ex_z_body);
    (Ctl, ERel "m"); (Ctl, EJoin) ].

(* the same with the filtering thread reading x without the mutex *)
Definition ex_x_body_plain := mkOcc Flt Concurrent "body" (mkAcc (Named "x") Rd Plain "body:1").
Definition ex_bad_tbl : table :=
  [ mkEntry "set" Ctl Concurrent [o_acc ex_x_set];
    mkEntry "body" Flt Concurrent [o_acc ex_x_body_plain] ].
Definition ex_bad_trace : trace :=
  [ (Ctl, EFork); (Ctl, EAcq "m"); (Ctl, EAcc ex_x_set); (Flt, EAcc ex_x_body_plain) ].

(* order-insensitive comparison of two lists of names *)
Definition subset_str (a b : list string) : bool := forallb (fun x => mem_str x b) a.
Definition same_set (a b : list string) : bool := subset_str a b && subset_str b a.

Lemma subset_str_in a b : subset_str a b = true -> forall x, In x a -> In x b.
Proof.
  unfold subset_str. rewrite forallb_forall. intros H x Hx. apply mem_str_in, H, Hx.
Qed.

(* to see that some names are shared it is enough to look each of them up on both sides *)
Lemma subset_shared_vars tbl req :
  forallb (fun v => mem_str v (occ_names (conc_ctl_occs tbl)) && mem_str v (occ_names (flt_occs tbl))) req = true ->
  subset_str req (shared_vars tbl) = true.
Proof.
  unfold subset_str, shared_vars. rewrite !forallb_forall. intros H v Hv.
  specialize (H v Hv). apply andb_true_iff in H. destruct H as [C F]. apply mem_str_in.
  destruct (dedup_in (filter (fun v => mem_str v (occ_names (flt_occs tbl))) (occ_names (conc_ctl_occs tbl))) [] v)
    as [[]|D]; [|exact D].
  apply filter_In. split; [apply mem_str_in, C | exact F].
Qed.

Lemma same_set_in a b : same_set a b = true -> forall x, In x a <-> In x b.
Proof.
  unfold same_set. rewrite andb_true_iff. intros [A B] x.
  split; apply subset_str_in; assumption.
Qed.

Lemma race_vars_among tbl l : same_set (racy_vars tbl) l = true ->
  forall tr i j o1 o2, valid tbl tr -> race tr i j o1 o2 ->
  In (var_name (a_var (o_acc o1))) l /\ In (var_name (a_var (o_acc o2))) l.
Proof.
  intros S tr i j o1 o2 V R. destruct (race_vars_confined _ _ _ _ _ _ V R) as [A B].
  split; apply (same_set_in _ _ S); assumption.
Qed.

Lemma same_set_nil l : same_set l [] = true -> l = [].
Proof. destruct l as [|x l]; [reflexivity|]. unfold same_set, subset_str; simpl. discriminate. Qed.
