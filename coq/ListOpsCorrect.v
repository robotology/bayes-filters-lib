(* ListOpsCorrect.v — transport lemmas between the two instances of MatOps.
   The executable list instance (ListOps.v) instantiated at the scalars of a
   realFieldType computes, on well-formed inputs, the same matrices as the
   MathComp instance (MxOps.v), operation by operation, for the structural
   operations.  This turns "the list instance is trusted to implement the
   interface" into "proved, up to rounding" for those operations; the
   numerical routines (Gauss-Jordan inverse / determinant) are covered by
   ListGauss.v. *)
Require Import ZArith List.
Require Import BFL.Ops BFL.ListFacts BFL.ListOps.
From mathcomp Require Import ssreflect ssrfun ssrbool eqtype ssrnat seq choice fintype bigop order ssralg ssrnum zmodp matrix mxalgebra.
Require Import BFL.MxOps.
Set Implicit Arguments.
Unset Strict Implicit.
Unset Printing Implicit Defensive.
Import GRing.Theory.
Local Open Scope ring_scope.

(* Entries of the list combinators ListOps.v is written with, inside the index
   range and for any default values.  zipw, zipw2, lhcat and the row numbering of
   gj_step are all a map over a combine; the pivot search and the right-hand block
   of the reduced matrix are read through skipn. *)
Section Nth.
Variables (A B C : Type).

Lemma nth_map_lt (f : A -> B) l k d d' :
  (k < length l)%N -> List.nth k (List.map f l) d = f (List.nth k l d').
Proof. by move/ltP; exact: nth_map_in. Qed.

Lemma nth_map_combine (g : A * B -> C) a b k d da db :
  (k < length a)%N -> (k < length b)%N ->
  List.nth k (List.map g (List.combine a b)) d = g (List.nth k a da, List.nth k b db).
Proof. by elim: a b k => [|x a IH] [|y b] [|k] //=; exact: IH. Qed.

Lemma length_map_combine (g : A * B -> C) a b :
  length (List.map g (List.combine a b)) = minn (length a) (length b).
Proof. by elim: a b => [|x a IH] [|y b] //=; rewrite IH minnSS. Qed.

End Nth.

Section Transport.
Variable F : realFieldType.
Variable tr : Transc F.
Let S := FOps tr.

Definition lmxF := list (list F).

(* interpretation of a list matrix *)
Definition toM m n (l : lmxF) : 'M[F]_(m,n) :=
  \matrix_(i, j) List.nth (j : nat) (List.nth (i : nat) l nil) 0.

(* well-formed: m rows of n entries *)
Definition wf m n (l : lmxF) : Prop :=
  length l = m /\ List.Forall (fun r => length r = n) l.

Lemma toM_lget m n (l : lmxF) (i : 'I_m) (j : 'I_n) : toM m n l i j = lget S l i j.
Proof. by rewrite mxE. Qed.

Lemma wf_nth_row m n (l : lmxF) (i : nat) : wf m n l -> (i < m)%N -> length (List.nth i l nil) = n.
Proof.
case=> lm /List.Forall_forall H im; apply: H; apply: List.nth_In.
by rewrite lm; apply/ltP.
Qed.

Lemma wf_of_nth m n (l : lmxF) : length l = m ->
  (forall i, (i < m)%N -> length (List.nth i l nil) = n) -> wf m n l.
Proof.
move=> lm H; split=> //; apply/List.Forall_forall => r inr.
by case: (List.In_nth _ _ nil inr) => i [il <-]; apply: H; rewrite -lm; apply/ltP.
Qed.

Lemma lget_lbuild m n f i j : (i < m)%N -> (j < n)%N -> lget S (lbuild S m n f) i j = f i j.
Proof. by move=> im jn; rewrite /lget /lbuild !nth_map_seqN. Qed.

Lemma lbuild_wf m n f : wf m n (lbuild S m n f).
Proof.
apply: wf_of_nth => [|i im]; first by rewrite List.map_length List.seq_length.
by rewrite /lbuild nth_map_seqN // List.map_length List.seq_length.
Qed.

Lemma toM_lbuildE m n (f : nat -> nat -> F) (A : 'M[F]_(m,n)) :
  (forall (i : 'I_m) (j : 'I_n), f i j = A i j) -> toM m n (lbuild S m n f) = A.
Proof. by move=> E; apply/matrixP => i j; rewrite toM_lget lget_lbuild. Qed.

Lemma toM_lbuild m n f : toM m n (lbuild S m n f) = mx_build m n f.
Proof. by apply: toM_lbuildE => i j; rewrite mxE. Qed.

Lemma lbuild_lget m n (A : lmxF) : wf m n A -> lbuild S m n (fun i j => lget S A i j) = A.
Proof.
move=> wA; have [wB lA] := (lbuild_wf m n (fun i j => lget S A i j), proj1 wA).
apply: (@List.nth_ext _ _ _ nil nil) => [|i]; rewrite (proj1 wB) // => /ltP im.
apply: (@List.nth_ext _ _ _ 0 0) => [|j]; rewrite (wf_nth_row wB im) ?(wf_nth_row wA im) // => /ltP jn.
exact: lget_lbuild.
Qed.

Lemma zipwE f (a b : list F) :
  zipw S f a b = List.map (fun p => f p.1 p.2) (List.combine a b).
Proof. by elim: a b => [|x a IH] [|y b] //=; rewrite IH. Qed.

Lemma zipw2E f (A B : lmxF) :
  zipw2 S f A B = List.map (fun p => zipw S f p.1 p.2) (List.combine A B).
Proof. by elim: A B => [|x A IH] [|y B] //=; rewrite IH. Qed.

Lemma nth_zipw (f : F -> F -> F) (a b : list F) k :
  (k < length a)%N -> (k < length b)%N ->
  List.nth k (zipw S f a b) 0 = f (List.nth k a 0) (List.nth k b 0).
Proof. by move=> ka kb; rewrite zipwE (nth_map_combine _ _ 0 0). Qed.

Lemma length_zipw f (a b : list F) : length (zipw S f a b) = minn (length a) (length b).
Proof. by rewrite zipwE length_map_combine. Qed.

Lemma zipw2_wf m n f (A B : lmxF) : wf m n A -> wf m n B -> wf m n (zipw2 S f A B).
Proof.
move=> wA wB; have [lA lB] := (proj1 wA, proj1 wB); rewrite zipw2E.
apply: wf_of_nth => [|i im]; first by rewrite length_map_combine lA lB minnn.
by rewrite (nth_map_combine _ _ nil nil) ?lA ?lB // length_zipw !(@wf_nth_row m n) // minnn.
Qed.

Lemma toM_zipw2 m n f (A B : lmxF) : wf m n A -> wf m n B ->
  toM m n (zipw2 S f A B) = \matrix_(i, j) f (toM m n A i j) (toM m n B i j).
Proof.
move=> wA wB; apply/matrixP => i j; rewrite !mxE zipw2E.
rewrite (nth_map_combine _ _ nil nil) ?(proj1 wA) ?(proj1 wB) //.
by rewrite nth_zipw // (@wf_nth_row m n).
Qed.

Lemma toM_madd m n (A B : lmxF) : wf m n A -> wf m n B ->
  toM m n (@madd (ListMat S (fun _ X => X) (fun _ X => X)) m n A B) = toM m n A + toM m n B.
Proof. by move=> wA wB; rewrite /= toM_zipw2 //; apply/matrixP => i j; rewrite !mxE. Qed.

Lemma toM_msub m n (A B : lmxF) : wf m n A -> wf m n B ->
  toM m n (@msub (ListMat S (fun _ X => X) (fun _ X => X)) m n A B) = toM m n A - toM m n B.
Proof. by move=> wA wB; rewrite /= toM_zipw2 //; apply/matrixP => i j; rewrite !mxE. Qed.

Lemma toM_ltr m n (A : lmxF) : toM n m (ltr S m n A) = (toM m n A)^T.
Proof. by apply: toM_lbuildE => i j; rewrite !mxE. Qed.

Lemma ltr_wf m n (A : lmxF) : wf n m (ltr S m n A).
Proof. exact: lbuild_wf. Qed.

Lemma toM_lid n : toM n n (lid S n) = 1%:M.
Proof. by apply: toM_lbuildE => i j; rewrite mxE nat_eqbE -(inj_eq val_inj); case: eqP. Qed.

Lemma ldot_sum (r c : list F) n a : length r = n -> length c = n ->
  List.fold_left (fun acc p => sadd S acc (smul S (fst p) (snd p))) (List.combine r c) a =
  a + \sum_(k < n) List.nth (k : nat) r 0 * List.nth (k : nat) c 0.
Proof.
elim: r c n a => [|x r IH] [|y c] [|n] a //= lr lc.
- by rewrite big_ord0 addr0.
- rewrite (IH c n) ?big_ord_recl /= ?addrA //; [by case: lr | by case: lc].
Qed.

Lemma lmul_wf m n p (A B : lmxF) : length A = m -> wf m p (lmul S m n p A B).
Proof.
move=> lA; rewrite /lmul List.firstn_all2 ?lA //.
apply: wf_of_nth => [|i im]; first by rewrite List.map_length.
by rewrite (nth_map_lt _ _ nil) ?lA // List.map_length (proj1 (ltr_wf n p B)).
Qed.

Lemma toM_lmul m n p (A B : lmxF) : wf m n A -> wf n p B ->
  toM m p (lmul S m n p A B) = toM m n A *m toM n p B.
Proof.
move=> wA wB; have lA := proj1 wA; have wBt := ltr_wf n p B.
apply/matrixP => i j; rewrite !mxE /lmul List.firstn_all2 ?lA //.
rewrite (nth_map_lt _ _ nil) ?lA // (nth_map_lt _ _ nil) ?(proj1 wBt) //.
rewrite /ldot (@ldot_sum _ _ n) ?add0r ?(wf_nth_row wA) ?(wf_nth_row wBt) //.
apply: eq_bigr => k _; rewrite !mxE; congr (_ * _).
exact: (@lget_lbuild p n _ j k).
Qed.

(* f 0 = 0 takes care of the default entries *)
Lemma toM_map m n (f : F -> F) (A : lmxF) : f 0 = 0 ->
  toM m n (List.map (List.map f) A) = \matrix_(i, j) f (toM m n A i j).
Proof.
move=> f0; apply/matrixP => i j; rewrite !mxE.
have -> : (nil : list F) = List.map f nil by [].
by rewrite List.map_nth -[in LHS]f0 List.map_nth.
Qed.

Lemma map_wf m n (f : F -> F) (A : lmxF) : wf m n A -> wf m n (List.map (List.map f) A).
Proof.
move=> wA; apply: wf_of_nth => [|i im]; first by rewrite List.map_length (proj1 wA).
by rewrite (nth_map_lt _ _ nil) ?(proj1 wA) // List.map_length (wf_nth_row wA).
Qed.

Lemma toM_mopp m n (A : lmxF) :
  toM m n (@mopp (ListMat S (fun _ X => X) (fun _ X => X)) m n A) = - toM m n A.
Proof. by rewrite /= toM_map ?oppr0 //; apply/matrixP => i j; rewrite !mxE. Qed.

Lemma toM_mscale m n c (A : lmxF) :
  toM m n (@mscale (ListMat S (fun _ X => X) (fun _ X => X)) m n c A) = c *: toM m n A.
Proof. by rewrite /= toM_map ?mulr0 //; apply/matrixP => i j; rewrite !mxE. Qed.

Lemma toM_mzero m n :
  toM m n (@mzero (ListMat S (fun _ X => X) (fun _ X => X)) m n) = 0.
Proof. by apply: toM_lbuildE => i j; rewrite mxE. Qed.

Lemma lvcat_wf m1 m2 n (A B : lmxF) : wf m1 n A -> wf m2 n B -> wf (m1 + m2) n (lvcat S A B).
Proof.
move=> [lA fA] [lB fB]; split; first by rewrite /lvcat List.app_length lA lB.
by apply/List.Forall_app.
Qed.

Lemma toM_lvcat m1 m2 n (A B : lmxF) : length A = m1 ->
  toM (m1 + m2) n (lvcat S A B) = col_mx (toM m1 n A) (toM m2 n B).
Proof.
move=> lA; apply/matrixP => i j; rewrite !mxE /lvcat.
case: (splitP i) => [k ik|k ik]; rewrite !mxE ik.
- by rewrite List.app_nth1 // lA; apply/ltP.
- by rewrite -lA List.app_nth2_plus.
Qed.

Lemma lhcat_wf m n1 n2 (A B : lmxF) : wf m n1 A -> wf m n2 B -> wf m (n1 + n2) (lhcat S A B).
Proof.
move=> wA wB; have [lA lB] := (proj1 wA, proj1 wB).
apply: wf_of_nth => [|i im]; first by rewrite length_map_combine lA lB minnn.
rewrite /lhcat (nth_map_combine _ _ nil nil) ?lA ?lB //.
by rewrite List.app_length (wf_nth_row wA) ?(wf_nth_row wB).
Qed.

Lemma toM_lhcat m n1 n2 (A B : lmxF) : wf m n1 A -> wf m n2 B ->
  toM m (n1 + n2) (lhcat S A B) = row_mx (toM m n1 A) (toM m n2 B).
Proof.
move=> wA wB; apply/matrixP => i j; rewrite !mxE /lhcat.
rewrite (nth_map_combine _ _ nil nil) ?(proj1 wA) ?(proj1 wB) //=.
have rA := wf_nth_row wA (ltn_ord i).
case: (splitP j) => [k jk|k jk]; rewrite !mxE jk.
- by rewrite List.app_nth1 // rA; apply/ltP.
- by rewrite -rA List.app_nth2_plus.
Qed.

End Transport.

Print Assumptions toM_lmul.
Print Assumptions toM_madd.
Print Assumptions toM_lhcat.
