(* MxOps.v — the MathComp instance of the arithmetic interfaces: matrices
   'M[F]_(m,n) over an arbitrary realFieldType.  The transcendental scalar
   functions and the two matrix oracles are section variables (uninterpreted);
   theorems that need them carry their contracts as explicit premises.
   With the instance: what its accessors (mx_get, mcol, mrow) read, and Coq's boolean
   tests on nat, which the models use, as ssrnat's. *)
Require Import ZArith.
Require Import BFL.Ops BFL.ListFacts.
From mathcomp Require Import ssreflect ssrfun ssrbool eqtype ssrnat seq choice fintype bigop order ssralg ssrnum ssrint zmodp matrix mxalgebra.
Set Implicit Arguments.
Unset Strict Implicit.
Unset Printing Implicit Defensive.
Import Order.Theory GRing.Theory Num.Theory.
Local Open Scope ring_scope.

(* Coq's boolean tests on nat (used by the models) are ssrnat's *)
Lemma nat_eqbE a b : Nat.eqb a b = (a == b).
Proof. by case: Nat.eqb_spec => [->|/eqP/negbTE->]; rewrite ?eqxx. Qed.
Lemma nat_ltbE a b : Nat.ltb a b = (a < b)%N.
Proof. by apply/idP/idP => [/Nat.ltb_lt/ssrnat.ltP|/ssrnat.ltP/Nat.ltb_lt]. Qed.
Lemma nat_lebE a b : Nat.leb a b = (a <= b)%N.
Proof. by apply/idP/idP => [/Nat.leb_le/ssrnat.leP|/ssrnat.leP/Nat.leb_le]. Qed.
Lemma seq_iota a n : List.seq a n = iota a n.
Proof. by elim: n a => [|n IH] a //=; rewrite IH. Qed.
Lemma div_mulK k s : (0 < s)%N -> Nat.div (k * s)%N s = k.
Proof. by move=> s0; apply: Nat.div_mul => E; rewrite E in s0. Qed.
Lemma nth_map_seqN A (f : nat -> A) n i d : (i < n)%N -> List.nth i (List.map f (List.seq 0 n)) d = f i.
Proof. by move/ssrnat.ltP; apply: ListFacts.nth_map_seq. Qed.

Section Inst.
Variable F : realFieldType.

Definition Z_to_int (z : Z) : int :=
  match z with
  | Z0 => 0
  | Zpos p => (Pos.to_nat p)%:Z
  | Zneg p => - (Pos.to_nat p)%:Z
  end.

(* uninterpreted scalar functions *)
Record Transc := mkTransc {
  t_sqrt : F -> F; t_exp : F -> F; t_ln : F -> F; t_cos : F -> F; t_sin : F -> F;
  t_acos : F -> F; t_atan2 : F -> F -> F; t_pi : F; t_tiny : F }.

Variable tr : Transc.

Definition FOps : SOps := {|
  T := F; s0 := 0; s1 := 1;
  sadd := +%R; ssub := fun a b => a - b; smul := *%R; sdiv := fun a b => a / b;
  sopp := -%R; sleb := fun a b => a <= b; sltb := fun a b => a < b;
  sofZ := fun z => (Z_to_int z)%:~R;
  ssqrt := t_sqrt tr; sexp := t_exp tr; sln := t_ln tr; scos := t_cos tr; ssin := t_sin tr;
  sacos := t_acos tr; satan2 := t_atan2 tr; spi := t_pi tr; stiny := t_tiny tr |}.

Definition mx_build m n (f : nat -> nat -> F) : 'M[F]_(m,n) := \matrix_(i, j) f i j.
Definition mx_get m n (A : 'M[F]_(m,n)) (i j : nat) : F :=
  match insub i, insub j with
  | Some i', Some j' => A i' j'
  | _, _ => 0
  end.

Variable sqrt_oracle : forall n, 'M[F]_n -> 'M[F]_n.
Variable eig_oracle : forall n, 'M[F]_n -> 'M[F]_(n,1).

Definition MxMat : MatOps := {|
  sc := FOps;
  M := fun m n => 'M[F]_(m,n);
  mbuild := mx_build;
  mget := mx_get;
  mzero := fun m n => 0;
  mid := fun n => 1%:M;
  madd := fun m n A B => A + B;
  msub := fun m n A B => A - B;
  mopp := fun m n A => - A;
  mscale := fun m n c A => c *: A;
  mmul := fun m n p A B => A *m B;
  mtr := fun m n A => A^T;
  mhcat := fun m n1 n2 A B => row_mx A B;
  mvcat := fun m1 m2 n A B => col_mx A B;
  minv := fun n A => invmx A;
  mdet := fun n A => \det A;
  msqrt := sqrt_oracle;
  meigmax := eig_oracle
|}.

Lemma mx_get_ord m n (A : 'M[F]_(m,n)) (i : 'I_m) (j : 'I_n) : mx_get A i j = A i j.
Proof. by rewrite /mx_get !valK. Qed.

Lemma mx_get_build m n f (i j : nat) : (i < m)%N -> (j < n)%N ->
  mx_get (mx_build m n f) i j = f i j.
Proof. by move=> im jn; rewrite /mx_get !insubT mxE. Qed.

Lemma mx_get_out_r m n (A : 'M[F]_(m,n)) (i j : nat) : (m <= i)%N -> mx_get A i j = 0.
Proof. by move=> mi; rewrite /mx_get insubF // ltnNge mi. Qed.

Lemma mx_get_out_c m n (A : 'M[F]_(m,n)) (i j : nat) : (n <= j)%N -> mx_get A i j = 0.
Proof. by move=> nj; rewrite /mx_get [insub j]insubF ?ltnNge ?nj //; case: insub. Qed.

Lemma mx_get_0 m n i j : mx_get (0 : 'M[F]_(m,n)) i j = 0.
Proof. by rewrite /mx_get; case: insub => // a; case: insub => // b; rewrite mxE. Qed.

Lemma mx_get_tr m n (A : 'M[F]_(m,n)) (i j : nat) : mx_get A^T i j = mx_get A j i.
Proof.
rewrite /mx_get; case: (insub i) => [i'|]; case: (insub j) => [j'|] //.
by rewrite mxE.
Qed.

Lemma mx_get_col r (x : 'cV[F]_r) (i : 'I_r) : mx_get x i 0 = x i 0.
Proof. exact: (mx_get_ord x i 0). Qed.

Lemma mx_get_col_mx m1 m2 n (A : 'M[F]_(m1,n)) (B : 'M[F]_(m2,n)) i j :
  mx_get (col_mx A B) i j = if (i < m1)%N then mx_get A i j else mx_get B (i - m1)%N j.
Proof.
case: (ltnP j n) => hj; last by rewrite !mx_get_out_c //; case: ifP.
case: (ltnP i m1) => hi.
  by rewrite -[LHS]/(mx_get (col_mx A B) (lshift m2 (Ordinal hi)) (Ordinal hj)) mx_get_ord col_mxEu -mx_get_ord.
case: (ltnP i (m1 + m2)) => hi2; last by rewrite !mx_get_out_r // leq_subRL.
have hi3 : (i - m1 < m2)%N by rewrite ltn_subLR.
rewrite -{1}(subnKC hi) -[LHS]/(mx_get (col_mx A B) (rshift m1 (Ordinal hi3)) (Ordinal hj)).
by rewrite mx_get_ord col_mxEd -mx_get_ord.
Qed.

Lemma mx_get_row_mx m n1 n2 (A : 'M[F]_(m,n1)) (B : 'M[F]_(m,n2)) i j :
  mx_get (row_mx A B) i j = if (j < n1)%N then mx_get A i j else mx_get B i (j - n1)%N.
Proof. by rewrite -[row_mx A B]trmxK tr_row_mx mx_get_tr mx_get_col_mx !mx_get_tr. Qed.

Lemma mx_get_scale m n c (A : 'M[F]_(m,n)) i j : mx_get (c *: A) i j = c * mx_get A i j.
Proof.
case: (ltnP i m) => hi; last by rewrite !mx_get_out_r // mulr0.
case: (ltnP j n) => hj; last by rewrite !mx_get_out_c // mulr0.
by rewrite -[i]/(val (Ordinal hi)) -[j]/(val (Ordinal hj)) !mx_get_ord mxE.
Qed.

Lemma mx_get_block_diag n1 n2 (A : 'M[F]_n1) (D : 'M[F]_n2) i j :
  mx_get (block_mx A 0 0 D) i j =
  if (i < n1)%N then (if (j < n1)%N then mx_get A i j else 0)
  else (if (j < n1)%N then 0 else mx_get D (i - n1)%N (j - n1)%N).
Proof. by rewrite /block_mx mx_get_col_mx !mx_get_row_mx !mx_get_0. Qed.

(* the structural accessors of Ops.v, at this instance, are MathComp's col and row *)
Lemma mcol_ord m n (X : 'M[F]_(m,n)) i (lt : (i < n)%N) : mcol (O:=MxMat) i X = col (Ordinal lt) X.
Proof. by apply/matrixP => r c; rewrite !mxE /= (mx_get_ord X r (Ordinal lt)). Qed.

Lemma mrow_ord m n (X : 'M[F]_(m,n)) i (lt : (i < m)%N) : mrow (O:=MxMat) i X = row (Ordinal lt) X.
Proof. by apply/matrixP => r c; rewrite !mxE /= (mx_get_ord X (Ordinal lt) c). Qed.

Lemma mx_build_ext m n f g :
  (forall i j, (i < m)%N -> (j < n)%N -> f i j = g i j) -> mx_build m n f = mx_build m n g.
Proof. by move=> E; apply/matrixP=> i j; rewrite !mxE E. Qed.

Lemma Z_to_int_nat n : Z_to_int (Z.of_nat n) = n%:Z.
Proof. by case: n => [|n] //=; rewrite SuccNat2Pos.id_succ. Qed.

Lemma ZnatE n : (Z_to_int (Z.of_nat n))%:~R = n%:R :> F.
Proof. by rewrite Z_to_int_nat -pmulrn. Qed.

Lemma sofnat_natr n : sofnat FOps n = n%:R.
Proof. by rewrite /sofnat /= ZnatE. Qed.

End Inst.
