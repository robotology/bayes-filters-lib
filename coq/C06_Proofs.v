(* C06_Proofs.v — lemmas about the SIS model over the reals (instance ROps):
   the invariant (N particles, layout, normalised log-weights) by induction over
   all event lists, positivity of every argument of ln, the re-weighting
   formula, the no-measurement clause and the resampling trigger. *)
Require Import Reals ZArith List Bool Lia Lra.
Require Import BFL.Ops BFL.ListFacts BFL.C07_Model BFL.C07_ROps BFL.C07_Proofs BFL.C06_Model.
Import ListNotations.
Local Open Scope R_scope.

Lemma mapi_from_length {A B} (f : nat -> A -> B) i l : length (mapi_from f i l) = length l.
Proof. revert i; induction l; intro i; simpl; auto. Qed.

Lemma add_logs_length (lw args : list R) :
  length lw = length args -> length (add_logs ROps lw args) = length lw.
Proof. revert args; induction lw; destruct args; simpl; intro H; try congruence. f_equal. apply IHlw. lia. Qed.

Lemma add_logs_nth (lw args : list R) i :
  length lw = length args -> (i < length lw)%nat ->
  nth i (add_logs ROps lw args) 0 = nth i lw 0 + ln (nth i args 0).
Proof.
  revert args i; induction lw as [|w lw IH]; destruct args as [|a args]; intros i H Hi; simpl in *; try lia.
  destruct i; [reflexivity|]. apply IH; lia.
Qed.

Lemma lik_args_nth (l : list R) i : (i < length l)%nat -> nth i (lik_args ROps l) 0 = nth i l 0 + Rtiny.
Proof. intro H. exact (nth_map_in (fun a => a + Rtiny) l i 0 0 H). Qed.

Lemma lik_args_pos (l : list R) : Forall (fun x => 0 <= x) l -> Forall (fun x => 0 < x) (lik_args ROps l).
Proof.
  intro H. unfold lik_args. apply Forall_map. eapply Forall_impl; [|exact H].
  intros a Ha. change (0 < a + Rtiny). pose proof Rtiny_pos. lra.
Qed.

(* a normalised weight is the weight over the sum of all weights *)
Lemma exp_lse_normalise_nth (v : list R) i : (i < length v)%nat ->
  exp (nth i (lse_normalise ROps v) 0) = exp (nth i v 0) / sumR (map exp v).
Proof.
  intro Hi. assert (Hne : v <> []) by (intros ->; simpl in Hi; lia).
  unfold lse_normalise. rewrite lse_spec by exact Hne. set (z := ln (sumR (map exp v))).
  rewrite (nth_map_in _ v i _ 0 Hi). change (ssub ROps (nth i v 0) z) with (nth i v 0 + - z). unfold z.
  rewrite exp_plus, exp_Ropp, exp_ln by (apply sum_exp_pos, Hne). reflexivity.
Qed.

Lemma lse_normalise_id (l : list R) : lse ROps l = 0 -> lse_normalise ROps l = l.
Proof.
  intro H. unfold lse_normalise. rewrite H. rewrite <- (map_id l) at 2. apply map_ext. intro a.
  change (a - 0 = a). lra.
Qed.

Lemma map_exp_add_logs (lw l : list R) :
  length lw = length l -> Forall (fun x => 0 <= x) l ->
  map exp (add_logs ROps lw (lik_args ROps l)) = map (fun p => exp (fst p) * (snd p + Rtiny)) (combine lw l).
Proof.
  revert l; induction lw as [|w lw IH]; destruct l as [|a l]; intros H Hp; simpl in *; try congruence; auto.
  apply Forall_cons_iff in Hp as [Ha Hp]. f_equal; [|apply IH; auto].
  change (exp (w + ln (a + Rtiny)) = exp w * (a + Rtiny)). pose proof Rtiny_pos.
  rewrite exp_plus, exp_ln by lra. reflexivity.
Qed.

Lemma reweight_lists (lwp l : list R) i :
  length lwp = length l -> Forall (fun x => 0 <= x) l -> (i < length l)%nat ->
  exp (nth i (lse_normalise ROps (add_logs ROps lwp (lik_args ROps l))) 0)
  = exp (nth i lwp 0) * (nth i l 0 + Rtiny) / sumR (map (fun p => exp (fst p) * (snd p + Rtiny)) (combine lwp l)).
Proof.
  intros Hlen Hpos Hi.
  assert (La : length lwp = length (lik_args ROps l)) by (unfold lik_args; rewrite map_length; exact Hlen).
  assert (Hi' : (i < length lwp)%nat) by (rewrite Hlen; exact Hi).
  rewrite exp_lse_normalise_nth by (rewrite add_logs_length; assumption).
  rewrite map_exp_add_logs, add_logs_nth, lik_args_nth by assumption.
  rewrite exp_plus, exp_ln; [reflexivity|].
  pose proof Rtiny_pos. rewrite Forall_forall in Hpos. specialize (Hpos _ (nth_In l 0 Hi)). lra.
Qed.

(* uniform weights -ln n: log-sum-exp 0, effective sample size n *)
Lemma sumR_repeat c n : sumR (repeat c n) = INR n * c.
Proof. induction n; [simpl; lra|]. rewrite S_INR. simpl repeat. simpl sumR. rewrite IHn. ring. Qed.

Lemma lse_uniform n : (0 < n)%nat -> lse ROps (repeat (- ln (INR n)) n) = 0.
Proof.
  intro H. assert (Hn : 0 < INR n) by (apply lt_0_INR; auto).
  rewrite lse_spec by (destruct n; [lia | simpl; congruence]).
  rewrite map_repeat, sumR_repeat, exp_Ropp, exp_ln by auto.
  replace (INR n * / INR n) with 1 by (field; lra). apply ln_1.
Qed.

Lemma neff_uniform n : (0 < n)%nat -> (neff ROps (repeat (- ln (INR n)) n) : R) = INR n.
Proof.
  intro H. assert (Hn : 0 < INR n) by (apply lt_0_INR; auto).
  rewrite (neff_formula exp). rewrite map_repeat, sumR_repeat.
  replace (exp (- ln (INR n))) with (/ INR n) by (rewrite exp_Ropp, exp_ln; auto).
  field. lra.
Qed.

Lemma sum_sq_pos (l : list R) : l <> [] -> 0 < sumR (map (fun x => exp x * exp x) l).
Proof.
  intro H. apply sumR_map_pos; [exact H|]. intro a. pose proof (exp_pos a). nra.
Qed.

Section SIS.
Variables St Aux : Type.
Variables (N dl dc : nat).
Hypothesis Npos : (0 < N)%nat.

Notation sset := (@sset ROps St Aux).
Notation event := (@event ROps St).
Notation sis_state := (@sis_state ROps St Aux).

Definition wf_set (s : sset) : Prop :=
  length (s_parts s) = N /\ length (s_lw s) = N /\ s_lin s = dl /\ s_circ s = dc.
Definition normalised (s : sset) : Prop := lse ROps (s_lw s) = 0.
Definition good (s : sset) : Prop := wf_set s /\ normalised s.

(* after a step; before the first step only the predicted (= initial) set is meaningful *)
Definition Inv (st : sis_state) : Prop := good (pred st) /\ good (cor st).
Definition PreInv (st : sis_state) : Prop := good (pred st) /\ (step st <> 0%nat -> good (cor st)).

(* a valid likelihood vector has one non-negative entry per particle *)
Definition wf_ev (ev : event) : Prop :=
  match ev_lik ev with Some l => length l = N /\ Forall (fun x => 0 <= x) l | None => True end.

Lemma nonempty_of_length {A} (l : list A) : length l = N -> l <> [].
Proof. intros H E. rewrite E in H. simpl in H. lia. Qed.

(* one step, by the equations the proofs below rewrite with *)
Lemma pred_mid (st : sis_state) ev :
  pred (sis_mid st ev) = if Nat.eqb (step st) 0 then pred st else predict ev (cor st) (pred st).
Proof. reflexivity. Qed.

Lemma cor_mid (st : sis_state) ev :
  cor (sis_mid st ev) = if ev_freeze ev then normalise (correct ev (pred (sis_mid st ev))) else pred (sis_mid st ev).
Proof. reflexivity. Qed.

Lemma cor_step (st : sis_state) ev :
  cor (sis_step N st ev) = if needs_resampling N (cor (sis_mid st ev)) then resampled (cor (sis_mid st ev)) (ev_u1 ev)
                           else cor (sis_mid st ev).
Proof. reflexivity. Qed.

Lemma predict_lw ev (prev pr : sset) : s_lw (predict ev prev pr) = s_lw prev.
Proof. unfold predict. destruct (ev_skip_pred ev); reflexivity. Qed.

(* not skipped: the states are moved, the mean/covariance blocks and the layout of the output object stay *)
Lemma predict_moved ev (prev pr : sset) :
  ev_skip_pred ev = false -> length (s_parts prev) = length (s_parts pr) ->
  map fst (s_parts (predict ev prev pr)) = mapi_from (ev_pred ev) 0 (map fst (s_parts prev)) /\
  map snd (s_parts (predict ev prev pr)) = map snd (s_parts pr) /\
  s_lin (predict ev prev pr) = s_lin pr /\ s_circ (predict ev prev pr) = s_circ pr.
Proof.
  intros Hs L. unfold predict. rewrite Hs. cbn [s_parts s_lin s_circ].
  assert (L' : length (mapi_from (ev_pred ev) 0 (map fst (s_parts prev))) = length (map snd (s_parts pr)))
    by (rewrite mapi_from_length, !map_length; exact L).
  repeat split; [apply map_fst_combine | apply map_snd_combine]; exact L'.
Qed.

Lemma good_predict ev (prev pr : sset) : good prev -> wf_set pr -> good (predict ev prev pr).
Proof.
  intros [[P1 [P2 [P3 P4]]] Pn] [Q1 [Q2 [Q3 Q4]]]. unfold predict. destruct (ev_skip_pred ev).
  - repeat split; auto.
  - repeat split; simpl; auto. rewrite combine_length, mapi_from_length, !map_length, P1, Q1. apply Nat.min_id.
Qed.

Lemma correct_unusable ev (pr : sset) : ev_skip_corr ev = true \/ ev_lik ev = None -> correct ev pr = pr.
Proof. unfold correct. intros [-> | ->]; [reflexivity|]. destruct (ev_skip_corr ev); reflexivity. Qed.

Lemma correct_lw ev (pr : sset) l : ev_skip_corr ev = false -> ev_lik ev = Some l ->
  s_lw (correct ev pr) = add_logs ROps (s_lw pr) (lik_args ROps l).
Proof. unfold correct. intros -> ->. reflexivity. Qed.

Lemma wf_correct ev (pr : sset) : wf_ev ev -> wf_set pr -> wf_set (correct ev pr).
Proof.
  intros Hev [Q1 [Q2 [Q3 Q4]]]. unfold correct, wf_ev in *. destruct (ev_skip_corr ev); [repeat split; auto|].
  destruct (ev_lik ev) as [l|]; [|repeat split; auto]. destruct Hev as [Hev _].
  repeat split; simpl; auto. rewrite add_logs_length; auto. unfold lik_args. rewrite map_length.
  transitivity N; [exact Q2 | symmetry; exact Hev].
Qed.

Lemma normalise_id (c : sset) : normalised c -> normalise c = c.
Proof. intro H. unfold normalise. rewrite (lse_normalise_id _ H). destruct c; reflexivity. Qed.

Lemma good_normalise (c : sset) : wf_set c -> good (normalise c).
Proof.
  intros [Q1 [Q2 [Q3 Q4]]]. split.
  - unfold normalise. repeat split; cbn [s_parts s_lw s_lin s_circ]; auto. rewrite lse_normalise_length; auto.
  - unfold normalised, normalise. cbn [s_lw]. apply lse_normalised_zero. apply nonempty_of_length; auto.
Qed.

Lemma needs_resampling_R (c : sset) : needs_resampling N c = Rltb (neff ROps (s_lw c)) (INR N / 3).
Proof.
  unfold needs_resampling. rewrite !(sofnat_R exp). replace (INR 3) with 3 by (simpl; lra). reflexivity.
Qed.

Lemma resampled_lw (c : sset) u1 : wf_set c ->
  s_lw (resampled c u1) = repeat (- ln (INR N)) N.
Proof.
  intros [Q1 [Q2 _]]. unfold resampled.
  pose proof (resample_uniform ROps (s_parts c) (s_lw c) u1) as H. rewrite Q2, (log_uniform_R exp) in H.
  destruct (resample (s_parts c) (s_lw c) u1) as [[out w] par]. exact H.
Qed.

Lemma good_resampled (c : sset) u1 : wf_set c -> good (resampled c u1).
Proof.
  intro W. pose proof (resampled_lw c u1 W) as Hw. destruct W as [Q1 [Q2 [Q3 Q4]]].
  split.
  - pose proof (resample_lengths ROps (s_parts c) (s_lw c) u1 (nonempty_of_length _ Q1)) as L.
    unfold resampled in *. destruct (resample (s_parts c) (s_lw c) u1) as [[out w] par].
    destruct L as [L1 [L2 _]]. repeat split; [exact (eq_trans L1 Q2) | exact (eq_trans L2 Q2) | exact Q3 | exact Q4].
  - unfold normalised. rewrite Hw. apply lse_uniform; auto.
Qed.

Lemma good_mid st ev : PreInv st -> wf_ev ev ->
  good (pred (sis_mid st ev)) /\ good (cor (sis_mid st ev)).
Proof.
  intros [Hp Hc] Hev.
  assert (G : good (pred (sis_mid st ev))).
  { rewrite pred_mid. destruct (Nat.eqb_spec (step st) 0) as [|E]; [exact Hp|].
    apply good_predict; [exact (Hc E) | apply Hp]. }
  split; [exact G|]. rewrite cor_mid. destruct (ev_freeze ev); [|exact G].
  apply good_normalise, wf_correct; [exact Hev | apply G].
Qed.

Lemma step_inv st ev : PreInv st -> wf_ev ev -> Inv (sis_step N st ev).
Proof.
  intros HP Hev. destruct (good_mid st ev HP Hev) as [G1 G2].
  split; [exact G1|]. rewrite cor_step. destruct (needs_resampling N (cor (sis_mid st ev))); [|exact G2].
  apply good_resampled, G2.
Qed.

Lemma Inv_PreInv st : Inv st -> PreInv st.
Proof. intros [A B]. split; auto. Qed.

Lemma trace_inv evs : forall st, PreInv st -> Forall wf_ev evs -> Forall Inv (sis_trace N st evs).
Proof.
  intros st HP Hev. revert st HP.
  induction Hev as [|ev evs H1 _ IH]; intros st HP; simpl; constructor.
  - exact (step_inv st ev HP H1).
  - apply IH, Inv_PreInv, step_inv; assumption.
Qed.

Lemma run_inv evs : forall st, PreInv st -> Forall wf_ev evs -> evs <> [] -> Inv (sis_run N st evs).
Proof.
  intros st HP Hev. revert st HP.
  induction Hev as [|ev evs H1 _ IH]; intros st HP Hne; [congruence|].
  pose proof (step_inv st ev HP H1) as HI.
  destruct evs as [|ev' evs']; [exact HI|]. apply IH; [apply Inv_PreInv, HI | congruence].
Qed.

Lemma run_step (evs : list event) : forall st : sis_state, step (sis_run N st evs) = (step st + length evs)%nat.
Proof.
  induction evs; intro st; unfold sis_run in *; simpl; [lia|]. rewrite IHevs. simpl. lia.
Qed.

(* an initial state is one whose step counter is 0 and whose predicted set (filled by the initialisation)
   has N normalised particles of layout (dl, dc) *)
Lemma init_preinv (st0 : sis_state) : step st0 = 0%nat -> good (pred st0) -> PreInv st0.
Proof. intros H G. split; auto. intro Hn. congruence. Qed.

Lemma run_inv_statement (evs : list event) (st0 : sis_state) :
  step st0 = 0%nat -> good (pred st0) -> Forall wf_ev evs -> evs <> [] ->
  Inv (sis_run N st0 evs) /\ step (sis_run N st0 evs) = length evs.
Proof.
  intros H G Hev Hne. split; [apply run_inv; auto; apply init_preinv; auto|].
  rewrite run_step, H. reflexivity.
Qed.

(* the argument of the logarithm in utils::log_sum_exp as the library computes it: the sum of
   exp (a - max), positive for a non-empty list *)
Definition lse_arg (l : list R) : R :=
  match l with [] => 0 | x0 :: r => sumR (map (fun a => exp (a - smaxl ROps x0 r)) l) end.

Lemma lse_unfold (l : list R) : l <> [] ->
  exists mx, lse ROps l = mx + ln (lse_arg l) /\ 0 < lse_arg l.
Proof.
  destruct l as [|x0 r]; [congruence|]. intros _. exists (smaxl ROps x0 r). split.
  - apply lse_R.
  - apply sumR_map_pos; [discriminate | intro a; apply exp_pos].
Qed.

Lemma reweight (st : sis_state) (ev : event) (l : list R) :
  ev_freeze ev = true -> ev_skip_corr ev = false -> ev_lik ev = Some l ->
  length l = N -> Forall (fun x => 0 <= x) l -> length (s_lw (pred (sis_mid st ev))) = N ->
  forall i, (i < N)%nat ->
  let lwp := s_lw (pred (sis_mid st ev)) in
  exp (nth i (s_lw (cor (sis_mid st ev))) 0)
  = exp (nth i lwp 0) * (nth i l 0 + Rtiny) / sumR (map (fun p => exp (fst p) * (snd p + Rtiny)) (combine lwp l)).
Proof.
  intros Hf Hs Hl Hlen Hpos Hw i Hi lwp.
  rewrite cor_mid, Hf. unfold normalise. cbn [s_lw]. rewrite (correct_lw ev _ l Hs Hl).
  apply reweight_lists; [rewrite Hlen; exact Hw | exact Hpos | rewrite Hlen; exact Hi].
Qed.

Lemma no_measurement (st : sis_state) (ev : event) : ev_freeze ev = false -> cor (sis_mid st ev) = pred (sis_mid st ev).
Proof. intro H. rewrite cor_mid, H. reflexivity. Qed.

Lemma no_usable_likelihood (st : sis_state) (ev : event) :
  ev_freeze ev = true -> (ev_skip_corr ev = true \/ ev_lik ev = None) ->
  normalised (pred (sis_mid st ev)) -> cor (sis_mid st ev) = pred (sis_mid st ev).
Proof. intros Hf Hs Hn. rewrite cor_mid, Hf, (correct_unusable ev _ Hs). apply normalise_id, Hn. Qed.

Lemma resample_iff (st : sis_state) (ev : event) :
  let m := sis_mid st ev in
  (needs_resampling N (cor m) = true <-> neff ROps (s_lw (cor m)) < INR N / 3) /\
  (needs_resampling N (cor m) = true ->
     cor (sis_step N st ev) = resampled (cor m) (ev_u1 ev) /\
     (wf_set (cor m) -> s_lw (cor (sis_step N st ev)) = repeat (- ln (INR N)) N)) /\
  (needs_resampling N (cor m) = false -> cor (sis_step N st ev) = cor m) /\
  pred (sis_step N st ev) = pred m /\ step (sis_step N st ev) = Datatypes.S (step st).
Proof.
  cbv zeta. split; [|split; [|split]].
  - rewrite needs_resampling_R. apply Rltb_true.
  - intro H. rewrite cor_step, H. split; [reflexivity|]. apply resampled_lw.
  - intro H. rewrite cor_step, H. reflexivity.
  - split; reflexivity.
Qed.

(* after every step no resampling is pending: neff >= N/3 *)
Definition settled (c : sset) : Prop := needs_resampling N c = false.

Lemma settled_after_step (st : sis_state) (ev : event) :
  wf_set (cor (sis_mid st ev)) -> settled (cor (sis_step N st ev)).
Proof.
  intro W. unfold settled. rewrite cor_step.
  destruct (needs_resampling N (cor (sis_mid st ev))) eqn:E; [|exact E].
  rewrite needs_resampling_R, (resampled_lw _ _ W), neff_uniform by exact Npos.
  apply Rltb_false. pose proof (lt_0_INR N Npos). lra.
Qed.

(* hence from the second step on a failed acquisition leaves cor = pred at the END of the step: the copied set
   cannot trigger a resampling, because none was pending after the previous step *)
Lemma no_measurement_end_of_step (st : sis_state) (ev : event) :
  step st <> 0%nat -> settled (cor st) -> ev_freeze ev = false ->
  cor (sis_step N st ev) = pred (sis_step N st ev).
Proof.
  intros Hs Hset Hf. rewrite cor_step, (no_measurement st ev Hf).
  replace (needs_resampling N (pred (sis_mid st ev))) with false; [reflexivity|].
  apply Nat.eqb_neq in Hs. rewrite <- Hset, !needs_resampling_R, pred_mid, Hs, predict_lw. reflexivity.
Qed.

Lemma trace_full_bridge (evs : list event) : forall st : sis_state,
  map snd (sis_trace_full N st evs) = sis_trace N st evs.
Proof. induction evs as [|ev evs IH]; intro st; simpl; [reflexivity|]. f_equal. apply IH. Qed.

Lemma trace_full_components (evs : list event) : forall (st : sis_state) k m b st',
  nth_error (sis_trace_full N st evs) k = Some (m, b, st') ->
  exists st0 ev, m = cor (sis_mid st0 ev) /\ b = needs_resampling N m /\ st' = sis_step N st0 ev.
Proof.
  induction evs as [|ev evs IH]; intros st k m b st' H; [destruct k; discriminate|].
  destruct k; cbn [sis_trace_full nth_error] in H.
  - injection H as <- <- <-. exists st, ev. repeat split.
  - exact (IH _ _ _ _ _ H).
Qed.

End SIS.

(* Regression specification: SIS::filtering_step before /repo commit 356425a
   built the resampled set as ParticleSet(num_particle_, state_size_), i.e. with
   every component linear.  Not part of any property theorem. *)
Section Regress.
Variables St Aux : Type.
Definition resampled_old (c : @sset ROps St Aux) (u1 : R) : @sset ROps St Aux :=
  let '(out, w, par) := resample (s_parts c) (s_lw c) u1 in
  mkSset (s_lin c + s_circ c) 0 out w.

Lemma old_resampling_loses_layout (c : @sset ROps St Aux) u1 :
  s_circ c <> 0%nat -> s_circ (resampled_old c u1) <> s_circ c /\ s_lin (resampled_old c u1) <> s_lin c.
Proof.
  intro H. unfold resampled_old. destruct (resample (s_parts c) (s_lw c) u1) as [[out w] par]. simpl. lia.
Qed.
End Regress.
