(* C14_Proofs.v — safety of the shape programs of C14_Model.v: one lemma [Forall item_ok (p_...)] per sub-program,
   under the hypotheses on its arguments that make its operands fit; arithmetic by lia / nia, no axioms.
   A program is read once into the syntax [sh], whose safety condition is computed ([sh_ok], [sh_sound]); the three
   state machines (simulation cursor, HistoryBuffer, EstimatesExtraction) go by induction over the operation sequence. *)
Require Import Arith List Bool String Lia.
Require Import BFL.C14_Model.
Import ListNotations.
Open Scope nat_scope.

Definition item_ok (x : item) : Prop :=
  match what x with Guard b => b = true | o => ok o = true end.

(* the precondition of each operation as arithmetic *)
Definition op_spec (o : op) : Prop :=
  match o with
  | Mul _ c1 r2 _ => c1 = r2
  | Same r1 c1 r2 c2 => r1 = r2 /\ c1 = c2
  | Blk R C r0 c0 r c => r0 + r <= R /\ c0 + c <= C
  | Idx n i => i < n
  | Pop sz => 0 < sz
  | Div d => 0 < d
  | Comma s g => s = g
  | Guard b => b = true
  | Free => True
  end.
Lemma item_ok_iff x : item_ok x <-> op_spec (what x).
Proof.
  unfold item_ok. destruct (what x); cbn [ok op_spec];
    rewrite ?andb_true_iff, ?Nat.eqb_eq, ?Nat.leb_le, ?Nat.ltb_lt; tauto.
Qed.

Lemma run_safe_cons x r : run (x :: r) = Safe <-> item_ok x /\ run r = Safe.
Proof.
  unfold item_ok. cbn [run]. destruct (what x) as [ | | | | | | |[|]| ]; cbn [ok];
    try match goal with |- context [if ?b then _ else _] => destruct b end;
    (split; [intro H | intros [H H']]; first [discriminate | auto]).
Qed.
Lemma run_safe_iff (p : prog) : run p = Safe <-> Forall item_ok p.
Proof.
  induction p as [|x r IH]; [split; constructor|].
  rewrite run_safe_cons, IH, Forall_cons_iff. reflexivity.
Qed.

Lemma check_none_of_safe (p : prog) : run p = Safe -> check_shapes p = None.
Proof. unfold check_shapes. intros ->. reflexivity. Qed.

Lemma Forall_for_ (P : item -> Prop) n f : (forall i, i < n -> Forall P (f i)) -> Forall P (for_ n f).
Proof.
  intro H. unfold for_. apply Forall_flat_map, Forall_forall. intros i Hi.
  apply in_seq in Hi. apply H. lia.
Qed.
(* a loop over the m / s whole blocks of size s: block j lies within m *)
Lemma Forall_for_div (P : item -> Prop) m s f : 0 < s ->
  (forall j, s * j + s <= m -> Forall P (f j)) -> Forall P (for_ (m / s) f).
Proof.
  intros Hs H. apply Forall_for_. intros j Hj. apply H.
  pose proof (Nat.mul_div_le m s ltac:(lia)). nia.
Qed.
Lemma Forall_when (P : item -> Prop) b p : (b = true -> Forall P p) -> Forall P (when b p).
Proof. destruct b; simpl; auto. Qed.
Lemma Forall_relabel e p : Forall item_ok p -> Forall item_ok (relabel e p).
Proof. intro H. apply Forall_map. exact H. Qed.
Lemma Forall_firstn {A} (P : A -> Prop) n l : Forall P l -> Forall P (firstn n l).
Proof. intro H. revert n. induction H; intros [|n]; simpl; constructor; auto. Qed.

(* the lemmas [Forall item_ok (p_...)] about the sub-programs, for [auto with shape] *)
Create HintDb shape.

(* the i-th of n blocks of b columns *)
Lemma mul_slot b i n : i < n -> b * i + b <= b * n.
Proof. intro H. nia. Qed.
Lemma mul_slot' b i n : i < n -> i * b + b <= n * b.
Proof. intro H. nia. Qed.
#[export] Hint Resolve mul_slot mul_slot' : shape.

(* Safety of a program follows its construction: literal items, ++, loops, conditions.  The site labels play no
   part in it, yet as string literals they are by far the largest subterms of a program, and a proof that peels a
   program one Forall_cons / Forall_app at a time repeats the rest of the program, labels included, at every step.
   So a program is read once into the syntax [sh]; [sh_ok] computes its safety condition (arithmetic only, no
   labels left) and [sh_sound] is the proof, given once. *)
Fixpoint all_ok (l : prog) : Prop :=
  match l with [] => True | x :: r => op_spec (what x) /\ all_ok r end.
Lemma all_ok_sound l : all_ok l -> Forall item_ok l.
Proof. induction l; cbn [all_ok]; intros; constructor; [apply item_ok_iff|]; tauto. Qed.

Inductive sh : Type :=
| SItems (l : prog)
| SApp (a b : sh)
| SFor (n : nat) (f : nat -> sh)
| SForDiv (m s : nat) (f : nat -> sh)
| SWhen (b : bool) (a : sh)
| SIf (b : bool) (a c : sh)
| SRel (e : string) (a : sh)
| SSub (p : prog).        (* a sub-program with a lemma of its own *)
Fixpoint denote (s : sh) : prog :=
  match s with
  | SItems l => l
  | SApp a b => denote a ++ denote b
  | SFor n f => for_ n (fun i => denote (f i))
  | SForDiv m s f => for_ (m / s) (fun i => denote (f i))
  | SWhen b a => when b (denote a)
  | SIf b a c => if b then denote a else denote c
  | SRel e a => relabel e (denote a)
  | SSub p => p
  end.
Fixpoint sh_ok (s : sh) : Prop :=
  match s with
  | SItems l => all_ok l
  | SApp a b => sh_ok a /\ sh_ok b
  | SFor n f => forall i, i < n -> sh_ok (f i)
  | SForDiv m s f => 0 < s /\ forall j, s * j + s <= m -> sh_ok (f j)
  | SWhen b a => b = true -> sh_ok a
  | SIf b a c => (b = true -> sh_ok a) /\ (b = false -> sh_ok c)
  | SRel _ a => sh_ok a
  | SSub p => Forall item_ok p
  end.
Lemma sh_sound s : sh_ok s -> Forall item_ok (denote s).
Proof.
  induction s as [l|a IHa b IHb|n f IH|m s f IH|b a IH|b a IHa c IHc|e a IH|p]; cbn [sh_ok denote].
  - apply all_ok_sound.
  - intros []. apply Forall_app; auto.
  - intro H. apply Forall_for_. auto.
  - intros [Hs H]. apply Forall_for_div; auto.
  - intro H. apply Forall_when. auto.
  - intros [Ha Hc]. destruct b; auto.
  - intro. apply Forall_relabel; auto.
  - auto.
Qed.

(* [shape]: read the program of the goal into [sh] (one case per constructor, anything else is a sub-program),
   apply [sh_sound], and split the computed condition into one goal per item and per sub-program *)
Ltac reify p :=
  lazymatch p with
  | ?a ++ ?b => let a' := reify a in let b' := reify b in constr:(SApp a' b')
  | for_ (?m / ?s) ?f => let f' := reify_fun f in constr:(SForDiv m s f')
  | for_ ?n ?f => let f' := reify_fun f in constr:(SFor n f')
  | when ?b ?a => let a' := reify a in constr:(SWhen b a')
  | relabel ?e ?a => let a' := reify a in constr:(SRel e a')
  | if ?b then ?a else ?c => let a' := reify a in let c' := reify c in constr:(SIf b a' c')
  | _ :: _ => constr:(SItems p)
  | [] => constr:(SItems p)
  | _ => constr:(SSub p)
  end
with reify_fun f :=
  let i := fresh "i" in
  constr:(fun i : nat => ltac:(let b := eval cbv beta in (f i) in let r := reify b in exact r)).
Ltac shape :=
  lazymatch goal with |- Forall item_ok ?p =>
    let s := reify p in apply (sh_sound s);
    cbv beta iota delta [sh_ok all_ok what op_spec]; repeat (split || intro) end.

(* boolean hypotheses to arithmetic *)
Ltac b2p :=
  repeat match goal with
  | H : pos _ = true |- _ => unfold pos in H
  | H : (_ <? _) = true |- _ => apply Nat.ltb_lt in H
  | H : (_ <? _) = false |- _ => apply Nat.ltb_ge in H
  | H : (_ <=? _) = true |- _ => apply Nat.leb_le in H
  | H : (_ <=? _) = false |- _ => apply Nat.leb_gt in H
  | H : (_ =? _) = true |- _ => apply Nat.eqb_eq in H
  | H : (_ =? _) = false |- _ => apply Nat.eqb_neq in H
  | H : (_ && _) = true |- _ => apply andb_true_iff in H; destruct H
  | H : negb _ = true |- _ => apply negb_true_iff in H
  end.
(* the precondition of one item, with the layouts written out, is arithmetic over the loop bounds and branch
   conditions met on the way; [nia] is for the block slots b * i + b <= b * n only *)
Ltac lay_cbn :=
  repeat match goal with l : layout |- _ => destruct l end;
  unfold ldim, lcov, csz, tsz, augment, noiseless in *; cbn [lin circ quat noise] in *.
Ltac arith := b2p; lay_cbn; subst; cbv iota; first [lia | nia].

Lemma g_mean_ok e l comps i : i < comps -> Forall item_ok (g_mean e l comps i).
Proof. intro. unfold g_mean. shape; arith. Qed.
Lemma g_cov_ok e l comps i : i < comps -> Forall item_ok (g_cov e l comps i).
Proof. intro. unfold g_cov. shape; auto with shape. Qed.
#[export] Hint Resolve g_mean_ok g_cov_ok : shape.

Lemma wna_ctor_ok D : Forall item_ok (p_wna_ctor D).
Proof. unfold p_wna_ctor, wna_d. cbv zeta. shape; arith. Qed.
Lemma wna_noise_ok e D num : Forall item_ok (p_wna_noise e D num).
Proof. unfold p_wna_noise. cbv zeta. shape. Qed.
Lemma lin_propagate_ok e d sc : Forall item_ok (p_lin_propagate e d d sc d sc).
Proof. unfold p_lin_propagate. shape. Qed.
#[export] Hint Resolve wna_ctor_ok wna_noise_ok lin_propagate_ok : shape.
Lemma wna_motion_ok e D sc : Forall item_ok (p_wna_motion e D (wna_d D) sc (wna_d D) sc).
Proof. unfold p_wna_motion. shape; auto with shape. Qed.
Lemma density_ok e r c : Forall item_ok (p_density e r c r r r).
Proof. unfold p_density. shape; arith. Qed.
#[export] Hint Resolve wna_motion_ok density_ok : shape.
Lemma wna_tp_ok D pc : Forall item_ok (p_wna_tp D (wna_d D) pc (wna_d D) pc).
Proof. unfold p_wna_tp. cbv zeta. shape; auto with shape. Qed.
#[export] Hint Resolve wna_tp_ok : shape.

Lemma sim_ctor_ok D T : 0 < T -> Forall item_ok (p_sim_ctor D T (wna_d D)).
Proof.
  intro HT. unfold p_sim_ctor, pos. rewrite (proj2 (Nat.ltb_lt _ _) HT).
  shape; auto with shape; arith.
Qed.
Lemma sim_buffer_ok e T cur : Forall item_ok (p_sim_buffer e T cur).
Proof. unfold p_sim_buffer, sim_buffer_ret. shape; arith. Qed.
Lemma sim_run_ok f T ops : (forall c, Forall item_ok (f c)) -> forall cur, Forall item_ok (sim_run f T cur ops).
Proof.
  intro Hf. induction ops as [|[|] r IH]; intro cur; cbn [sim_run]; auto.
  apply Forall_app; auto.
Qed.
#[export] Hint Resolve sim_ctor_ok sim_buffer_ok sim_run_ok : shape.

(* the cursor is the transcribed state machine [sim_next]: started at cur and not reset, it answers call
   number k (from 0) with true iff cur + k < T *)
Lemma sim_rets_from T calls : forall cur k, k < calls ->
  nth k (sim_rets T cur (repeat SBuf calls)) false = (cur + k <? T).
Proof.
  induction calls as [|n IH]; intros cur k Hk; [lia|]. simpl.
  destruct k as [|k'].
  - unfold sim_buffer_ret. rewrite Nat.add_0_r. reflexivity.
  - rewrite IH by lia. unfold sim_next. destruct (cur <? T) eqn:E; b2p.
    + replace (S cur + k') with (cur + S k') by lia. reflexivity.
    + transitivity false; [|symmetry]; apply Nat.ltb_ge; lia.
Qed.
(* after a reset the trajectory is served again from its first column *)
Lemma sim_rets_reset T cur ops : sim_rets T cur (SReset :: ops) = sim_rets T 0 ops.
Proof. reflexivity. Qed.

Lemma lm_noise_ok e m num : Forall item_ok (p_lm_noise e m num).
Proof. unfold p_lm_noise. shape. Qed.
#[export] Hint Resolve lm_noise_ok : shape.

Lemma sls_ctor_ok sn ms : ms <> [] -> Forall (fun c => c < sn) ms ->
  Forall item_ok (p_sls_ctor sn ms (List.length ms) (List.length ms)).
Proof.
  intros Hne Hms. unfold p_sls_ctor, pos. cbv zeta.
  (* a measured component exists and lies below the state size: neither H nor the state is empty *)
  assert (Hm : 0 < List.length ms /\ 0 < sn) by (destruct Hms; [congruence | simpl; lia]).
  destruct Hm as [Hm Hsn].
  rewrite Nat.eqb_refl, (proj2 (Nat.ltb_lt _ _) Hm), (proj2 (Nat.ltb_lt _ _) Hsn).
  shape; try arith.
  apply Forall_flat_map. eapply Forall_impl; [|exact Hms]. intros c Hc.
  shape. apply Nat.ltb_lt, Hc.
Qed.

Lemma sls_freeze_ok T cur sn m : Forall item_ok (p_sls_freeze T cur sn m sn).
Proof. unfold p_sls_freeze. shape; auto with shape. Qed.
Lemma lmm_innov_ok e m yc : 0 < yc -> Forall item_ok (p_lmm_innov e m m yc).
Proof. intro. unfold p_lmm_innov. shape; arith. Qed.
#[export] Hint Resolve sls_ctor_ok sls_freeze_ok lmm_innov_ok : shape.

Lemma h_shrink_ok e sz tmp : Forall item_ok (p_h_shrink e sz tmp).
Proof. unfold p_h_shrink. shape; arith. Qed.
Lemma h_set_ok e s w : Forall item_ok (fst (h_set e s w)).
Proof. unfold h_set. destruct (w =? hwin s); [constructor | apply h_shrink_ok]. Qed.
Lemma h_step_ok ssz s o : Forall item_ok (fst (h_step ssz s o)).
Proof.
  destruct o; cbn [h_step]; try apply h_set_ok; try constructor.
  destruct (hwin s <? S (hsz s)); cbn [fst]; shape; arith.
Qed.
(* a window of at least 2 stays so: setHistorySize clamps to 2..h_max, addElement keeps it and leaves the buffer non-empty *)
Lemma h_set_win e s w : 2 <= hwin s -> 2 <= hwin (snd (h_set e s w)).
Proof.
  intro H. unfold h_set, h_target. destruct (w =? hwin s); cbn [snd hwin]; [exact H|].
  destruct (w <? 2) eqn:E2; [lia|]. destruct (h_max <=? w); unfold h_max in *; b2p; lia.
Qed.
Lemma h_add_inv ssz s e : 2 <= hwin s ->
  2 <= hwin (snd (h_step ssz s (HAdd e))) /\ 0 < hsz (snd (h_step ssz s (HAdd e))).
Proof. intro H. cbn [h_step]. destruct (hwin s <? S (hsz s)) eqn:E; cbn [snd hsz hwin]; b2p; lia. Qed.
(* getHistoryBuffer on at most k stored elements, all of ssz rows *)
Lemma h_get_ok e ssz k els : Forall (fun x => x = ssz) els -> List.length els <= k ->
  Forall item_ok (p_h_get e ssz k els).
Proof.
  intros Hels Hlen. unfold p_h_get. apply Forall_flat_map, Forall_forall. intros [i e0] Hin.
  pose proof (in_combine_l _ _ _ _ Hin) as Hi. apply in_seq in Hi.
  rewrite Forall_forall in Hels. rewrite (Hels _ (in_combine_r _ _ _ _ Hin)). cbn [fst snd].
  shape; arith.
Qed.

Definition adds_sized (ssz : nat) (ops : list hop) : Prop :=
  forall esz, In (HAdd esz) ops -> esz = ssz.

(* invariant: the stored elements all have ssz rows; they are cut to the buffer's size at every step *)
Lemma h_run_ok ssz ops : adds_sized ssz ops ->
  forall s els, Forall (fun e => e = ssz) els -> Forall item_ok (fst (h_run ssz s els ops)).
Proof.
  induction ops as [|o r IH]; intros Hadd s els Hels; cbn [h_run].
  - constructor.
  - pose proof (h_step_ok ssz s o) as Hstep.
    destruct (h_step ssz s o) as [p s']. cbn [fst] in Hstep.
    set (els' := match o with HAdd esz => firstn (hsz s') (esz :: els) | HClear => [] | _ => firstn (hsz s') els end).
    assert (Hels' : Forall (fun e => e = ssz) els').
    { subst els'. destruct o; try (apply Forall_firstn; assumption); try constructor.
      apply Forall_firstn. constructor; [apply Hadd; left; reflexivity | assumption]. }
    assert (Hr : adds_sized ssz r) by (intros esz Hin; apply Hadd; right; exact Hin).
    specialize (IH Hr s' els' Hels').
    destruct (h_run ssz s' els' r) as [p2 fin]. cbn [fst] in *.
    shape; auto. destruct o; try constructor.
    apply (h_get_ok e_h_get ssz (hsz s') els' Hels'). subst els'. apply firstn_le_length.
Qed.

Lemma grid_ok nx ny n l : Forall item_ok (p_grid nx ny n l).
Proof. unfold p_grid, grid_ret. shape; arith. Qed.

Lemma sigma_ok e l comps : Forall item_ok (p_sigma e l comps).
Proof. unfold p_sigma. cbv zeta. shape; auto with shape; arith. Qed.
Lemma utweight_ok e dof : Forall item_ok (p_utweight e dof).
Proof. unfold p_utweight. shape; arith. Qed.
Lemma augment_gm_ok e l comps qr qc : Forall item_ok (p_augment_gm e l comps qr qc).
Proof. unfold p_augment_gm, aug_ret. cbv zeta. shape; arith. Qed.
#[export] Hint Resolve sigma_ok utweight_ok augment_gm_ok : shape.
Lemma augment_ok l comps qr qc : Forall item_ok (p_augment l comps qr qc).
Proof. unfold p_augment, aug_ret. shape; auto with shape; arith. Qed.
#[export] Hint Resolve augment_ok : shape.

Lemma ut_core_ok e li comps valid pr pc lo :
  (valid = true -> pr = ldim lo /\ pc = (2 * lcov li + 1) * comps) ->
  Forall item_ok (p_ut_core e li comps (lcov li) valid pr pc lo).
Proof.
  intro Hv. unfold p_ut_core. cbv zeta.
  (* what is left lies under [when valid]: there the function's result has the shape of [lo] *)
  shape; auto with shape; destruct Hv as [-> ->]; trivial; arith.
Qed.

Lemma ut_add_noise_ok e comps lo : Forall item_ok (p_ut_add_noise e comps true lo (lcov lo) (lcov lo)).
Proof. unfold p_ut_add_noise. cbv zeta. shape; arith. Qed.
#[export] Hint Resolve ut_add_noise_ok : shape.

(* the transform proper: the function's result has the shape of the output description, and the additive
   overloads (2, 4) are given a noise covariance of the output's size *)
Lemma ut_ok variant li comps valid pr pc lo qr qc :
  (valid = true -> pr = ldim lo /\ pc = (2 * lcov li + 1) * comps) ->
  (variant = 2 \/ variant = 4 -> qr = lcov lo /\ qc = lcov lo) ->
  Forall item_ok (p_ut variant li comps (lcov li) valid pr pc lo qr qc).
Proof.
  intros Hv Hq. unfold p_ut. cbv zeta. apply Forall_app; split; [apply ut_core_ok; assumption|].
  destruct variant as [|[|[|[|[|v]]]]]; try constructor; destruct Hq as [-> ->]; auto with shape.
  apply Forall_when; auto with shape.
Qed.

(* what "valid" means for a call of one of the five overloads *)
Definition ut_valid (variant : nat) (li : layout) (comps w : nat) (valid : bool) (pr pc : nat) (lo : layout) (qr qc : nat) : Prop :=
  noise lo = 0 /\ w = lcov li /\
  match variant with
  | 0 | 3 => valid = true -> pr = ldim lo /\ pc = (2 * lcov li + 1) * comps
  | 1 => True
  | 2 => ldim li = ldim lo /\ qr = lcov lo /\ qc = lcov lo
  | _ => (valid = true -> pr = ldim lo /\ pc = (2 * lcov li + 1) * comps) /\ qr = lcov lo /\ qc = lcov lo
  end.

(* without quaternions a mixture's covariance has the dimension of its mean *)
Lemma lcov_euler l : quat l = false -> lcov l = ldim l.
Proof. unfold lcov, ldim, tsz, csz. intros ->. reflexivity. Qed.
Lemma lcov_augment l q : lcov (augment l q) = lcov l + q.
Proof. unfold lcov, tsz, augment; cbn [lin circ quat noise]. lia. Qed.

(* Kalman steps: any two mixtures whose means and covariances have the model's dimension d *)
Lemma kf_predict_ok d lp lq comps : ldim lp = d -> lcov lp = d -> ldim lq = d -> lcov lq = d ->
  Forall item_ok (p_kf_predict d lp comps lq comps).
Proof.
  intros Hp Hcp Hq Hcq. unfold p_kf_predict. rewrite Hp, Hcp, Hq, Hcq. shape; auto with shape.
Qed.
Lemma kf_lik_ok m comps : Forall item_ok (p_kf_lik m comps).
Proof. unfold p_kf_lik. shape; auto with shape; arith. Qed.
#[export] Hint Resolve kf_lik_ok : shape.

Lemma kf_correct_ok m d lp lq comps yc : ldim lp = d -> lcov lp = d -> ldim lq = d -> lcov lq = d -> 0 < yc ->
  Forall item_ok (p_kf_correct m d lp comps lq comps m yc).
Proof.
  intros Hp Hcp Hq Hcq Hy. unfold p_kf_correct. cbv zeta.
  (* the four equations are used item by item: rewriting with them in the whole program is slow *)
  shape; auto with shape; rewrite ?Hp, ?Hcp, ?Hq, ?Hcq; auto with shape; arith.
Qed.

Lemma ukf_lik_ok comps m : Forall item_ok (p_ukf_lik comps m m).
Proof. unfold p_ukf_lik. shape; auto with shape; arith. Qed.
#[export] Hint Resolve ukf_lik_ok : shape.

Definition ukfc_valid (additive : bool) (lp : layout) (r : nat) (valid : bool) (lm : layout) : Prop :=
  quat lp = false /\ noise lp = 0 /\ noise lm = 0 /\
  (additive = true -> r = lcov lm).

Lemma ukf_correct_ok additive online lp comps r valid lm :
  ukfc_valid additive lp r valid lm ->
  Forall item_ok (p_ukf_correct additive online lp comps (if additive then lcov lp else lcov lp + r) r valid lm (lcov lm) lp comps).
Proof.
  intros (Hqp & Hnp & _ & Hadd). unfold p_ukf_correct. cbv zeta.
  set (li := if additive then lp else augment lp r).
  replace (if additive then lcov lp else lcov lp + r) with (lcov li)
    by (destruct additive; [reflexivity | apply lcov_augment]).
  replace (lcov li - noise li) with (lcov lp) by (subst li; destruct additive; arith).
  shape; auto with shape; try arith.
  apply ut_ok; auto. destruct additive; [auto | intros [|]; discriminate].
Qed.

Lemma uvr_ok e r c s bs rc : 0 < bs -> (rc = bs \/ rc = r) ->
  Forall item_ok (p_uvr e r c r r s s r bs rc).
Proof. intros Hbs Hrc. unfold p_uvr. cbv zeta. shape; arith. Qed.

(* the noise covariance handed to the step: the full msz x msz one, or (reduced) one sub x sub block *)
Definition sukf_r (reduced : bool) (msz sub : nat) : nat := if reduced then sub else msz.

Lemma sukf_lik_ok reduced lp comps msz sub : 0 < sub ->
  Forall item_ok (p_sukf_lik reduced lp comps msz sub (sukf_r reduced msz sub) msz).
Proof.
  intro Hs. unfold p_sukf_lik, sukf_r. cbv zeta.
  replace (if reduced then if reduced then sub else msz else sub) with sub by (destruct reduced; reflexivity).
  shape; auto using uvr_ok with shape; arith.
Qed.

Lemma sukf_ok reduced lp comps msz sub :
  quat lp = false -> 0 < sub ->
  Forall item_ok (p_sukf reduced lp comps (lcov lp) msz sub (sukf_r reduced msz sub) msz lp comps).
Proof.
  intros Hq Hsub. unfold p_sukf, sukf_runs. cbv zeta.
  replace (if reduced then sukf_r reduced msz sub else sub) with sub by (destruct reduced; reflexivity).
  shape; auto with shape; unfold sukf_r; arith.
Qed.

Lemma resample_ok e l n : 0 < n -> Forall item_ok (p_resample e l n l n n).
Proof. intro Hn. unfold p_resample. shape; auto with shape; try (apply g_cov_ok); arith. Qed.
Lemma resample_prior_ok l n k : noise l = 0 -> k < n -> Forall item_ok (p_resample_prior l n k n).
Proof.
  intros Hn Hk. unfold p_resample_prior. cbv zeta.
  shape; auto with shape; try apply resample_ok; try apply g_cov_ok; arith.
Qed.

Lemma ext_mean_ok el ec n : Forall item_ok (p_ext_mean el ec (el + ec) n n).
Proof. unfold p_ext_mean. shape; arith. Qed.

Lemma ext_stat_rows_full stat el ec : ext_stat_rows stat el ec (el + ec) = el + ec.
Proof. destruct stat; reflexivity. Qed.

Definition ext_valid (stat el ec pr n wn pw ln tr tc : nat) : Prop :=
  pr = el + ec /\ wn = n /\ 0 < n /\ (stat >= 2 -> pw = tc /\ ln = n /\ tr = n /\ 0 < tc).

Lemma ext_stat_ok stat el ec pr n wn pw ln tr tc :
  ext_valid stat el ec pr n wn pw ln tr tc ->
  Forall item_ok (p_ext_stat stat el ec pr n wn pw ln tr tc).
Proof.
  intros (-> & -> & Hn & Hm). unfold p_ext_stat. destruct stat as [|[|s]].
  - apply ext_mean_ok.
  - unfold p_ext_mode. shape; arith.
  - destruct (Hm ltac:(lia)) as (-> & -> & -> & Ht). unfold p_ext_map. shape; arith.
Qed.

Lemma ext_call_ok stat avg el ec pr n wn pw ln tr tc hs :
  ext_valid stat el ec pr n wn pw ln tr tc ->
  Forall item_ok (fst (p_ext_call stat avg el ec pr n wn pw ln tr tc hs)).
Proof.
  intro Hv. pose proof (ext_stat_ok _ _ _ _ _ _ _ _ _ _ Hv) as Hs. unfold p_ext_call. cbv zeta.
  destruct avg; [exact Hs|].
  pose proof (h_step_ok (el + ec) hs (HAdd (ext_stat_rows stat el ec pr))) as Hh.
  destruct (h_step (el + ec) hs (HAdd (ext_stat_rows stat el ec pr))) as [pa hs']. simpl in Hh. simpl.
  destruct Hv as (-> & _). rewrite ext_stat_rows_full.
  shape; auto using ext_mean_ok; arith.
Qed.

Lemma ext_calls_ok calls stat avg el ec pr n wn pw ln tr tc :
  ext_valid stat el ec pr n wn pw ln tr tc ->
  forall hs, Forall item_ok (p_ext_calls calls stat avg el ec pr n wn pw ln tr tc hs).
Proof.
  intro Hv. induction calls as [|c IH]; intro hs; simpl; [constructor|].
  pose proof (ext_call_ok stat avg el ec pr n wn pw ln tr tc hs Hv) as Hc.
  destruct (p_ext_call stat avg el ec pr n wn pw ln tr tc hs) as [p hs']. simpl in Hc.
  apply Forall_app; split; [exact Hc | apply IH].
Qed.

(* what "valid" means for one operation: the arguments of extract have the declared shapes *)
Definition xop_valid (el ec : nat) (o : xop) : Prop :=
  match o with
  | XExtract full pr n wn pw ln tr tc =>
      pr = el + ec /\ wn = n /\ 0 < n /\ (full = true -> pw = tc /\ ln = n /\ tr = n /\ 0 < tc)
  | _ => True
  end.

(* invariant of the object: the window is at least 2 and every stored estimate has state_size_ rows.  NOTHING is
   assumed about the three cached weight vectors: whatever their lengths, the call that uses one brings it to the
   number of stored estimates first. *)
Definition x_inv (ssz : nat) (s : xstate) : Prop :=
  2 <= hwin (xh s) /\ Forall (fun e => e = ssz) (xels s).

(* whatever its length was, the family's cache has one entry per history column after the call *)
Lemma x_avg_tail_len avg el ec k c : snd (x_avg_tail avg el ec k c c) = k.
Proof. unfold x_avg_tail. cbn [snd]. destruct (c =? k) eqn:E; b2p; congruence. Qed.
Lemma x_avg_tail_ok avg el ec k c : 0 < k -> Forall item_ok (fst (x_avg_tail avg el ec k c c)).
Proof.
  intro Hk. pose proof (x_avg_tail_len avg el ec k c) as Hc. unfold x_avg_tail in *. cbn [fst snd] in *.
  rewrite Hc. destruct avg as [|[|a]]; shape; auto using ext_mean_ok; arith.
Qed.

Lemma x_inv_cache avg s h els c ssz :
  x_inv ssz (XS (xstat s) (xavg s) h els (xsm s) (xwm s) (xem s)) -> x_inv ssz (x_set_cache avg s h els c).
Proof. unfold x_inv. destruct avg as [|[|[|a]]]; simpl; auto. Qed.

Lemma x_step_ok el ec s o : xop_valid el ec o -> x_inv (el + ec) s ->
  Forall item_ok (fst (fst (x_step el ec s o))) /\ x_inv (el + ec) (snd (fst (x_step el ec s o))).
Proof.
  intros Hv Hinv. pose proof Hinv as (Hw & Hels).
  destruct o as [stat avg | w | | full pr n wn pw ln tr tc]; unfold x_step; cbv zeta.
  - split; [constructor | exact Hinv].
  - destruct (pos w); [|split; [constructor | exact Hinv]].
    pose proof (h_set_ok e_ext_win (xh s) w) as H0. pose proof (h_set_win e_ext_win (xh s) w Hw) as H1.
    destruct (h_set e_ext_win (xh s) w) as [p h']. cbn [fst snd] in *.
    split; [exact H0 | split; [exact H1 | apply Forall_firstn, Hels]].
  - split; [constructor | split; [exact Hw | constructor]].
  - destruct Hv as (-> & -> & Hn & Hfull).
    destruct ((2 <=? xstat s) && negb full) eqn:Eg; [split; [constructor | exact Hinv]|].
    assert (Hev : ext_valid (xstat s) el ec (el + ec) n n pw ln tr tc).
    { do 3 (split; trivial). intro Hs. apply Hfull. destruct full; trivial.
      rewrite andb_true_r in Eg. b2p. lia. }
    pose proof (ext_stat_ok _ _ _ _ _ _ _ _ _ _ Hev) as Hs.
    rewrite ext_stat_rows_full.
    destruct (xavg s) as [|a]; [split; [exact Hs | exact Hinv]|].
    (* a windowed family: the estimate is stored, the history read back, the family's cache brought to its length *)
    pose proof (h_step_ok (el + ec) (xh s) (HAdd (el + ec))) as Hh.
    destruct (h_add_inv (el + ec) (xh s) (el + ec) Hw) as (Hw' & Hk).
    destruct (h_step (el + ec) (xh s) (HAdd (el + ec))) as [pa h']. cbn [fst snd] in *.
    pose proof (x_avg_tail_ok (S a) el ec (hsz h') (x_cache (S a) s) Hk) as Ht.
    destruct (x_avg_tail (S a) el ec (hsz h') (x_cache (S a) s) (x_cache (S a) s)) as [pt c']. cbn [fst snd] in *.
    assert (Hels' : Forall (fun e => e = el + ec) (firstn (hsz h') ((el + ec) :: xels s)))
      by (apply Forall_firstn; constructor; [reflexivity | exact Hels]).
    split.
    + shape; auto. apply h_get_ok; [exact Hels' | apply firstn_le_length].
    + apply x_inv_cache. split; [exact Hw' | exact Hels'].
Qed.

Lemma x_run_ok el ec ops : Forall (xop_valid el ec) ops ->
  forall s, x_inv (el + ec) s -> Forall item_ok (fst (fst (x_run el ec s ops))).
Proof.
  induction 1 as [|o r Ho Hr IH]; intros s Hs; simpl; [constructor|].
  pose proof (x_step_ok el ec s o Ho Hs) as (Hp & Hs').
  destruct (x_step el ec s o) as [[p s'] ob]. cbn [fst snd] in *.
  specialize (IH s' Hs'). destruct (x_run el ec s' r) as [[p2 ob2] w2]. cbn [fst snd] in *.
  apply Forall_app; split; assumption.
Qed.

Lemma x_init_inv ssz : x_inv ssz x_init.
Proof. split; [unfold x_init, h_init; simpl; lia | constructor]. Qed.
