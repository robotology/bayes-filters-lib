(* Properties_C16.v — property C16: the shipped models and initialisers match
   their documented closed form, over the lemmas of C16_Proofs, C16_ProofsSM
   and C16_Transport.  The linear-algebra statements hold for every
   realFieldType F; the constructor and serving statements for every
   arithmetic instance O (hence also for the list instance that is run). *)
Require Import ZArith QArith List.
Require Import BFL.Ops BFL.ListFacts BFL.ListOps BFL.Density BFL.C16_Model BFL.C16_ProofsSM.
From mathcomp Require Import ssreflect ssrfun ssrbool eqtype ssrnat seq choice fintype bigop order ssralg ssrnum zmodp matrix mxalgebra div.
Require Import BFL.MxOps BFL.LinAlg BFL.C16_Proofs.
Require Import BFL.ListOpsCorrect BFL.C02_Transport BFL.UT_Transport BFL.C16_Extract BFL.C16_Transport.
Import GRing.Theory Num.Theory.
Local Open Scope ring_scope.

Section C16.
Variable F : realFieldType.
Variable tr : Transc F.
Variable sq : forall n, 'M[F]_n -> 'M[F]_n.
Variable eg : forall n, 'M[F]_n -> 'M[F]_(n,1).
Let O := MxMat tr sq eg.

Theorem C16_state_dimension d : dim_n d = (2 * dim_blocks d)%N.
Proof. by case: d. Qed.

(* F = blockdiag_k [1 T; 0 1]: entry (2a+r, 2b+s) is entry (r, s) of block (a, b) *)
Theorem C16_F_closed_form d (T : F) a b r s :
  (a < dim_blocks d)%N -> (b < dim_blocks d)%N -> (r < 2)%N -> (s < 2)%N ->
  mget (wna_F (O:=O) d T) (2 * a + r) (2 * b + s) =
  if a == b then (if r == s then 1 else if (r < s)%N then T else 0) else 0.
Proof. by move=> ha hb hr hs; rewrite /wna_F /= blocks_entry // wna_F2_entry. Qed.

(* Q = q blockdiag_k [T^3/3 T^2/2; T^2/2 T] *)
Theorem C16_Q_closed_form d (T q : F) a b r s :
  (a < dim_blocks d)%N -> (b < dim_blocks d)%N -> (r < 2)%N -> (s < 2)%N ->
  mget (wna_Q (O:=O) d T q) (2 * a + r) (2 * b + s) =
  if a == b then q * (match r, s with
                      | 0%N, 0%N => T ^+ 3 / 3%:R
                      | 1%N, 1%N => T
                      | _, _ => T ^+ 2 / 2%:R
                      end) else 0.
Proof.
move=> ha hb hr hs; rewrite /wna_Q /= mx_get_scale blocks_entry // wna_Q2_entry //.
by case: ifP; rewrite ?mulr0.
Qed.

(* the two leading minors of the 2x2 block *)
Theorem C16_Q_block_minors (T : F) : 0 < T ->
  0 < T ^+ 3 / 3%:R /\
  T ^+ 3 / 3%:R * T - T ^+ 2 / 2%:R * (T ^+ 2 / 2%:R) = T ^+ 4 / 12%:R /\ 0 < T ^+ 4 / 12%:R.
Proof. exact: wna_Q2_minors. Qed.

(* so Q is SPD (the premise of the LDLT contract) and invertible (the density is not totalised) *)
Theorem C16_Q_spd d (T q : F) : 0 < T -> 0 < q -> spd (wna_Q (O:=O) d T q : 'M[F]_(dim_n d)).
Proof. exact: wna_Q_spd. Qed.

Theorem C16_Q_invertible d (T q : F) : 0 < T -> 0 < q ->
  (wna_Q (O:=O) d T q : 'M[F]_(dim_n d)) \in unitmx.
Proof. exact: wna_Q_unit. Qed.

(* a sample has the state dimension; column j is sqrt_Q applied to the j-th group of
   dim_n d consecutive draws; exactly dim_n d * num draws are consumed (so the samples
   are a function of the seed-determined draws only) *)
Theorem C16_noise_dim d (T q : F) num zs :
  (wna_noise_sample (O:=O) d T q num zs).2 = skipn (dim_n d * num) zs /\
  forall (i : 'I_(dim_n d)) (j : 'I_num),
    ((wna_noise_sample (O:=O) d T q num zs).1 : 'M[F]_(dim_n d, num)) i j =
    \sum_(k < dim_n d) (wna_sqrtQ (O:=O) d T q : 'M[F]_(dim_n d)) i k * List.nth (j * dim_n d + k)%N zs 0.
Proof. by split=> // i j; rewrite /wna_noise_sample noise_sample_entry. Qed.

(* the sample W = L Z is a linear image of the draws: W W^T = L (Z Z^T) L^T = Q when
   Z Z^T = I (the algebraic form of E[Z Z^T] = I) and the factor the oracle returned for THIS
   matrix satisfies its contract L L^T = Q (Q is SPD by C16_Q_spd, so the contract applies;
   C16_factor_exists exhibits such an L in every real closed field) *)
Theorem C16_noise_cov d (T q : F) num zs :
  let L : 'M[F]_(dim_n d) := wna_sqrtQ (O:=O) d T q in
  L *m L^T = wna_Q (O:=O) d T q ->
  let Z : 'M[F]_(dim_n d, num) := fill_colmajor (O:=O) (dim_n d) num zs in
  let W : 'M[F]_(dim_n d, num) := (wna_noise_sample (O:=O) d T q num zs).1 in
  Z *m Z^T = 1%:M -> W *m W^T = wna_Q (O:=O) d T q.
Proof.
move=> L LL Z W ZZ; rewrite /W /wna_noise_sample noise_sample_fst.
exact: linear_image_cov.
Qed.

Theorem C16_motion d (T q : F) c (X : 'M[F]_(dim_n d, c)) zs :
  wna_motion (O:=O) d T q X zs =
  ((wna_F (O:=O) d T : 'M[F]_(dim_n d)) *m X
     + (wna_sqrtQ (O:=O) d T q : 'M[F]_(dim_n d)) *m (fill_colmajor (O:=O) (dim_n d) c zs : 'M[F]_(dim_n d, c)),
   skipn (dim_n d * c) zs).
Proof. by []. Qed.

(* one value per (previous, current) pair: N(cur_j; F prev_j, Q) *)
Theorem C16_transition_density d (T q : F) c (prev cur : 'M[F]_(dim_n d, c)) :
  length (wna_transition_probability (O:=O) d T q prev cur) = c /\
  forall (j : 'I_c) dflt,
    List.nth j (wna_transition_probability (O:=O) d T q prev cur) dflt =
    density (O:=O) (col j cur) ((wna_F (O:=O) d T : 'M[F]_(dim_n d)) *m col j prev) (wna_Q (O:=O) d T q).
Proof.
split; first exact: transition_probability_length.
by move=> j dflt; rewrite /wna_transition_probability transition_probability_nth.
Qed.

(* the simulated trajectory over this model (C16_trajectory below, with motion := wna_motion on one
   column): x_{k+1} = F x_k + L z_k, z_k the k-th group of dim_n d consecutive draws *)
Theorem C16_trajectory_wna d (T q : F) (x0 : 'cV[F]_(dim_n d)) zs k :
  ((iter_motion (@wna_motion1 F tr sq eg d T q) k.+1 (x0, zs)).1 : 'cV[F]_(dim_n d)) =
  (wna_F (O:=O) d T : 'M[F]_(dim_n d)) *m (iter_motion (@wna_motion1 F tr sq eg d T q) k (x0, zs)).1
  + (wna_sqrtQ (O:=O) d T q : 'M[F]_(dim_n d))
      *m (fill_colmajor (O:=O) (dim_n d) 1 (skipn (dim_n d * k) zs) : 'cV[F]_(dim_n d)).
Proof. by rewrite [iter_motion _ _ _]/= /wna_motion1 /wna_motion additive_motion_eq [(_, _).1]/= wna_iter_draws. Qed.

Theorem C16_selector_matrix n (idxs : list nat) rr rc (R : 'M[F]_(rr, rc)) H R' L :
  linear_model_ctor (O:=O) n idxs R = inr (H, R', L) ->
  forall a b, (a < length idxs)%N -> (b < n)%N ->
  mget (H : M O (length idxs) n) a b = if b == List.nth a idxs 0%N then 1 else 0.
Proof.
move=> E; have := linear_model_ctor_spec O n idxs rr rc R; rewrite E /=.
case=> _ [_ [fill _]] a b am bn.
by rewrite (lm_fill_entries fill) // subn0 add0n /= am /= mx_get_0.
Qed.

(* the sensor's noise: R is exposed unchanged, sqrt_R is the oracle's factor of R, and under the
   factor's contract on R a sample W = sqrt_R Z has W W^T = R when Z Z^T = I; freeze() adds the
   one-column sample (C16_sensor_freeze) *)
Theorem C16_sensor_noise_cov n (idxs : list nat) m (R : 'M[F]_m) H R' (L : 'M[F]_m) num zs :
  linear_model_ctor (O:=O) n idxs R = inr (H, R', L) ->
  R' = R /\ L = sq m R /\
  (L *m L^T = R ->
   let Z : 'M[F]_(m, num) := fill_colmajor (O:=O) m num zs in
   let W : 'M[F]_(m, num) := (noise_sample (O:=O) L num zs).1 in
   Z *m Z^T = 1%:M -> W *m W^T = R).
Proof.
move=> E; have := linear_model_ctor_spec O n idxs m m R; rewrite E /=.
case=> -> [-> _]; rewrite mx_build_get; split=> //; split=> // LL ZZ.
exact: (linear_image_cov LL ZZ).
Qed.

(* SimulatedLinearSensor's descriptions: input = state description + |R| noise components;
   measurement = (number of measured components below linear_size, number at or above it) *)
Theorem C16_sensor_descriptions n (idxs : list nat) (H : 'M[F]_(length idxs, n)) sd nr :
  Forall (fun c => (c < n)%coq_nat) idxs ->
  (forall a b, (a < length idxs)%N -> (b < n)%N -> mget (H : M O (length idxs) n) a b = if b == List.nth a idxs 0%N then 1 else 0) ->
  sensor_descriptions (O:=O) H sd nr =
  (mkDesc (d_lin sd) (d_circ sd) (d_noise sd + nr)%coq_nat,
   mkDesc (length (List.filter (fun c => Nat.ltb c (d_lin sd)) idxs))
          (length (List.filter (fun c => negb (Nat.ltb c (d_lin sd))) idxs)) 0).
Proof.
move=> inrange E; rewrite /sensor_descriptions /desc_add_noise /desc_linear_size /=.
set step := (fun acc i => _).
have P k : (k <= length idxs)%N ->
    fold_left step (List.seq 0 k) (0%N, 0%N) =
    (length (List.filter (fun c => Nat.ltb c (d_lin sd)) (firstn k idxs)),
     length (List.filter (fun c => negb (Nat.ltb c (d_lin sd))) (firstn k idxs))).
  elim: k => [|k IH] le //.
  have kl : (k < length idxs)%coq_nat by apply/ssrnat.ltP.
  rewrite seq_S fold_left_app IH 1?ltnW // (firstn_S_nth _ _ 0%N kl) !filter_app !app_length /= /step /=.
  have -> : row_argmax_abs (O:=O) H k = List.nth k idxs 0%N.
    apply: row_argmax_selector; last by move=> b bn; apply: E.
    by apply/ssrnat.ltP; move/Forall_forall: inrange; apply; apply: nth_In.
  by case: (Nat.ltb _ _) => /=; rewrite ?Nat.add_0_r ?Nat.add_1_r.
by rewrite P // firstn_all.
Qed.

Theorem C16_grid_refusal xinf xsup yinf ysup nx ny np (st : 'M[F]_(4, np)) (w : 'cV[F]_np) :
  grid_initialize (O:=O) xinf xsup yinf ysup nx ny st w = None <-> np <> (nx * ny)%N.
Proof. by rewrite /grid_initialize nat_eqbE; case: eqP => [e|ne] /=; split. Qed.

(* for grids of at least 2 x 2 points (the property's domain; then no denominator vanishes).
   With nx = 1 or ny = 1 the code computes 0/0 * 0 = NaN: that case is covered by the
   correspondence check only *)
Theorem C16_grid_positions xinf xsup yinf ysup nx ny np (st : 'M[F]_(4, np)) (w : 'cV[F]_np) st' w' :
  (2 <= nx)%N -> (2 <= ny)%N ->
  grid_initialize (O:=O) xinf xsup yinf ysup nx ny st w = Some (st', w') ->
  (nx%:R - 1 != 0 :> F) /\ (ny%:R - 1 != 0 :> F) /\
  forall i j r, (i < nx)%N -> (j < ny)%N -> (r < 4)%N ->
    mget (st' : M O 4 np) r (i * ny + j) =
    match r with
    | 0%N => xinf + i%:R * ((xsup - xinf) / (nx%:R - 1))
    | 2%N => yinf + j%:R * ((ysup - yinf) / (ny%:R - 1))
    | _ => 0
    end.
Proof.
move=> x2 y2; rewrite /grid_initialize nat_eqbE; case: eqP => [e [<- _]|//].
do 2!(split; first exact: natr_pred_neq0).
move=> i j r ix jy r4; rewrite [LHS]grid_fold_entry //.
by case: r r4 => [|[|[|r]]] //= _; rewrite grid_coordE.
Qed.

Theorem C16_grid_spans (inf sup : F) n : (2 <= n)%N ->
  grid_coord (O:=O) (sup - inf) inf n 0 = inf /\ grid_coord (O:=O) (sup - inf) inf n n.-1 = sup.
Proof. by move=> n2; rewrite grid_coord_first grid_coord_last. Qed.

Theorem C16_grid_weights xinf xsup yinf ysup nx ny np (st : 'M[F]_(4, np)) (w : 'cV[F]_np) st' w' :
  grid_initialize (O:=O) xinf xsup yinf ysup nx ny st w = Some (st', w') ->
  np = (nx * ny)%N /\ forall k, (k < np)%N -> mget (w' : M O np 1) k 0 = - t_ln tr (np%:R).
Proof.
rewrite /grid_initialize nat_eqbE; case: eqP => [e [_ <-]|//]; split=> // k kn.
by rewrite /mconst /= mx_get_build // ZnatE.
Qed.

(* every column and every weight is written: the result does not depend on the previous content
   (SIS::initialization_step calls initialize on pred_particle_, also on a set that has been used) *)
Theorem C16_grid_overwrites xinf xsup yinf ysup nx ny np (st st2 : 'M[F]_(4, np)) (w w2 : 'cV[F]_np) :
  grid_initialize (O:=O) xinf xsup yinf ysup nx ny st w =
  grid_initialize (O:=O) xinf xsup yinf ysup nx ny st2 w2.
Proof.
rewrite /grid_initialize nat_eqbE; case: eqP => [e|//] /=; congr (Some (_, _)).
apply/matrixP => r k; rewrite -!mx_get_ord.
have kn : (k < nx * ny)%N by rewrite -[(nx * ny)%N]e.
have ny0 : (0 < ny)%N by case: (ny) kn => [|//]; rewrite muln0.
by rewrite [nat_of_ord k](divn_eq k ny) !grid_fold_entry // ?ltn_pmod // ltn_divLR.
Qed.

End C16.

(* non-vacuity of the local premise of C16_noise_cov: in every real closed field the block-diagonal
   Cholesky factor is a factor of Q.  (Over the rationals no factor exists for any T, q, Dim:
   det Q = (q^2 T^4 / 12)^k is not a rational square for k odd, and for k = 2 the Hasse invariant
   at 3 differs from that of the identity form - so no rational Example can exhibit one.) *)
Theorem C16_factor_exists (R : rcfType) (tr : Transc R) sq eg d (T q : R) : 0 < T -> 0 < q ->
  let L : 'M[R]_(dim_n d) := blocks (O:=MxMat tr sq eg) d (chol2 T q) in
  L *m L^T = wna_Q (O:=MxMat tr sq eg) d T q.
Proof. by move=> T0 q0 L; rewrite /L blocks_mul_tr (chol2_factor tr sq eg) // blocks_scale. Qed.

(* ---- constructors, trajectory, sensor: for every arithmetic instance ---- *)
Local Close Scope ring_scope.
Local Open Scope nat_scope.

Section C16_any_instance.
Variable O : MatOps.

(* exactly the empty / non-square / mismatched inputs are rejected, each by the first
   check that applies in the code's order; accepted inputs are exposed unchanged *)
Theorem C16_lti_state_ctor_validation fr fc qr qc (Fm : M O fr fc) (Q : M O qr qc) :
  match lti_state_ctor Fm Q with
  | inr (F', Q') => F' = Fm /\ Q' = Q /\ (0 < fr)%coq_nat /\ fr = fc /\ qr = qc /\ fr = qr
  | inl ErrFEmpty => fr = 0 \/ fc = 0
  | inl ErrQEmpty => (0 < fr)%coq_nat /\ (0 < fc)%coq_nat /\ (qr = 0 \/ qc = 0)
  | inl ErrFNotSquare => (0 < fr)%coq_nat /\ (0 < fc)%coq_nat /\ (0 < qr)%coq_nat /\ (0 < qc)%coq_nat /\ fr <> fc
  | inl ErrQNotSquare => (0 < fr)%coq_nat /\ fr = fc /\ (0 < qr)%coq_nat /\ (0 < qc)%coq_nat /\ qr <> qc
  | inl ErrFQMismatch => (0 < fr)%coq_nat /\ fr = fc /\ (0 < qr)%coq_nat /\ qr = qc /\ fr <> qr
  end.
Proof.
unfold lti_state_ctor.
destruct (is_empty fr fc) eqn:EF; [exact (is_empty_true _ _ EF)|].
destruct (is_empty_false _ _ EF) as [Fr Fc].
destruct (is_empty qr qc) eqn:EQ; [pose proof (is_empty_true _ _ EQ); auto|].
destruct (is_empty_false _ _ EQ) as [Qr Qc].
destruct (Nat.eqb_spec fr fc) as [Fsq|]; simpl; [|repeat split; assumption].
destruct (Nat.eqb_spec qr qc) as [Qsq|]; simpl; [|repeat split; assumption].
destruct (Nat.eqb_spec fr qr); simpl; repeat split; assumption.
Qed.

Theorem C16_lti_meas_ctor_validation hr hc rr rc (H : M O hr hc) (R : M O rr rc) :
  match lti_meas_ctor H R with
  | inr (H', R') => H' = H /\ R' = R /\ (0 < hr)%coq_nat /\ (0 < hc)%coq_nat /\ rr = rc /\ hr = rr
  | inl ErrHEmpty => hr = 0 \/ hc = 0
  | inl ErrREmpty => (0 < hr)%coq_nat /\ (0 < hc)%coq_nat /\ (rr = 0 \/ rc = 0)
  | inl ErrRNotSquare => (0 < hr)%coq_nat /\ (0 < hc)%coq_nat /\ (0 < rr)%coq_nat /\ (0 < rc)%coq_nat /\ rr <> rc
  | inl ErrHRMismatch => (0 < hr)%coq_nat /\ (0 < hc)%coq_nat /\ (0 < rr)%coq_nat /\ rr = rc /\ hr <> rr
  | inl (ErrIndex _ _) => False
  end.
Proof. exact: lti_meas_ctor_spec. Qed.

(* LinearModel: the base-class checks on a |idxs| x n matrix, then the first index outside
   the state vector is reported; otherwise R is exposed unchanged and sqrt_R is the factor of R *)
Theorem C16_selector_ctor_validation n (idxs : list nat) rr rc (R : M O rr rc) :
  let m := length idxs in
  match linear_model_ctor n idxs R with
  | inr (H, R', L) =>
      R' = R /\ L = msqrt (mbuild rr rr (fun i j => mget R i j)) /\ lm_fill 0 idxs (mzero m n) = inr H /\
      (0 < m)%coq_nat /\ (0 < n)%coq_nat /\ rr = rc /\ m = rr /\ Forall (fun c => (c < n)%coq_nat) idxs
  | inl ErrHEmpty => m = 0 \/ n = 0
  | inl ErrREmpty => (0 < m)%coq_nat /\ (0 < n)%coq_nat /\ (rr = 0 \/ rc = 0)
  | inl ErrRNotSquare => (0 < m)%coq_nat /\ (0 < n)%coq_nat /\ (0 < rr)%coq_nat /\ (0 < rc)%coq_nat /\ rr <> rc
  | inl ErrHRMismatch => (0 < m)%coq_nat /\ (0 < n)%coq_nat /\ (0 < rr)%coq_nat /\ rr = rc /\ m <> rr
  | inl (ErrIndex p v) =>
      ((0 < m)%coq_nat /\ (0 < n)%coq_nat /\ rr = rc /\ m = rr) /\
      nth_error idxs p = Some v /\ (n <= v)%coq_nat /\ Forall (fun c => (c < n)%coq_nat) (firstn p idxs)
  end.
Proof. exact: linear_model_ctor_spec. Qed.

Theorem C16_selector_rejects_out_of_range n (idxs : list nat) rr rc (R : M O rr rc) :
  (0 < length idxs)%coq_nat -> (0 < n)%coq_nat -> rr = rc -> length idxs = rr ->
  ~ Forall (fun c => (c < n)%coq_nat) idxs ->
  exists p v, linear_model_ctor n idxs R = inl (ErrIndex p v) /\
              nth_error idxs p = Some v /\ (n <= v)%coq_nat /\ Forall (fun c => (c < n)%coq_nat) (firstn p idxs).
Proof. exact: linear_model_rejects. Qed.

(* the grid initialiser on a particle set with any number r of state rows (the function that is
   extracted and run): it refuses exactly a wrong particle count or a state that is not
   (x, vx, y, vy), and on 4 rows it is the grid_initialize of the C16_grid_* theorems *)
Theorem C16_grid_rows_refusal (xinf xsup yinf ysup : T (sc O)) nx ny r np (st : M O r np) (w : M O np 1) :
  grid_initialize_rows xinf xsup yinf ysup nx ny st w = None <-> (np <> nx * ny \/ r <> 4).
Proof.
unfold grid_initialize_rows.
destruct (Nat.eqb_spec np (nx * ny)%coq_nat); simpl.
- destruct (Nat.eqb_spec r 4); simpl; split; try discriminate; try tauto.
- split; auto.
Qed.

Theorem C16_grid_rows_four (xinf xsup yinf ysup : T (sc O)) nx ny np (st : M O 4 np) (w : M O np 1) :
  grid_initialize_rows xinf xsup yinf ysup nx ny st w = grid_initialize xinf xsup yinf ysup nx ny st w.
Proof. unfold grid_initialize_rows, grid_initialize. destruct (np =? nx * ny); reflexivity. Qed.

Section Serving.
Variable d : nat.
Variable motion : M O d 1 -> list (T (sc O)) -> M O d 1 * list (T (sc O)).

(* the constructor stores x_0 = the given state and x_{k+1} = motion(x_k), the draws threaded
   in order; simulation_time = 0 is the only input that is rejected *)
Theorem C16_trajectory (x0 : M O d 1) len zs :
  match sim_ctor motion x0 len zs with
  | inl ErrSimEmpty => len = 0
  | inr st =>
      (0 < len)%coq_nat /\ sim_wf st /\ sim_time st = len /\ sim_cur st = 0 /\ sim_data st = None /\
      (forall k, (k < len)%coq_nat ->
         nth_error (sim_target st) k = Some (fst (iter_motion motion k (x0, zs))))
  end.
Proof. exact: sim_ctor_spec. Qed.

(* an empty trajectory is rejected at construction (no state is built), and it is the only
   rejected input (C16_trajectory) *)
Theorem C16_zero_length_has_no_state (x0 : M O d 1) zs : sim_ctor motion x0 0 zs = inl ErrSimEmpty.
Proof. by []. Qed.

Theorem C16_trajectory_recurrence k (p : M O d 1 * list (T (sc O))) :
  iter_motion motion (S k) p = motion (fst (iter_motion motion k p)) (snd (iter_motion motion k p)).
Proof. by []. Qed.

(* after ANY call sequence: stored trajectory untouched, cursor = calls since the last reset,
   capped at the length (so a column outside the trajectory is never read) *)
Theorem C16_serving_state (st : @sim_state O d) : sim_wf st -> sim_cur st = 0 -> forall ops,
  let st1 := snd (sim_run st ops) in
  sim_wf st1 /\ sim_target st1 = sim_target st /\ sim_time st1 = sim_time st /\
  sim_cur st1 = Nat.min (since_reset ops) (sim_time st).
Proof. exact: sim_run_state. Qed.

(* bufferData() after ANY history on a freshly built model: the c-th call since the last
   reset serves x_c while c < length, and reports the end (state untouched) afterwards *)
Theorem C16_serving (x0 : M O d 1) len zs st pre :
  sim_ctor motion x0 len zs = inr st ->
  let st1 := snd (sim_run st pre) in
  let c := since_reset pre in
  ((c < len)%coq_nat ->
     sim_step st1 SimBuffer =
       (mkSim (sim_target st) len (S c) (Some (fst (iter_motion motion c (x0, zs)))), true))
  /\ ((len <= c)%coq_nat -> sim_step st1 SimBuffer = (st1, false)).
Proof. exact: sim_serving. Qed.

Theorem C16_reset_restarts (st : @sim_state O d) :
  sim_step st SimReset = (mkSim (sim_target st) (sim_time st) 0 (sim_data st), true)
  /\ sim_step st SimOther = (st, false).
Proof. by []. Qed.

(* what a run reports for the call that follows the history [pre] *)
Theorem C16_call_output (st : @sim_state O d) pre op post dflt :
  List.nth (length pre) (fst (sim_run st (pre ++ op :: post))) dflt =
  (snd (sim_step (snd (sim_run st pre)) op), sim_data (fst (sim_step (snd (sim_run st pre)) op))).
Proof.
rewrite sim_run_app sim_run_cons [fst (_, _)]/= -{1}(sim_run_length _ _ pre st).
by rewrite app_nth2 ?Nat.sub_diag.
Qed.

Variable m : nat.

(* one freeze from any well-formed state: measurement = H x_k + L_R z (z the next m draws of
   the sensor's generator); at the end of the trajectory it forwards the failure and keeps
   measurement and draws *)
Theorem C16_sensor_freeze (H : M O m d) (LR : M O m m) (st : @sens_state O d m) : sim_wf (sens_sim st) ->
  let s := sens_sim st in
  ((sim_cur s < sim_time s)%coq_nat /\
   exists x, nth_error (sim_target s) (sim_cur s) = Some x /\
     sensor_freeze H LR st =
       (mkSens (mkSim (sim_target s) (sim_time s) (S (sim_cur s)) (Some x))
               (skipn (m * 1) (sens_zs st))
               (Some (madd (mmul H x) (mmul LR (fill_colmajor m 1 (sens_zs st))))), true))
  \/ (sim_cur s = sim_time s /\ sensor_freeze H LR st = (mkSens s (sens_zs st) (sens_meas st), false)).
Proof.
intros W. cbv zeta. unfold sensor_freeze.
destruct (sim_buffer_spec _ _ (sens_sim st) W) as [[lt [x [Nx Ex]]]|[eq Ex]]; rewrite Ex.
- left. split; [exact lt|]. exists x. split; [exact Nx|]. reflexivity.
- right. split; [exact eq|]. reflexivity.
Qed.

(* a freeze after ANY history of freezes / resets on a sensor over a fresh trajectory *)
Theorem C16_sensor_serving (H : M O m d) (LR : M O m m) x0 len zs sim0 zs2 pre :
  sim_ctor motion x0 len zs = inr sim0 ->
  let st1 := snd (sensor_run H LR (mkSens sim0 zs2 None) pre) in
  let c := since_reset (map proj_op pre) in
  ((c < len)%coq_nat ->
     let x := fst (iter_motion motion c (x0, zs)) in
     sensor_freeze H LR st1 =
       (mkSens (mkSim (sim_target sim0) len (S c) (Some x)) (skipn (m * 1) (sens_zs st1))
               (Some (madd (mmul H x) (mmul LR (fill_colmajor m 1 (sens_zs st1))))), true))
  /\ ((len <= c)%coq_nat ->
       sensor_freeze H LR st1 = (mkSens (sens_sim st1) (sens_zs st1) (sens_meas st1), false)).
Proof.
move=> E st1 c.
have S1 : sens_sim st1 = snd (sim_run sim0 (map proj_op pre)) by rewrite /st1 sensor_run_sim.
have [A B] := sim_serving _ _ motion x0 len zs sim0 (map proj_op pre) E.
by rewrite -S1 in A B; split=> Hc; rewrite /sensor_freeze ?(A Hc) ?(B Hc).
Qed.

(* the sensor's generator advances by exactly m draws per successful freeze, by nothing else *)
Theorem C16_sensor_draws (H : M O m d) (LR : M O m m) ops (st : @sens_state O d m) :
  sens_zs (snd (sensor_run H LR st ops)) =
  skipn (m * freeze_successes ops (fst (sensor_run H LR st ops))) (sens_zs st).
Proof.
elim: ops st => [|op ops IH] st; first by rewrite /= muln0.
rewrite sensor_run_cons [freeze_successes _ _]/= IH mulnDr -skipn_skipn_add.
congr (skipn _ _); case: op; rewrite /= ?muln0 //.
have := sensor_freeze_draws _ _ _ H LR st; case: (sensor_freeze H LR st) => st' [] //= [-> _].
by rewrite muln0.
Qed.
End Serving.
End C16_any_instance.

(* ---- executed model = theorem model ----
   Every entry point of C16_Extract.v (what the OCaml driver calls, with IEEE doubles as scalars; their
   oracle record is c16_O S sqL = ListMat S sqL (fun _ A => A), hence egL below),
   run on lists over the scalars of ANY realFieldType and with ANY list-level square-root oracle
   sqL, REPRESENTS (repr: m rows of n entries, entry-wise equal) the value of the model function
   the theorems above are about at the MathComp instance.  Premises: the inputs are represented;
   the two square-root oracles correspond on the matrix actually factored (corrQ / corrR; holds
   e.g. for the identity oracles, C16_executed_premises_satisfiable, and excludes no list oracle,
   UT_Transport.oracle_counterpart_exists); T, q > 0 for the density (Q is then PROVED invertible,
   so the Gauss-Jordan inverse / determinant of the list instance are invmx / \det). *)
Local Open Scope ring_scope.
Section C16_executed.
Variable F : realFieldType.
Variable tr : Transc F.
Variable sq : forall n, 'M[F]_n -> 'M[F]_n.
Variable eg : forall n, 'M[F]_n -> 'M[F]_(n,1).
Variable sqL : nat -> lmxF F -> lmxF F.
Let S := FOps tr.
Let egL : nat -> lmxF F -> lmxF F := fun _ A => A.
Let OM := MxMat tr sq eg.
Notation repr m n l A := (@C02_Transport.repr F m n l A) (only parsing).
Notation corrQ := (@sq_corr_Q F tr sq eg sqL egL).
Notation corrR := (@sq_corr_R F tr sq eg sqL egL).
Notation rsim n := (@rel_sim F tr sq eg sqL egL n).

Theorem C16_executed_F_is_theorem_model d (Ts : F) :
  repr (dim_n d) (dim_n d) (c16_wna_F S sqL d Ts) (wna_F (O:=OM) d Ts : 'M[F]_(dim_n d)).
Proof. exact: (@wna_F_repr F tr sq eg sqL _). Qed.

Theorem C16_executed_Q_is_theorem_model d (Ts q : F) :
  repr (dim_n d) (dim_n d) (c16_wna_Q S sqL d Ts q) (wna_Q (O:=OM) d Ts q : 'M[F]_(dim_n d)).
Proof. exact: (@wna_Q_repr F tr sq eg sqL _). Qed.

Theorem C16_executed_sqrtQ_is_theorem_model d (Ts q : F) : corrQ d Ts q ->
  repr (dim_n d) (dim_n d) (c16_wna_sqrtQ S sqL d Ts q) (wna_sqrtQ (O:=OM) d Ts q : 'M[F]_(dim_n d)).
Proof. by []. Qed.

Theorem C16_executed_noise_sample_is_theorem_model d (Ts q : F) num zs : corrQ d Ts q ->
  repr (dim_n d) num (c16_wna_noise S sqL d Ts q num zs).1
                     ((wna_noise_sample (O:=OM) d Ts q num zs).1 : 'M[F]_(dim_n d,num))
  /\ (c16_wna_noise S sqL d Ts q num zs).2 = (wna_noise_sample (O:=OM) d Ts q num zs).2.
Proof. exact: (@wna_noise_sample_repr F tr sq eg sqL egL). Qed.

Theorem C16_executed_motion_is_theorem_model d (Ts q : F) c lX (X : 'M[F]_(dim_n d,c)) zs : corrQ d Ts q ->
  repr (dim_n d) c lX X ->
  repr (dim_n d) c (c16_wna_motion S sqL d Ts q c lX zs).1 ((wna_motion (O:=OM) d Ts q X zs).1 : 'M[F]_(dim_n d,c))
  /\ (c16_wna_motion S sqL d Ts q c lX zs).2 = (wna_motion (O:=OM) d Ts q X zs).2.
Proof. exact: (@wna_motion_repr F tr sq eg sqL egL). Qed.

Theorem C16_executed_transition_density_is_theorem_model d (Ts q : F) c lp (prev : 'M[F]_(dim_n d,c)) lc (cur : 'M[F]_(dim_n d,c)) :
  0 < Ts -> 0 < q -> repr (dim_n d) c lp prev -> repr (dim_n d) c lc cur ->
  c16_wna_tp S sqL d Ts q c lp lc = wna_transition_probability (O:=OM) d Ts q prev cur.
Proof. exact: (@wna_transition_probability_transport F tr sq eg sqL _). Qed.

(* the spec side of the violation search *)
Theorem C16_executed_spec_density_is_theorem_model d (Ts q : F) c lp (prev : 'M[F]_(dim_n d,c)) lc (cur : 'M[F]_(dim_n d,c)) :
  0 < Ts -> 0 < q -> repr (dim_n d) c lp prev -> repr (dim_n d) c lc cur ->
  c16_spec_tp S sqL d Ts q c lp lc =
  List.map (fun j => density (O:=OM) (mcol (O:=OM) j cur)
                             ((wna_F (O:=OM) d Ts : 'M[F]_(dim_n d)) *m (mcol (O:=OM) j prev : 'cV[F]_(dim_n d)))
                             (wna_Q (O:=OM) d Ts q)) (List.seq 0 c).
Proof. exact: (@spec_tp_transport F tr sq eg sqL _). Qed.

(* `Proof using`: the statement stays quantified over the matrix-level oracles, which the product does not consult *)
Theorem C16_executed_factor_contract_is_theorem_model n lL (L : 'M[F]_n) :
  repr n n lL L -> repr n n (c16_LLt S sqL n lL) (L *m L^T).
Proof using sq eg sqL. by move=> rL; exact: (repr_mul tr sqL _ rL (repr_tr tr sqL _ rL)). Qed.

Theorem C16_executed_lti_state_ctor_is_theorem_model fr fc qr qc lF (Fm : 'M[F]_(fr,fc)) lQ (Q : 'M[F]_(qr,qc)) :
  repr fr fc lF Fm -> repr qr qc lQ Q ->
  srel (@rel_pair F fr fc qr qc) (c16_lti_state S sqL fr fc qr qc lF lQ) (lti_state_ctor (O:=OM) Fm Q).
Proof. exact: (@lti_state_ctor_transport F tr sq eg sqL _). Qed.

Theorem C16_executed_lti_meas_ctor_is_theorem_model hr hc rr rc lH (H : 'M[F]_(hr,hc)) lR (R : 'M[F]_(rr,rc)) :
  repr hr hc lH H -> repr rr rc lR R ->
  srel (@rel_pair F hr hc rr rc) (c16_lti_meas S sqL hr hc rr rc lH lR) (lti_meas_ctor (O:=OM) H R).
Proof. exact: (@lti_meas_ctor_transport F tr sq eg sqL _). Qed.

(* LinearModel: same outcome (which check fired, position and value of a rejected index), and on
   success H (the 0/1 selector), R and sqrt_R are represented *)
Theorem C16_executed_selector_is_theorem_model n idxs rr rc lR (R : 'M[F]_(rr,rc)) :
  repr rr rc lR R -> corrR lR R ->
  srel (@rel_lm F (length idxs) n rr rc) (c16_linear_model S sqL n idxs rr rc lR) (linear_model_ctor (O:=OM) n idxs R).
Proof. exact: (@linear_model_ctor_transport F tr sq eg sqL egL). Qed.

Theorem C16_executed_sensor_noise_is_theorem_model d lL (L : 'M[F]_d) num zs : repr d d lL L ->
  repr d num (c16_noise S sqL d lL num zs).1 ((noise_sample (O:=OM) L num zs).1 : 'M[F]_(d,num))
  /\ (c16_noise S sqL d lL num zs).2 = (noise_sample (O:=OM) L num zs).2.
Proof. exact: (@noise_sample_repr F tr sq eg sqL _). Qed.

(* the trajectory recursion: same rejection of length 0; otherwise every stored column, the
   length, the cursor and the (empty) data are those of the theorem model *)
Theorem C16_executed_trajectory_is_theorem_model d (Ts q : F) lx (x0 : 'cV[F]_(dim_n d)) len zs :
  corrQ d Ts q -> repr (dim_n d) 1 lx x0 ->
  srel (rsim (dim_n d)) (c16_sim_ctor S sqL d Ts q lx len zs)
       (sim_ctor (O:=OM) (fun (x : 'cV[F]_(dim_n d)) z => wna_motion (O:=OM) d Ts q (c:=1) x z) x0 len zs).
Proof.
move=> cq rx.
(* the one-column motion respects the representation as soon as the oracles correspond on Q *)
have mc l (x : 'cV[F]_(dim_n d)) zs' (rl : repr (dim_n d) 1 l x) :=
  @wna_motion_repr F tr sq eg sqL egL d Ts q 1 l x zs' cq rl.
exact: (@sim_ctor_transport F tr sq eg sqL egL (dim_n d) _ _ mc lx x0 len zs rx).
Qed.

Theorem C16_executed_trajectory_columns_is_theorem_model n sl (sm : sim_state (O:=OM) n) : rsim n sl sm ->
  List.Forall2 (fun l (x : 'cV[F]_n) => repr n 1 l x) (c16_sim_target S sqL n sl) (sim_target sm).
Proof. by case. Qed.

(* serving: after ANY call sequence the return values are equal and getData() is represented *)
Theorem C16_executed_serving_is_theorem_model n sl (sm : sim_state (O:=OM) n) ops : rsim n sl sm ->
  List.Forall2 (@rel_out F n) (c16_sim_run S sqL n sl ops) (sim_run (O:=OM) sm ops).1.
Proof. by move=> rs; case: (@sim_run_transport F tr sq eg sqL egL n ops sl sm rs). Qed.

Theorem C16_executed_sensor_output_is_theorem_model n m lH (H : 'M[F]_(m,n)) lLR (LR : 'M[F]_m) sl (sm : sim_state (O:=OM) n) zs ops :
  repr m n lH H -> repr m m lLR LR -> rsim n sl sm ->
  List.Forall2 (fun (o : bool * option (lmxF F)) (p : bool * option 'cV[F]_m) =>
                  o.1 = p.1 /\ orel (fun l (y : 'cV[F]_m) => repr m 1 l y) o.2 p.2)
               (c16_sensor_run S sqL n m lH lLR sl zs ops)
               (sensor_run (O:=OM) H LR (mkSens (O:=OM) (m:=m) sm zs None) ops).1.
Proof.
move=> rH rL rs.
have rss : @rel_sens F tr sq eg sqL egL n m (mkSens (m:=m) sl zs None) (mkSens (O:=OM) (m:=m) sm zs None) by split.
by case: (@sensor_run_transport F tr sq eg sqL egL n m lH H lLR LR ops rH rL _ _ rss).
Qed.

Theorem C16_executed_sensor_descriptions_is_theorem_model m n lH (H : 'M[F]_(m,n)) lin circ nr : repr m n lH H ->
  c16_sensor_descs S sqL m n lH lin circ nr = sensor_descriptions (O:=OM) H (mkDesc lin circ 0) nr.
Proof. exact: (@sensor_descriptions_transport F tr sq eg sqL _). Qed.

(* the trajectory over a user-defined additive linear model x -> F x + w (C16_trajectory is about any motion) *)
Theorem C16_executed_user_model_trajectory_is_theorem_model n lF (Fm : 'M[F]_n) lx (x0 : 'cV[F]_n) len zs :
  repr n n lF Fm -> repr n 1 lx x0 ->
  srel (rsim n) (c16_lti_sim_ctor S sqL n lF lx len zs)
       (sim_ctor (O:=OM) (fun (x : 'cV[F]_n) z => additive_motion (O:=OM) (c:=1) Fm (1%:M : 'M[F]_n) x z) x0 len zs).
Proof.
move=> rF rx.
(* the user model's noise factor is the identity *)
have mc l (x : 'cV[F]_n) zs' (rl : repr n 1 l x) :=
  @additive_motion_repr F tr sq eg sqL egL n 1 lF Fm _ _ l x zs' rF (repr_mid tr sqL egL n) rl.
exact: (@sim_ctor_transport F tr sq eg sqL _ n _ _ mc lx x0 len zs rx).
Qed.

Theorem C16_executed_grid_is_theorem_model (xinf xsup yinf ysup : F) nx ny r np lst (st : 'M[F]_(r,np)) lw (w : 'cV[F]_np) :
  repr r np lst st ->
  orel (@rel_grid F r np) (c16_grid S sqL xinf xsup yinf ysup nx ny r np lst lw)
       (grid_initialize_rows (O:=OM) xinf xsup yinf ysup nx ny st w).
Proof. exact: (@grid_initialize_rows_transport F tr sq eg sqL _). Qed.
End C16_executed.

(* the premises are satisfiable together: identity square-root oracles correspond on every Q and
   every represented R; every matrix has a representation *)
Example C16_executed_premises_satisfiable (F : realFieldType) (tr : Transc F) eg d (Ts q : F) rr rc (R : 'M[F]_(rr,rc)) :
  @sq_corr_Q F tr (@id_sq F) eg (@id_sqL F) (fun _ A => A) d Ts q
  /\ @C02_Transport.repr F rr rc (of_mx tr R) R
  /\ @sq_corr_R F tr (@id_sq F) eg (@id_sqL F) (fun _ A => A) rr rc (of_mx tr R) R.
Proof.
split; first exact: sq_corr_Q_id.
by split; [exact: of_mx_repr | apply: sq_corr_R_id; exact: of_mx_repr].
Qed.

(* the premises of the SPD / covariance theorems are satisfiable in every field ... *)
Example C16_premises_satisfiable (F : realFieldType) n :
  (0 < (1 : F)) /\ (1%:M : 'M[F]_n) *m (1%:M : 'M[F]_n)^T = 1%:M /\ spd (1%:M : 'M[F]_n).
Proof. by rewrite ltr01 trmx1 mulmx1; split=> //; split=> //; exact: spd1. Qed.

(* ... and the executable instance of the same model, run over exact rationals: TwoD, T = 2,
   q = 3 gives the block-diagonal closed forms *)
Definition QM := ListMat QOps (fun _ A => A) (fun _ A => A).
Example C16_concrete_FQ :
  qmx_eqb (@wna_F QM TwoD (2#1)%Q) [:: [:: (1#1); (2#1); (0#1); (0#1)]; [:: (0#1); (1#1); (0#1); (0#1)]; [:: (0#1); (0#1); (1#1); (2#1)]; [:: (0#1); (0#1); (0#1); (1#1)]]%Q
  && qmx_eqb (@wna_Q QM TwoD (2#1) (3#1))%Q
             [:: [:: (8#1); (6#1); (0#1); (0#1)]; [:: (6#1); (6#1); (0#1); (0#1)]; [:: (0#1); (0#1); (8#1); (6#1)]; [:: (0#1); (0#1); (6#1); (6#1)]]%Q = true.
Proof. vm_compute. reflexivity. Qed.

(* a length-3 trajectory of x -> F x + z served past its end and after a reset; and the
   selector of components (0, 2, 2) of a 4-vector; and a rejected index *)
Example C16_concrete_serving :
  let mot := fun (x : M QM 2 1) (zs : list Q) => @additive_motion QM 2 1 (@wna_F QM OneD (1#1)%Q) (@mid QM 2) x zs in
  match @sim_ctor QM 2 mot [:: [:: (1#1)]; [:: (1#1)]]%Q 3 [:: (1#1); (0#1); (0#1); (1#1); (5#1); (5#1)]%Q with
  | inr st =>
      map fst (fst (@sim_run QM 2 st [:: SimBuffer; SimBuffer; SimBuffer; SimBuffer; SimOther; SimReset; SimBuffer]))
        = [:: true; true; true; false; false; true; true]
      /\ (match sim_data (snd (@sim_run QM 2 st [:: SimBuffer; SimBuffer; SimBuffer; SimBuffer])) with
          | Some x => qmx_eqb x [:: [:: (4#1)]; [:: (2#1)]]%Q
          | None => false
          end) = true
  | inl _ => False
  end.
Proof. vm_compute. split; reflexivity. Qed.

Example C16_concrete_selector :
  match @linear_model_ctor QM 4 [:: 0; 2; 2]%N 3 3 [:: [:: (1#1); (0#1); (0#1)]; [:: (0#1); (1#1); (0#1)]; [:: (0#1); (0#1); (1#1)]]%Q with
  | inr (H, _, _) => qmx_eqb H [:: [:: (1#1); (0#1); (0#1); (0#1)]; [:: (0#1); (0#1); (1#1); (0#1)]; [:: (0#1); (0#1); (1#1); (0#1)]]%Q = true
  | inl _ => False
  end
  /\ @linear_model_ctor QM 4 [:: 0; 4; 7]%N 3 3 [:: [:: (1#1); (0#1); (0#1)]; [:: (0#1); (1#1); (0#1)]; [:: (0#1); (0#1); (1#1)]]%Q = inl (ErrIndex 1 4).
Proof. vm_compute. split; reflexivity. Qed.

(* the sensor's sampling with an explicit rational factor: R = [4 2; 2 5] = L L^T, L = [2 0; 1 2]
   (the oracle returns L); with Z = I (draws 1 0 0 1, column-major) the sample W = L and W W^T = R;
   the descriptions of a sensor measuring components (0, 2) of a 4-state model are (4+2, 2) *)
Definition QML := ListMat QOps (fun _ _ => [:: [:: (2#1); (0#1)]; [:: (1#1); (2#1)]]%Q) (fun _ A => A).
Example C16_concrete_sensor_noise :
  match @linear_model_ctor QML 4 [:: 0; 2]%N 2 2 [:: [:: (4#1); (2#1)]; [:: (2#1); (5#1)]]%Q with
  | inr (H, R', L) =>
      let W := fst (@noise_sample QML 2 L 2 [:: (1#1); (0#1); (0#1); (1#1)]%Q) in
      qmx_eqb (@mmul QML 2 2 2 L (@mtr QML 2 2 L)) R'
      && qmx_eqb (@mmul QML 2 2 2 W (@mtr QML 2 2 W)) [:: [:: (4#1); (2#1)]; [:: (2#1); (5#1)]]%Q
      && (match @sensor_descriptions QML 2 4 H (mkDesc 4 0 0) 2 with
          | (inp, meas) => Nat.eqb (desc_total inp) 6 && Nat.eqb (d_lin meas) 2 && Nat.eqb (d_circ meas) 0
          end) = true
  | inl _ => False
  end.
Proof. vm_compute. reflexivity. Qed.

(* a 2 x 3 grid over [-1, 3] x [2, 5]: accepted with 6 particles, refused with 5 *)
Example C16_concrete_grid :
  match @grid_initialize QM (-1#1)%Q (3#1)%Q (2#1)%Q (5#1)%Q 2 3 6
          (lbuild QOps 4 6 (fun _ _ => (9#1)%Q)) (lbuild QOps 6 1 (fun _ _ => (9#1)%Q)) with
  | Some (st, _) =>
      qmx_eqb st [:: [:: (-1#1); (-1#1); (-1#1); (3#1); (3#1); (3#1)]; [:: (0#1); (0#1); (0#1); (0#1); (0#1); (0#1)]; [:: (2#1); 7#2; (5#1); (2#1); 7#2; (5#1)]; [:: (0#1); (0#1); (0#1); (0#1); (0#1); (0#1)]]%Q = true
  | None => False
  end
  /\ @grid_initialize QM (-1#1)%Q (3#1)%Q (2#1)%Q (5#1)%Q 2 3 5
          (lbuild QOps 4 5 (fun _ _ => (9#1)%Q)) (lbuild QOps 5 1 (fun _ _ => (9#1)%Q)) = None.
Proof. vm_compute. split; reflexivity. Qed.

Print Assumptions C16_state_dimension.
Print Assumptions C16_F_closed_form.
Print Assumptions C16_Q_closed_form.
Print Assumptions C16_Q_block_minors.
Print Assumptions C16_Q_spd.
Print Assumptions C16_Q_invertible.
Print Assumptions C16_noise_dim.
Print Assumptions C16_noise_cov.
Print Assumptions C16_motion.
Print Assumptions C16_transition_density.
Print Assumptions C16_trajectory_wna.
Print Assumptions C16_selector_matrix.
Print Assumptions C16_sensor_noise_cov.
Print Assumptions C16_sensor_descriptions.
Print Assumptions C16_grid_refusal.
Print Assumptions C16_grid_positions.
Print Assumptions C16_grid_spans.
Print Assumptions C16_grid_weights.
Print Assumptions C16_grid_overwrites.
Print Assumptions C16_factor_exists.
Print Assumptions C16_lti_state_ctor_validation.
Print Assumptions C16_lti_meas_ctor_validation.
Print Assumptions C16_selector_ctor_validation.
Print Assumptions C16_selector_rejects_out_of_range.
Print Assumptions C16_grid_rows_refusal.
Print Assumptions C16_grid_rows_four.
Print Assumptions C16_trajectory.
Print Assumptions C16_zero_length_has_no_state.
Print Assumptions C16_trajectory_recurrence.
Print Assumptions C16_serving_state.
Print Assumptions C16_serving.
Print Assumptions C16_reset_restarts.
Print Assumptions C16_call_output.
Print Assumptions C16_sensor_freeze.
Print Assumptions C16_sensor_serving.
Print Assumptions C16_sensor_draws.
Print Assumptions C16_executed_F_is_theorem_model.
Print Assumptions C16_executed_Q_is_theorem_model.
Print Assumptions C16_executed_sqrtQ_is_theorem_model.
Print Assumptions C16_executed_noise_sample_is_theorem_model.
Print Assumptions C16_executed_motion_is_theorem_model.
Print Assumptions C16_executed_transition_density_is_theorem_model.
Print Assumptions C16_executed_spec_density_is_theorem_model.
Print Assumptions C16_executed_factor_contract_is_theorem_model.
Print Assumptions C16_executed_lti_state_ctor_is_theorem_model.
Print Assumptions C16_executed_lti_meas_ctor_is_theorem_model.
Print Assumptions C16_executed_selector_is_theorem_model.
Print Assumptions C16_executed_sensor_noise_is_theorem_model.
Print Assumptions C16_executed_trajectory_is_theorem_model.
Print Assumptions C16_executed_trajectory_columns_is_theorem_model.
Print Assumptions C16_executed_serving_is_theorem_model.
Print Assumptions C16_executed_sensor_output_is_theorem_model.
Print Assumptions C16_executed_sensor_descriptions_is_theorem_model.
Print Assumptions C16_executed_user_model_trajectory_is_theorem_model.
Print Assumptions C16_executed_grid_is_theorem_model.
