(* Properties_Gauss.v — the numerical routines of the executable list instance
   (Gauss-Jordan inverse / determinant / solve, ListOps.v) compute the MathComp
   inverse / determinant on well-formed invertible inputs, over the scalars of
   any realFieldType; consequently the Gaussian density (Density.v) and the whole
   Kalman correction model (C01_Model.v) executed at the list instance are the
   density / model the theorems are about.  The proofs are in ListGauss.v and
   C01_Transport.v (non-vacuity Examples live there:
   gauss_premises_satisfiable, gauss_concrete_Q, kf_transport_premises_satisfiable); the batch
   log-density is the single one mapped over a Forall2 (C02_Transport.v). *)
Require Import ZArith List.
Require Import BFL.Ops BFL.ListOps BFL.Density BFL.C01_Model.
From mathcomp Require Import ssreflect ssrfun ssrbool eqtype ssrnat seq choice fintype bigop order ssralg ssrnum zmodp matrix mxalgebra.
Require Import BFL.MxOps BFL.LinAlg BFL.ListOpsCorrect BFL.ListGauss BFL.C02_Transport BFL.C01_Transport.
Import GRing.Theory.
Local Open Scope ring_scope.

Section Gauss.
Variable F : realFieldType.
Variable tr : Transc F.
Variable sq : forall n, 'M[F]_n -> 'M[F]_n.
Variable eg : forall n, 'M[F]_n -> 'M[F]_(n,1).
Let S := FOps tr.
Let OL := ListMat S (fun _ X => X) (fun _ X => X).
Let OM := MxMat tr sq eg.
Notation repr m n l A := (@C02_Transport.repr F m n l A) (only parsing).

(* [A | B]  ~>  [1 | A^-1 B], accumulated scalar = det A *)
Theorem Gauss_reduction_correct n q (lA lB : lmxF F) :
  wf n n lA -> wf n q lB -> toM n n lA \in unitmx ->
  [/\ wf n (n + q) (gauss_jordan S n (lhcat S lA lB)).1,
      toM n (n + q) (gauss_jordan S n (lhcat S lA lB)).1
        = row_mx 1%:M (invmx (toM n n lA) *m toM n q lB) &
      (gauss_jordan S n (lhcat S lA lB)).2 = \det (toM n n lA)].
Proof. exact: gauss_jordan_correct. Qed.

Theorem Gauss_linv_correct n (A : lmxF F) :
  wf n n A -> toM n n A \in unitmx ->
  wf n n (linv S n A) /\ toM n n (linv S n A) = invmx (toM n n A).
Proof. exact: linv_correct. Qed.

Theorem Gauss_ldet_correct n (A : lmxF F) :
  wf n n A -> toM n n A \in unitmx ->
  ldet S n A = \det (toM n n A).
Proof. exact: ldet_correct. Qed.

Theorem Gauss_lsolve_correct n q (A B : lmxF F) :
  wf n n A -> toM n n A \in unitmx -> wf n q B ->
  wf n q (lsolve S n A B) /\ toM n q (lsolve S n A B) = invmx (toM n n A) *m toM n q B.
Proof. by move=> wA uA; exact: lsolve_correct. Qed.

(* the interface fields minv / mdet of the executed instance *)
Theorem Gauss_minv_represents n l (A : 'M[F]_n) :
  repr n n l A -> A \in unitmx -> repr n n (@minv OL n l) (@minv OM n A).
Proof. exact: repr_minv. Qed.

Theorem Gauss_mdet_represents n l (A : 'M[F]_n) :
  repr n n l A -> A \in unitmx -> @mdet OL n l = @mdet OM n A.
Proof. exact: repr_mdet. Qed.

(* Density.v *)
Theorem Density_log_density_executed_is_theorem_model
        d lx (x : 'cV[F]_d) lmu (mu : 'cV[F]_d) lc (cov : 'M[F]_d) :
  repr d 1 lx x -> repr d 1 lmu mu -> repr d d lc cov -> cov \in unitmx ->
  @log_density OL d lx lmu lc = @log_density OM d x mu cov.
Proof. exact: log_density_transport. Qed.

Theorem Density_density_executed_is_theorem_model
        d lx (x : 'cV[F]_d) lmu (mu : 'cV[F]_d) lc (cov : 'M[F]_d) :
  repr d 1 lx x -> repr d 1 lmu mu -> repr d d lc cov -> cov \in unitmx ->
  @density OL d lx lmu lc = @density OM d x mu cov.
Proof. exact: density_transport. Qed.

Theorem Density_log_density_batch_executed_is_theorem_model
        d ls (xs : list 'cV[F]_d) lmu (mu : 'cV[F]_d) lc (cov : 'M[F]_d) :
  List.Forall2 (fun l x => repr d 1 l x) ls xs ->
  repr d 1 lmu mu -> repr d d lc cov -> cov \in unitmx ->
  @log_density_batch OL d ls lmu lc = @log_density_batch OM d xs mu cov.
Proof.
move=> rxs rmu rc uc; apply: F2_map_eq; apply: F2_impl rxs => l x rx.
exact: log_density_transport.
Qed.

(* C01_Model.v: the Kalman correction, whole mixture, every number of components *)
Theorem C01_executed_model_is_theorem_model n m
        lH (H : 'M[F]_(m,n)) lR (R : 'M[F]_m) ly (y : 'cV[F]_m)
        (csl : list (gcomp OL n)) (csm : list (gcomp OM n)) :
  repr m n lH H -> repr m m lR R -> repr m 1 ly y -> spd R ->
  List.Forall2 (fun (cl : gcomp OL n) (cm : gcomp OM n) => repr n 1 (gmean cl) (gmean cm : 'cV[F]_n) /\
                             repr n n (gcov cl) (gcov cm : 'M[F]_n)) csl csm ->
  List.Forall (fun c : gcomp OM n => spd (gcov c : 'M[F]_n)) csm ->
  List.Forall2 (fun (ol : kf_out OL n m) (om : kf_out OM n m) =>
      [/\ repr n 1 (gmean (ko_comp ol)) (gmean (ko_comp om) : 'cV[F]_n) /\
          repr n n (gcov (ko_comp ol)) (gcov (ko_comp om) : 'M[F]_n),
          repr m 1 (ko_innov ol) (ko_innov om : 'cV[F]_m) &
          repr m m (ko_Py ol) (ko_Py om : 'M[F]_m)])
    (@kf_correct OL n m lH lR ly csl) (@kf_correct OM n m H R y csm).
Proof. by move=> rH rR ry sR; exact: (kf_correct_transport rH rR ry sR). Qed.

Theorem C01_executed_likelihood_is_theorem_likelihood n m
        lH (H : 'M[F]_(m,n)) lR (R : 'M[F]_m) ly (y : 'cV[F]_m)
        (csl : list (gcomp OL n)) (csm : list (gcomp OM n)) :
  repr m n lH H -> repr m m lR R -> repr m 1 ly y -> spd R ->
  List.Forall2 (fun (cl : gcomp OL n) (cm : gcomp OM n) => repr n 1 (gmean cl) (gmean cm : 'cV[F]_n) /\
                             repr n n (gcov cl) (gcov cm : 'M[F]_n)) csl csm ->
  List.Forall (fun c : gcomp OM n => spd (gcov c : 'M[F]_n)) csm ->
  List.map (@kf_likelihood OL n m) (@kf_correct OL n m lH lR ly csl) =
  List.map (@kf_likelihood OM n m) (@kf_correct OM n m H R y csm).
Proof. by move=> rH rR ry sR; exact: (kf_likelihoods_transport rH rR ry sR). Qed.

Theorem C01_executed_info_posterior_is_theorem_info_posterior n m
        lH (H : 'M[F]_(m,n)) lR (R : 'M[F]_m) ly (y : 'cV[F]_m)
        (cl : gcomp OL n) (cm : gcomp OM n) :
  repr m n lH H -> repr m m lR R -> repr m 1 ly y -> spd R ->
  repr n 1 (gmean cl) (gmean cm : 'cV[F]_n) /\ repr n n (gcov cl) (gcov cm : 'M[F]_n) ->
  spd (gcov cm : 'M[F]_n) ->
  repr n 1 (gmean (@info_posterior OL n m lH lR ly cl))
           (gmean (@info_posterior OM n m H R y cm) : 'cV[F]_n) /\
  repr n n (gcov (@info_posterior OL n m lH lR ly cl))
           (gcov (@info_posterior OM n m H R y cm) : 'M[F]_n).
Proof. by move=> rH rR ry sR; exact: (info_posterior_transport rH rR ry sR). Qed.

End Gauss.

Print Assumptions Gauss_reduction_correct.
Print Assumptions Gauss_linv_correct.
Print Assumptions Gauss_ldet_correct.
Print Assumptions Gauss_lsolve_correct.
Print Assumptions Gauss_minv_represents.
Print Assumptions Gauss_mdet_represents.
Print Assumptions Density_log_density_executed_is_theorem_model.
Print Assumptions Density_density_executed_is_theorem_model.
Print Assumptions Density_log_density_batch_executed_is_theorem_model.
Print Assumptions C01_executed_model_is_theorem_model.
Print Assumptions C01_executed_likelihood_is_theorem_likelihood.
Print Assumptions C01_executed_info_posterior_is_theorem_info_posterior.
