(* C03_QuatAlg.v — quaternion facts needed for the whole-layout theorem on quaternion blocks, on top of
   C18_Proofs and C18_Mean (Coq reals):
     rotv r v                the rotation of the vector v by the unit quaternion r (vector part of r (0, v) conj r)
     conj_exp                r exp(v/2) (conj r) = exp(rotv r v / 2): a unit quaternion acting on the left of a sigma
                             quaternion rotates its tangent offset
     sandwich_sigma          rl (exp(p/2) q) rr = exp(rotv rl p / 2) (rl q rr)
     log_pm_exp              2 log(+-exp(v/2)) = v for v = 0 or outside the cut-off zone and within a half turn
     centre_dominant         a vector meeting the eigen-solver contract for a matrix whose 4 x 4 block is the second
                             moment of a symmetric set with positive resultant is +- the centre (C18's
                             sym_gap_resultant: any sign of the central weight)
   Axioms: the four standard axioms of Coq's Reals. *)
Require Import ZArith Reals Lra Lia List.
Require Import BFL.Ops BFL.C19_ROps BFL.C18_Model BFL.C18_Proofs BFL.C18_Mean.
Import ListNotations.
Local Open Scope R_scope.

Definition pureq (v : V) : Q := mkQR 0 (vx v) (vy v) (vz v).
Definition rotv (r : Q) (v : V) : V := qvec ROps (qmul ROps (qmul ROps r (pureq v)) (qconj ROps r)).

(* conjugation by r multiplies the real part by |r|^2 and acts on the vector part through a matrix
   that depends on r only; stated with the nine entries abstract, so that what follows from linearity
   alone is checked on them and not on the quadratic forms in r *)
Lemma conj_linear (r : Q) : exists m11 m12 m13 m21 m22 m23 m31 m32 m33 : R, forall a x y z,
  qmul ROps (qmul ROps r (mkQR a x y z)) (qconj ROps r) =
  mkQR (a * qnorm2 r) (m11 * x + m12 * y + m13 * z) (m21 * x + m22 * y + m23 * z) (m31 * x + m32 * y + m33 * z).
Proof.
  exists (qw r * qw r + qx r * qx r - qy r * qy r - qz r * qz r), (2 * (qx r * qy r - qw r * qz r)), (2 * (qx r * qz r + qw r * qy r)),
         (2 * (qx r * qy r + qw r * qz r)), (qw r * qw r - qx r * qx r + qy r * qy r - qz r * qz r), (2 * (qy r * qz r - qw r * qx r)),
         (2 * (qx r * qz r - qw r * qy r)), (2 * (qy r * qz r + qw r * qx r)), (qw r * qw r - qx r * qx r - qy r * qy r + qz r * qz r).
  (* lra, not ring, here and below: these are polynomial identities in the components, and
     ring's reflexive proof of them is slow to check *)
  intros a x y z. unfold qnorm2, qmul, qconj, sub, add, mul. cbn. f_equal; lra.
Qed.

Lemma rot_pure r v : qmul ROps (qmul ROps r (pureq v)) (qconj ROps r) =
  mkQR 0 (vx (rotv r v)) (vy (rotv r v)) (vz (rotv r v)).
Proof.
  destruct (conj_linear r) as (m11 & m12 & m13 & m21 & m22 & m23 & m31 & m32 & m33 & E).
  unfold rotv, pureq. rewrite !E, Rmult_0_l. reflexivity.
Qed.

Lemma ss_rotv r v : qnorm2 r = 1 -> ss (rotv r v) = ss v.
Proof.
  intros Hr. set (w := rotv r v).
  assert (E : qnorm2 (mkQR 0 (vx w) (vy w) (vz w)) = qnorm2 r * qnorm2 (pureq v) * qnorm2 (qconj ROps r)).
  { unfold w. rewrite <- rot_pure, !qnorm2_mul. reflexivity. }
  assert (Hc : qnorm2 (qconj ROps r) = qnorm2 r) by (unfold qnorm2; cbn; lra).
  rewrite Hc, Hr in E. clearbody w. unfold qnorm2, pureq in E. simpl in E. unfold ss. lra.
Qed.

Lemma n3_rotv r v : qnorm2 r = 1 -> n3 (rotv r v) = n3 v.
Proof. intros Hr. unfold n3. now rewrite ss_rotv. Qed.

(* r (a + (s / n) v) (conj r) = a + (s / n) (rotv r v) for a unit r, in the shape rv_to_q_big gives *)
Lemma conj_affine (r : Q) (a s n : R) (v : V) : qnorm2 r = 1 ->
  qmul ROps (qmul ROps r (mkQR a (s * vx v / n) (s * vy v / n) (s * vz v / n))) (qconj ROps r) =
  mkQR a (s * vx (rotv r v) / n) (s * vy (rotv r v) / n) (s * vz (rotv r v) / n).
Proof.
  intros Hr. destruct (conj_linear r) as (m11 & m12 & m13 & m21 & m22 & m23 & m31 & m32 & m33 & E).
  unfold rotv, pureq. rewrite !E, Hr. unfold qvec, Rdiv. cbn. f_equal; lra.
Qed.

Lemma conj_exp r v : qnorm2 r = 1 ->
  qmul ROps (qmul ROps r (rv_to_q ROps v)) (qconj ROps r) = rv_to_q ROps (rotv r v).
Proof.
  intros Hr. destruct (Rlt_dec cut (n3 v)) as [H|H].
  - rewrite (rv_to_q_big v H), (rv_to_q_big (rotv r v)) by (rewrite n3_rotv; assumption).
    rewrite (n3_rotv r v Hr). now apply conj_affine.
  - rewrite (rv_to_q_zone v), (rv_to_q_zone (rotv r v)) by (rewrite ?n3_rotv by assumption; lra).
    rewrite qmul_Q1_r, qmul_conj_r, Hr. reflexivity.
Qed.

Lemma qconj_unit_l r : qnorm2 r = 1 -> qmul ROps (qconj ROps r) r = Q1.
Proof. intros H. rewrite qmul_R, qconj_R. unfold Q1, qnorm2 in *. simpl. f_equal; lra. Qed.

Lemma qmul_1_l q : qmul ROps Q1 q = q.
Proof. destruct q. rewrite qmul_R. unfold Q1. simpl. f_equal; lra. Qed.

(* a unit quaternion on each side of a sigma quaternion *)
Lemma sandwich_sigma rl rr q p : qnorm2 rl = 1 ->
  qmul ROps (qmul ROps rl (qsum_one ROps q p)) rr =
  qmul ROps (rv_to_q ROps (rotv rl p)) (qmul ROps (qmul ROps rl q) rr).
Proof.
  intros Hl. unfold qsum_one. rewrite <- (conj_exp rl p Hl).
  rewrite !qmul_assoc. f_equal. f_equal.
  rewrite <- !qmul_assoc. rewrite (qconj_unit_l rl Hl), qmul_1_l. reflexivity.
Qed.

Lemma rotv_neg r v : rotv r (vneg v) = vneg (rotv r v).
Proof.
  destruct (conj_linear r) as (m11 & m12 & m13 & m21 & m22 & m23 & m31 & m32 & m33 & E).
  unfold rotv, pureq. rewrite !E. unfold vneg, qvec. cbn. f_equal; lra.
Qed.

Lemma rotv_V0 r : rotv r V0 = V0.
Proof.
  destruct (conj_linear r) as (m11 & m12 & m13 & m21 & m22 & m23 & m31 & m32 & m33 & E).
  unfold rotv, pureq. rewrite E. unfold V0, qvec. cbn. f_equal; lra.
Qed.

(* a rotation vector the exp / log pair reads back exactly: zero, or outside the cut-off zone and
   strictly within a half turn *)
Definition ok_rv (v : V) : Prop := v = V0 \/ (cut < sin (n3 v / 2) /\ n3 v < PI).

Lemma ok_rv_rotv r v : qnorm2 r = 1 -> ok_rv v -> ok_rv (rotv r v).
Proof.
  intros Hr [->|[H1 H2]].
  - left. apply rotv_V0.
  - right. rewrite n3_rotv by assumption. auto.
Qed.

Lemma ok_rv_neg v : ok_rv v -> ok_rv (vneg v).
Proof.
  intros [->|[H1 H2]]; [left; unfold vneg, V0; simpl; f_equal; lra | right; rewrite n3_vneg; auto].
Qed.

Lemma log_pm_exp v : ok_rv v ->
  q_to_rv ROps (rv_to_q ROps v) = v /\ q_to_rv ROps (qneg (rv_to_q ROps v)) = v.
Proof.
  pose proof PI_RGT_0 as Hpi. pose proof cut_pos as Hc.
  intros [->|[H1 H2]].
  - rewrite exp_V0. split; [|rewrite double_cover by (simpl; lra)]; exact log_Q1.
  - assert (E : q_to_rv ROps (rv_to_q ROps v) = v) by (apply log_exp; lra).
    split; [exact E|]. rewrite double_cover; [exact E|].
    rewrite rv_to_q_big by (apply norm_gt_cut; exact H1). simpl.
    pose proof (n3_nonneg v). apply Rgt_not_eq. apply cos_gt_0; lra.
Qed.

Lemma cos_le_rcos v : cos (n3 v) <= rcos v.
Proof.
  destruct (Rlt_dec cut (n3 v)) as [H|H].
  - rewrite rcos_big by assumption. apply Rle_refl.
  - rewrite rcos_zone by lra. apply COS_bound.
Qed.

Lemma max_eig_contract_ext4 (A B : M4) v :
  (forall i j, (i < 4)%nat -> (j < 4)%nat -> A i j = B i j) -> max_eig_contract A v -> max_eig_contract B v.
Proof.
  intros E [Hn [lam [Hv Hmax]]]. split; [exact Hn|]. exists lam. split; [now apply (is_eigvec_ext4 A B)|].
  intros u mu Hu Hev. apply (Hmax u mu Hu). apply (is_eigvec_ext4 B A); [|exact Hev].
  intros i j Hi Hj. symmetry. now apply E.
Qed.

(* a vector that meets the eigen-solver contract for (a matrix equal on its 4 x 4 block to) the
   second-moment matrix of a symmetric set with positive resultant is +- the centre *)
Lemma centre_dominant (A : M4) (qc m : Q) w0 ws al :
  qnorm2 qc = 1 -> length ws = length al -> Forall (fun w => 0 < w) ws ->
  2 * vcoef ws al < w0 + 2 * sym_coef ws al ->
  (forall i j, (i < 4)%nat -> (j < 4)%nat -> A i j = outer_sum ROps (sym_weights w0 ws) (sym_quats qc al) i j) ->
  max_eig_contract A m -> m = qc \/ m = qneg qc.
Proof.
  intros Hq Hlen Hws Hres HA Hm.
  pose proof (max_eig_contract_ext4 A _ m HA Hm) as Hm'.
  apply (mean_symmetric_partial (fun _ => m) qc w0 ws al Hq Hlen Hm').
  now apply sym_gap_resultant.
Qed.
